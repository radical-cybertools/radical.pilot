(* C02 -- a granted placement has exactly the requested shape.
   Proofs here cite the group's lemmas or compute on the model; what needs an
   induction stands in the group.
   Model: RP.Sched.Model.  Module AppSide: Pilot.nodelist (RP.AppSlots). *)
From Coq Require Import ZArith List.
From Coq Require Import Lia.
From RP Require Import Sched.Model Sched.FindProofs Sched.Inv Sched.SchedProofs Sched.ShapeProofs Sched.ExclProofs Sched.TagMono.
From Coq Require String.
From RP Require Sched.Oracle.
From RP Require AppSlots.Model AppSlots.Oracle AppSlots.NodeProofs AppSlots.InvProofs AppSlots.Proofs.
Import ListNotations.
Open Scope Z_scope.

(* Whatever the occupancy state (any node map with unique node indices, any
   search offset, any colocation history) and for non-negative request
   figures: if the scheduler grants a placement
   it has exactly `ranks` slots; every slot lies on one existing node, holds
   exactly max(1, cores_per_rank) distinct, existing cores, GPU entries on
   distinct GPUs whose shares add up to gpus_per_rank, and the requested lfs and
   mem; a colocate tag seen before confines every slot to the nodes recorded
   for that tag; and no node carries more than ranks_per_node slots. *)
Theorem C02_granted_shape :
  forall (c : cfg) (s : sstate) (t : req) off co tg (sl : list slot),
    NoDup (map n_idx (nodes s)) -> wf_req t -> 0 <= r_ranks t ->
    schedule_task c s t = inr (off, co, tg, Some sl) ->
    Z.of_nat (length sl) = r_ranks t /\
    (forall x, In x sl ->
       shape_ok (nodes s) (Z.to_nat (cps_of t)) (r_gpr t) (r_lfs t) (r_mem t) (hist_of s t) x) /\
    (0 < r_rpn t -> forall n, count_on n sl <= r_rpn t).
Proof. exact schedule_task_shape. Qed.
Print Assumptions C02_granted_shape.

(* a request whose per-rank needs exceed what a single node offers is rejected
   (AssertionError -> FAILED), never granted a smaller placement *)
Theorem C02_oversize_rejected :
  forall (c : cfg) (s : sstate) (t : req) (s' : sstate) (res : tres),
    cpn c < cps_of t \/ 64 * gpn c < r_gpr t \/ lfs_pn c < r_lfs t \/ mem_pn c < r_mem t ->
    try_allocation c s t = (s', res) -> res = TFail EAssert.
Proof.
  intros c s t s' res H E. destruct (oversize_rejected c s t H) as [off Ho].
  unfold try_allocation in E. rewrite Ho in E. injection E as _ <-. reflexivity.
Qed.
Print Assumptions C02_oversize_rejected.

(* the cores and GPUs of a granted placement are Free in the map that was searched *)
Theorem C02_granted_is_free :
  forall (c : cfg) (s : sstate) (t : req) off co tg (sl : list slot),
    NoDup (map n_idx (nodes s)) -> nodes_nonneg (nodes s) -> wf_req t ->
    schedule_task c s t = inr (off, co, tg, Some sl) -> fresh (nodes s) sl.
Proof. exact schedule_task_fresh. Qed.
Print Assumptions C02_granted_is_free.

(* per node: _find_resources returns at most the slots asked for, each on that
   node with the requested lfs, mem and number of free cores *)
Theorem C02_find_resources_slots :
  forall nd cps g lfs mem n ci gi lu mu gused sl,
    0 <= lfs -> 0 <= mem ->
    find_loop nd n cps g lfs mem ci gi lu mu gused = inr sl ->
    (length sl <= n)%nat /\ Forall (slot_local_ok nd cps g lfs mem) sl.
Proof.
  intros nd cps g lfs mem n ci gi lu mu gused sl Hl Hm H.
  exact (conj (find_loop_len _ _ _ _ _ _ _ _ _ _ _ _ H)
              (proj1 (proj2 (find_loop_basic nd cps g lfs mem n ci gi lu mu gused sl H)))).
Qed.
Print Assumptions C02_find_resources_slots.

(* the `exclusive` rule of colocation tags: a task with a colocate tag not seen before and exclusive=True is,
   as long as the pilot has more nodes than tagged ones, granted no slot on a node that an earlier tag uses --
   in any state, for any offset, request shape and occupancy *)
Theorem C02_exclusive_tag_avoids_tagged_nodes :
  forall (c : cfg) (s : sstate) (t : req) off co tg (sl : list slot),
    schedule_task c s t = inr (off, co, tg, Some sl) ->
    forall tag, r_colo t = Some tag -> zlookup tag (colo s) = None -> r_excl t = true ->
    (length (tagged s) < length (nodes s))%nat ->
    forall x, In x sl -> zmem (s_node x) (tagged s) = false.
Proof. exact exclusive_avoids_tagged. Qed.
Print Assumptions C02_exclusive_tag_avoids_tagged_nodes.

(* what a grant records: exactly its nodes under its tag, every other tag's record untouched, the tagged set
   grown by exactly these nodes; a grant without a tag and a search that grants nothing record nothing *)
Theorem C02_tag_recorded :
  forall (c : cfg) (s : sstate) (t : req) off co tg (sl : list slot),
    schedule_task c s t = inr (off, co, tg, Some sl) ->
    forall tag, r_colo t = Some tag ->
    zlookup tag co = Some (map s_node sl) /\
    (forall tag', tag' <> tag -> zlookup tag' co = zlookup tag' (colo s)) /\
    (forall i, zmem i tg = true <-> zmem i (tagged s) = true \/ In i (map s_node sl)).
Proof. exact tag_recorded. Qed.
Print Assumptions C02_tag_recorded.

Theorem C02_untagged_or_failed_search_records_nothing :
  forall (c : cfg) (s : sstate) (t : req) off co tg,
    (forall sl, schedule_task c s t = inr (off, co, tg, Some sl) -> r_colo t = None -> co = colo s /\ tg = tagged s) /\
    (schedule_task c s t = inr (off, co, tg, None) -> co = colo s /\ tg = tagged s).
Proof.
  intros c s t off co tg. split.
  - intros sl H. exact (untagged_grant_keeps_history c s t off co tg sl H).
  - exact (no_grant_keeps_history c s t off co tg).
Qed.
Print Assumptions C02_untagged_or_failed_search_records_nothing.

(* two tags, the later one new and exclusive: whatever happened in between, as long as the nodes tagged by the
   first grant are still in the tagged set and an untagged node exists, the two placements share no node *)
Theorem C02_exclusive_tags_on_disjoint_nodes :
  forall c s1 t1 off1 co1 tg1 sl1 s2 t2 off2 co2 tg2 sl2 a b,
    schedule_task c s1 t1 = inr (off1, co1, tg1, Some sl1) -> r_colo t1 = Some a ->
    (forall i, zmem i tg1 = true -> zmem i (tagged s2) = true) ->
    schedule_task c s2 t2 = inr (off2, co2, tg2, Some sl2) -> r_colo t2 = Some b ->
    zlookup b (colo s2) = None -> r_excl t2 = true ->
    (length (tagged s2) < length (nodes s2))%nat ->
    forall x y, In x sl1 -> In y sl2 -> s_node x <> s_node y.
Proof.
  intros c s1 t1 off1 co1 tg1 sl1 s2 t2 off2 co2 tg2 sl2 a b H1 Ha Hsub H2 Hb Hnew He Hlen x y Hx Hy E.
  pose proof (exclusive_avoids_tagged c s2 t2 off2 co2 tg2 sl2 H2 b Hb Hnew He Hlen y Hy) as Hy'.
  destruct (tag_recorded c s1 t1 off1 co1 tg1 sl1 H1 a Ha) as (_ & _ & Htg).
  assert (zmem (s_node x) tg1 = true) as Hx' by (apply Htg; right; apply in_map; exact Hx).
  apply Hsub in Hx'. rewrite E in Hx'. congruence.
Qed.
Print Assumptions C02_exclusive_tags_on_disjoint_nodes.

(* along EVERY history of arrivals, cancels, releases, named environments and iterations (any bisect strategy):
   the set of tagged nodes only grows, and in every reachable state it contains the nodes recorded for every tag *)
Theorem C02_tagged_nodes_only_grow :
  forall c ops w w', run c w ops = Some w' ->
    forall i, zmem i (tagged (st w)) = true -> zmem i (tagged (st w')) = true.
Proof. intros c ops w w' H. exact (proj1 (run_tinv c ops w w' H)). Qed.
Print Assumptions C02_tagged_nodes_only_grow.

Theorem C02_reachable_tag_nodes_are_tagged :
  forall c ns ops w', run c (init_world ns) ops = Some w' ->
    forall tag h, zlookup tag (colo (st w')) = Some h -> forall i, In i h -> zmem i (tagged (st w')) = true.
Proof. exact reachable_tag_nodes_tagged. Qed.
Print Assumptions C02_reachable_tag_nodes_are_tagged.

(* hence, in every reachable state: a task with a new exclusive tag is (while an untagged node exists) granted no
   slot on a node recorded for ANY tag of the history *)
Theorem C02_reachable_exclusive_avoids_all_tags :
  forall c ns ops w' t off co tg sl tag,
    run c (init_world ns) ops = Some w' ->
    schedule_task c (st w') t = inr (off, co, tg, Some sl) ->
    r_colo t = Some tag -> zlookup tag (colo (st w')) = None -> r_excl t = true ->
    (length (tagged (st w')) < length (nodes (st w')))%nat ->
    forall tag' h, zlookup tag' (colo (st w')) = Some h -> forall x, In x sl -> ~ In (s_node x) h.
Proof. exact reachable_exclusive_avoids_all_tags. Qed.
Print Assumptions C02_reachable_exclusive_avoids_all_tags.

(* the oracle clause exclusive_tag_nodes (Sched/Oracle.c02_excl_bit, the function the check evaluates on every
   grant of the implementation), fed with the model's own tag records and tagged set, is true on every grant of
   the model: the clause demands nothing the code's model does not guarantee *)
Theorem C02_exclusive_clause_holds_in_model :
  forall (c : cfg) (s : sstate) (t : req) off co tg (sl : list slot),
    schedule_task c s t = inr (off, co, tg, Some sl) ->
    RP.Sched.Oracle.c02_excl_bit (colo s) (tagged s) (length (nodes s)) t sl = true.
Proof.
  intros c s t off co tg sl H. unfold Sched.Oracle.c02_excl_bit.
  destruct (r_colo t) as [tag|] eqn:Ec; [|reflexivity].
  destruct (zlookup tag (colo s)) eqn:Ez; [reflexivity|].
  destruct (r_excl t) eqn:Ee; [|reflexivity]. cbn [andb].
  destruct (length (tagged s) <? length (nodes s))%nat eqn:El; [|reflexivity].
  apply Nat.ltb_lt in El. apply forallb_forall. intros x Hx.
  rewrite (exclusive_avoids_tagged c s t off co tg sl H tag Ec Ez Ee El x Hx). reflexivity.
Qed.
Print Assumptions C02_exclusive_clause_holds_in_model.

(* likewise the colocate clause (Sched/Oracle.c02_colo_bit) *)
Theorem C02_colocate_clause_holds_in_model :
  forall (c : cfg) (s : sstate) (t : req) off co tg (sl : list slot),
    schedule_task c s t = inr (off, co, tg, Some sl) ->
    RP.Sched.Oracle.c02_colo_bit (colo s) t sl = true.
Proof.
  intros c s t off co tg sl H. unfold Sched.Oracle.c02_colo_bit.
  destruct (r_colo t) as [tag|] eqn:Ec; [|reflexivity].
  destruct (zlookup tag (colo s)) as [h|] eqn:Ez; [|reflexivity].
  apply forallb_forall. intros x Hx.
  exact (known_tag_stays_on_its_nodes c s t off co tg sl H tag h Ec Ez x Hx).
Qed.
Print Assumptions C02_colocate_clause_holds_in_model.

(* the count clauses of the oracle (Sched/Oracle.c02_ranks_bit, c02_rpn_bit) hold on every grant of the model *)
Theorem C02_count_clauses_hold_in_model :
  forall (c : cfg) (s : sstate) (t : req) off co tg (sl : list slot),
    NoDup (map n_idx (nodes s)) -> wf_req t -> 0 <= r_ranks t -> 0 <= r_rpn t ->
    schedule_task c s t = inr (off, co, tg, Some sl) ->
    RP.Sched.Oracle.c02_ranks_bit t sl = true /\ RP.Sched.Oracle.c02_rpn_bit t sl = true.
Proof.
  intros c s t off co tg sl Hnd Hwf Hr Hrpn H.
  destruct (schedule_task_shape c s t off co tg sl Hnd Hwf Hr H) as (Hlen & _ & Hcnt).
  split.
  - apply Z.eqb_eq. exact Hlen.
  - unfold Sched.Oracle.c02_rpn_bit. destruct (r_rpn t =? 0) eqn:E; [reflexivity|]. apply Z.eqb_neq in E.
    apply forallb_forall. intros x _. apply Z.leb_le. apply (Hcnt ltac:(lia) (s_node x)).
Qed.
Print Assumptions C02_count_clauses_hold_in_model.

(* PARTIAL: placements supplied by the application are passed through as they
   are (their shape is the application's). *)

Example C02_nonvacuous :
  let s := init_state [mkNode 0 [Free; Busy; Free; Free] [Free; Free] 100 100;
                       mkNode 1 [Free; Free; Free; Free] [Down; Free] 100 100] in
  schedule_task (mkCfg 4 2 100 100 false) s (mkReq 1 3 2 32 10 0 2 0 None false None None)
  = inr (1%nat, [], [],
         Some [mkSlot 0 [0%nat; 2%nat] [(0%nat, 32)] 10 0;
               mkSlot 1 [0%nat; 1%nat] [(1%nat, 32)] 10 0;
               mkSlot 1 [2%nat; 3%nat] [(1%nat, 32)] 10 0]).
Proof. vm_compute. reflexivity. Qed.

Module AppSide.
Import Coq.Strings.String.
Import RP.AppSlots.Model RP.AppSlots.Oracle RP.AppSlots.NodeProofs RP.AppSlots.Proofs.
Open Scope string_scope.
Open Scope Z_scope.

(* Application side: `Pilot.nodelist` (model RP.AppSlots.Model); the vocabulary (wf_nodes, op_ok,
   all_disciplined, run, judge) is as in Props/C01.v, Module AppSide. *)

(* Every answer of find_slots(rr, n) that is not None / an error is a list of exactly n slots, each on
   ONE node of the list and carrying that node's id and name, with exactly rr.n_cores distinct existing
   cores at occupation rr.core_occupation, exactly rr.n_gpus distinct existing GPUs at
   rr.gpu_occupation, lfs = rr.lfs and mem = rr.mem -- after ANY sequence of calls *)
Theorem C02_app_slots_have_requested_shape :
  forall (ns0 : list node) (verified : bool) (ops : list op),
    wf_nodes ns0 -> Forall op_ok ops ->
    all_disciplined [] ops (run (start_nl ns0 verified) ops) = true ->
    v_shape (judge ns0 ns0 [] ops (run (start_nl ns0 verified) ops)) = true.
Proof. exact app_shape. Qed.
Print Assumptions C02_app_slots_have_requested_shape.

(* the same for one call in any reached state *)
Theorem C02_app_found_slots_shape :
  forall (ns0 : list node) (nl : nlist) (h : list slot) (r : rreq) (n : Z) (nl' : nlist) (sl : list slot),
    Reached ns0 nl h -> rr_ok r -> 0 < r_co r -> find_slots nl r n = (nl', RSlots sl) ->
    ok_shape ns0 r n sl = true.
Proof. exact found_slots_shape. Qed.
Print Assumptions C02_app_found_slots_shape.

Example C02_app_nonvacuous :
  let ns0 := [mkNode 0 "a" [Some 64; Some 0; None; Some 32] [Some 0; Some 0] (Some 100) (Some 50);
              mkNode 1 "b" [Some 64; Some 0; None; Some 32] [Some 0; Some 0] (Some 100) (Some 50)] in
  snd (find_slots (start_nl ns0 true) (mkRR 2 32 1 64 40 5 false) 2)
  = RSlots [mkSlot [(1, 32); (3, 32)] [(0, 64)] 40 5 0 "a"; mkSlot [(1, 32); (3, 32)] [(0, 64)] 40 5 1 "b"].
Proof. vm_compute. reflexivity. Qed.

End AppSide.
