(* C01 -- pilot resources are never oversubscribed.
   Proofs here cite the group's lemmas or compute on the model; what needs an
   induction stands in the group.
   Model: RP.Sched.Model (the loop of AgentSchedulingComponent._schedule_tasks
   on a Continuous scheduler).  GPU shares are counted in 1/64 of a GPU.  The
   ghost component `heldg` of a state is the list of placements granted and not
   yet released.  Module AppSide: Pilot.nodelist (RP.AppSlots). *)
From Coq Require Import ZArith List.
From RP Require Import Sched.Model Sched.Inv Sched.SchedProofs Sched.RunProofs.
From Coq Require String.
From RP Require AppSlots.Model AppSlots.Oracle AppSlots.NodeProofs AppSlots.Hang AppSlots.InvProofs AppSlots.Proofs AppSlots.Lists AppSlots.AllocProofs.
Import ListNotations.
Open Scope Z_scope.

(* In EVERY state reachable from the initial node list by ANY sequence of
   arrivals (scheduler-placed, well-formed requests), cancel messages, named
   environment registrations, unschedule messages (release discipline) and loop
   iterations, with ANY lazy_bisect strategy:
     - no core is held by two tasks (or twice by one),
     - the shares held on any GPU sum to at most one GPU (64/64),
     - lfs and mem held on a node do not exceed what the node has,
     - every held core/GPU was usable (Free, hence not blocked) in the initial
       node list -- in particular it lies on a node of that list. *)
Theorem C01_no_oversubscription :
  forall (ns0 : list node) (c : cfg) (ops : list op) (w' : world),
    NoDup (map n_idx ns0) -> (forall nd, In nd ns0 -> 0 <= n_lfs nd /\ 0 <= n_mem nd) ->
    Forall op_good ops -> run_disciplined c (init_world ns0) ops ->
    run c (init_world ns0) ops = Some w' ->
    no_oversubscription ns0 (heldg (st w')).
Proof.
  intros ns0 c ops w' Hnd Hnn Hg Hd Hr.
  destruct (run_ok ns0 c ops _ _ (winv_init ns0 Hnd Hnn) Hg Hd Hr) as ((I & _) & _).
  apply (inv_no_oversubscription _ _ _ I).
Qed.
Print Assumptions C01_no_oversubscription.

(* the invariant behind it: the node map is the initial one with exactly the held
   placements marked, and the counter of running tasks is the number of holders *)
Theorem C01_invariant_reachable :
  forall (ns0 : list node) (c : cfg) (ops : list op) (w w' : world),
    WInv ns0 w -> Forall op_good ops -> run_disciplined c w ops -> run c w ops = Some w' -> WInv ns0 w'.
Proof. exact run_ok. Qed.
Print Assumptions C01_invariant_reachable.

(* what the scheduler chooses is fresh: only Free cores/GPUs of the node it
   names, no core twice, GPU shares of the placement <= 1 per GPU, lfs/mem
   within what the node has left *)
Theorem C01_scheduler_choice_is_fresh :
  forall (c : cfg) (s : sstate) (t : req) off co tg (sl : list slot),
    NoDup (map n_idx (nodes s)) -> nodes_nonneg (nodes s) -> wf_req t ->
    schedule_task c s t = inr (off, co, tg, Some sl) -> fresh (nodes s) sl.
Proof. exact schedule_task_fresh. Qed.
Print Assumptions C01_scheduler_choice_is_fresh.

(* ANY fresh placement -- chosen by the scheduler or supplied by the
   application -- keeps the invariant when it is marked as used *)
Theorem C01_fresh_grant_preserves :
  forall (ns0 ns : list node) (h : held) (u : Z) (sl : list slot),
    Inv ns0 ns h -> fresh ns sl -> Inv ns0 (change_slot_states true sl ns) (h ++ [(u, sl)]).
Proof. exact inv_grant. Qed.
Print Assumptions C01_fresh_grant_preserves.

Theorem C01_invariant_implies_clauses :
  forall (ns0 ns : list node) (h : held), Inv ns0 ns h -> no_oversubscription ns0 h.
Proof. exact inv_no_oversubscription. Qed.
Print Assumptions C01_invariant_implies_clauses.

(* PARTIAL with respect to the property text: application-supplied slots are
   covered only when they are fresh at the moment the task arrives
   (C01_fresh_grant_preserves); the code grants them unchecked -- see the
   recorded finding `app_supplied:*` -- and requests are assumed to have
   non-negative gpu/lfs/mem figures (wf_req). *)

(* non-vacuity: two tasks share a 2-core node, one is released, a third runs *)
Example C01_nonvacuous :
  let ns0 := [mkNode 0 [Free; Free; Down] [Free] 100 100] in
  let c := mkCfg 3 1 100 100 true in
  let t u g := mkReq u 1 1 g 60 0 0 0 None false None None in
  let ops := [Arrive [t 1 32; t 2 0; t 3 32]; Iterate [];
              Unsched [(1, [mkSlot 0 [0%nat] [(0%nat, 32)] 60 0])]; Iterate [[(2, true); (3, true)]]; Iterate [[(2, true); (3, true)]]] in
  match run c (init_world ns0) ops with
  | Some w => map fst (heldg (st w)) = [2] /\ n_cores (hd (mkNode 0 [] [] 0 0) (nodes (st w))) = [Busy; Free; Down]
  | None => False
  end.
Proof. vm_compute. auto. Qed.

Module AppSide.
Import Coq.Strings.String.
Import RP.AppSlots.Model RP.AppSlots.Oracle RP.AppSlots.Hang RP.AppSlots.Proofs RP.AppSlots.Lists RP.AppSlots.AllocProofs.
Open Scope string_scope.
Open Scope Z_scope.

(* Application side: `Pilot.nodelist` (resource_config.NodeList / Node), the helper with which an
   application chooses the placements it supplies in TaskDescription.slots.  Model: RP.AppSlots.Model;
   occupations in 1/64 of a core / GPU (BUSY = 64).

   wf_nodes ns0     : node ids (Node.index) pairwise distinct -- not necessarily the list positions --,
                      lfs / mem a number >= 0 or not reported (None), every core / GPU DOWN or
                      occupied between FREE and BUSY; node names arbitrary (possibly all equal);
   op_ok            : the calls are find_slots / release_slots / verify / Node.find_slot with
                      non-negative sizes and occupations (find_slots: core occupation > 0), and
                      Node.allocate_slot(slot, _check=True) with an application-made slot (non-negative indices,
                      occupations, lfs, mem; a core or GPU may be named more than once); direct
                      Node.deallocate_slot calls are excluded;
   all_disciplined  : release_slots is given slots the application holds (got from find_slots,
                      Node.find_slot or Node.allocate_slot and not yet given back), counting repetitions;
   run .. ops       : the answer and the node list after every call (any number of calls);
   judge            : the clauses the check evaluates on the real objects' trace. *)

(* After EVERY call of ANY sequence: no core / GPU occupation is above BUSY or below FREE, lfs / mem
   of a node stay between 0 and what the node has, and the slots handed out and not yet released are
   compatible: per core / GPU their occupations plus the initial occupation do not exceed BUSY, a
   DOWN resource is in no slot, their lfs / mem sums fit the node *)
Theorem C01_app_no_oversubscription :
  forall (ns0 : list node) (verified : bool) (ops : list op),
    wf_nodes ns0 -> Forall op_ok ops ->
    all_disciplined [] ops (run (start_nl ns0 verified) ops) = true ->
    v_nover (judge ns0 ns0 [] ops (run (start_nl ns0 verified) ops)) = true.
Proof. exact app_no_oversubscription. Qed.
Print Assumptions C01_app_no_oversubscription.

(* the same, state by state: `Reached ns0 nl h` (the initial node list with exactly the slots h
   handed out and not given back) holds initially, is kept by every call, and implies the clause *)
Theorem C01_app_reached_start :
  forall (ns0 : list node) (verified : bool), wf_nodes ns0 -> Reached ns0 (start_nl ns0 verified) [].
Proof. exact reached_start. Qed.
Print Assumptions C01_app_reached_start.

Theorem C01_app_reached_step :
  forall (ns0 : list node) (nl : nlist) (h : list slot) (o : op) (nl' : nlist) (res : res),
    Reached ns0 nl h -> op_ok o -> op_disciplined h o = true -> step nl o = (nl', res) ->
    Reached ns0 nl' (held_after h o res).
Proof. exact reached_step. Qed.
Print Assumptions C01_app_reached_step.

Theorem C01_app_reached_no_oversubscription :
  forall (ns0 : list node) (nl : nlist) (h : list slot),
    Reached ns0 nl h -> ok_nover ns0 (nl_nodes nl) h = true.
Proof. exact reached_no_oversubscription. Qed.
Print Assumptions C01_app_reached_no_oversubscription.

(* the unbounded `while True` of find_slots ends (the model's EHang answer never occurs) -- in ANY
   state of the node list, also one left by releases of slots that were not held (occupations
   outside FREE .. BUSY), for requests with non-negative sizes and a core occupation of at least
   one unit *)
Theorem C01_app_find_slots_terminates :
  forall (nl : nlist) (r : rreq) (n : Z) (nl' : nlist) (res : res),
    0 <= r_nc r -> 0 <= r_ng r -> 0 < r_co r -> find_slots nl r n = (nl', res) -> res <> RErr EHang.
Proof. exact find_slots_never_hangs. Qed.
Print Assumptions C01_app_find_slots_terminates.

(* Node.allocate_slot(slot, _check=True) with a slot MADE BY THE APPLICATION: for any node within its bounds
   and any slot with non-negative indices and occupations -- also one that names a core or GPU more than once --
   the call either raises and leaves the node exactly as it was, or adds exactly the slot and every core / GPU
   occupation stays within FREE .. BUSY, lfs / mem stay >= 0 (the code since /repo 60b6670, which counts what
   the slot itself already asks of a core: before it, core 0 named twice with 40/64 passes and ends at 80/64) *)
Theorem C01_app_allocate_checked_sound :
  forall (nd : node) (s : slot) (nd' : node),
    node_bounded nd -> slot_wf s -> allocate_slot nd s = (nd', None) ->
    node_bounded nd' /\
    nd_index nd' = nd_index nd /\ nd_name nd' = nd_name nd /\
    shifted (fun j => sum_at j (s_cores s)) (nd_cores nd) (nd_cores nd') /\
    shifted (fun j => sum_at j (s_gpus s)) (nd_gpus nd) (nd_gpus nd') /\
    nd_lfs nd' = match nd_lfs nd with Some l => Some (l - s_lfs s) | None => None end /\
    nd_mem nd' = match nd_mem nd with Some m => Some (m - s_mem s) | None => None end.
Proof. exact allocate_checked_sound. Qed.
Print Assumptions C01_app_allocate_checked_sound.

Theorem C01_app_allocate_checked_refusal_leaves_unchanged :
  forall (nd : node) (s : slot) (nd' : node) (e : err),
    node_bounded nd -> slot_wf s -> allocate_slot nd s = (nd', Some e) -> nd' = nd.
Proof. exact allocate_checked_refusal_unchanged. Qed.
Print Assumptions C01_app_allocate_checked_refusal_leaves_unchanged.

(* the input that showed the defect is refused now, and meets the hypotheses of the two theorems *)
Theorem C01_app_allocate_checked_duplicate_refused :
  node_bounded dup_node /\ slot_wf dup_slot /\ allocate_slot dup_node dup_slot = (dup_node, Some EAssert).
Proof. exact allocate_checked_duplicate_refused. Qed.
Print Assumptions C01_app_allocate_checked_duplicate_refused.

Example C01_app_nonvacuous :
  let ns0 := [mkNode 0 "localhost" [Some 0; Some 0] [Some 0] (Some 100) (Some 0);
              mkNode 1 "localhost" [Some 0; None] [Some 0] (Some 100) (Some 0)] in
  let r := mkRR 1 32 1 32 10 0 false in
  match run (start_nl ns0 true) [OFind r 2; OFind r 2; OFind r 2] with
  | [(RSlots a, _); (RSlots b, _); (RNone, nl)] =>
      List.length a = 2%nat /\ List.length b = 2%nat /\
      nl_nodes nl = [mkNode 0 "localhost" [Some 64; Some 0] [Some 64] (Some 80) (Some 0);
                     mkNode 1 "localhost" [Some 64; None] [Some 64] (Some 80) (Some 0)]
  | _ => False
  end.
Proof. vm_compute. auto. Qed.

End AppSide.
