(* C04 -- the pilot scheduler neither loses nor starves tasks.
   Proofs here cite the lemmas of RP.Sched.* or compute on the model; what
   needs an induction stands there.
   Model: RP.Sched.Model. *)
From Coq Require Import ZArith List Sorted.
From Coq Require Import Lia.
From RP Require Import Sched.Model Sched.NodeMap Sched.Inv Sched.RunProofs Sched.LiveProofs
                       Sched.ConsProofs Sched.PrioProofs.
Import ListNotations.
Open Scope Z_scope.

(* wait pools (and incoming buckets) are served in descending priority, every
   priority that has a pool is served: when a release lets only one of two
   waiting tasks run, the higher priority one is tried first on the full map *)
Theorem C04_priorities_descending :
  forall wp : list (Z * list req),
    StronglySorted (fun a b => b <= a) (prios_desc wp) /\
    (forall p, In p (prios_desc wp) <-> In p (map fst wp)).
Proof. exact (fun wp => conj (prios_desc_sorted wp) (prios_desc_complete wp)). Qed.
Print Assumptions C04_priorities_descending.

(* a cancel request takes only the named tasks out of the wait pool, and the
   only events it causes are CANCELED for named uids *)
Theorem C04_cancel_only_named :
  forall us wp evs wp' evs' t,
    cancel_uids us wp evs = (wp', evs') -> ~ In (r_uid t) us ->
    (In t (pool_reqs wp) <-> In t (pool_reqs wp')).
Proof. exact cancel_only_named. Qed.
Print Assumptions C04_cancel_only_named.

Theorem C04_cancel_events_named :
  forall us wp evs wp' evs' e,
    cancel_uids us wp evs = (wp', evs') -> In e evs' ->
    In e evs \/ exists u, In u us /\ e = Canceled u.
Proof. exact cancel_events_named. Qed.
Print Assumptions C04_cancel_events_named.

(* a task is failed for lack of resources ("can never be scheduled") only in a
   state where nothing is held -- the map is then pointwise the initial one --
   and the search on that idle map finds nothing: a task that fits the idle
   pilot (from the current search offset) is never failed for lack of resources *)
Theorem C04_failed_only_if_idle_pilot_cannot_fit :
  forall ns0 c s t s',
    SInv ns0 s -> try_allocation c s t = (s', TFail ERuntime) ->
    heldg s = [] /\
    (exists off co tg, schedule_task c s t = inr (off, co, tg, None)) /\
    (forall n j, core_at (nodes s) n j = core_at ns0 n j) /\
    (forall n j, gpu_at (nodes s) n j = gpu_at ns0 n j) /\
    (forall n, lfs_at (nodes s) n = lfs_at ns0 n) /\ (forall n, mem_at (nodes s) n = mem_at ns0 n).
Proof.
  intros ns0 c s t s' (I & _ & Hac) E. apply Loop.try_allocation_cases in E.
  (* Loop.tried: search error, nothing found, or a grant *)
  inversion E as [e off Es Hs He|off co tg Es Hs Hr|]; subst.
  - exfalso. destruct (schedule_task_err _ _ _ _ _ Es) as [K|K]; discriminate K.
  - destruct (active_cnt s =? 0) eqn:Ea; [|discriminate Hr].
    apply Z.eqb_eq in Ea. rewrite Ea in Hac.
    assert (Hh : heldg s = []) by (destruct (heldg s); [reflexivity|simpl in Hac; lia]).
    split; [exact Hh|]. split; [eauto|]. rewrite Hh in I. apply inv_quiescent. exact I.
Qed.
Print Assumptions C04_failed_only_if_idle_pilot_cannot_fit.

(* on an idle pilot an allocation attempt is decided at once: started if the
   search finds a placement, failed if not -- never left waiting *)
Theorem C04_idle_pilot_decides :
  forall ns0 c s t s' res,
    SInv ns0 s -> heldg s = [] -> try_allocation c s t = (s', res) -> res <> TWait.
Proof. exact idle_pilot_decides. Qed.
Print Assumptions C04_idle_pilot_decides.

(* the only exceptions the placement search raises are the documented ones *)
Theorem C04_search_exceptions :
  forall c s t e off, schedule_task c s t = inl (e, off) -> e = EValue \/ e = EAssert.
Proof. exact schedule_task_err. Qed.
Print Assumptions C04_search_exceptions.

(* Nothing is lost and nothing is duplicated, for EVERY history of arrivals,
   cancel requests, releases, named-environment registrations and iterations,
   with every bisect strategy:  for every uid u, the number of terminal events
   (started / failed / canceled) for u, plus its entries in the wait pools,
   plus its entries in the scheduler's queue never exceeds the number of times
   u arrived, and a uid that arrived is in at least one of these places. *)
Theorem C04_no_loss_no_duplication :
  forall c ns0 ops w' u,
    run c (init_world ns0) ops = Some w' ->
    total u w' <= cz u (arrivals ops) /\ (In u (arrivals ops) -> present u w').
Proof. exact no_loss_no_duplication. Qed.
Print Assumptions C04_no_loss_no_duplication.

(* hence, with unique task uids: every task handed to the scheduler is at any
   time in EXACTLY one of: started, failed, canceled (reported exactly once
   there), waiting, or queued for the next iteration *)
Theorem C04_exactly_one_place :
  forall c ns0 ops w' u,
    run c (init_world ns0) ops = Some w' -> NoDup (arrivals ops) -> In u (arrivals ops) ->
    total u w' = 1.
Proof. exact exactly_one_place. Qed.
Print Assumptions C04_exactly_one_place.

(* PARTIAL: "a task waiting alone is started as soon as enough resources are
   released" and "an idle pilot starts a fitting waiter" are decided on every
   implementation trace by the oracle clause idle_pilot_starts_a_fitting_waiter
   of harness/c04.py and through the model correspondence; they are not stated
   as theorems over all histories (wall-clock "as soon as" is counted in loop
   iterations). *)

Example C04_nonvacuous :
  let ns0 := [mkNode 0 [Free; Free] [] 0 0] in
  let c := mkCfg 2 0 0 0 true in
  let t u p := mkReq u 1 2 0 0 0 0 p None false None None in
  match run c (init_world ns0)
          [Arrive [t 1 0; t 2 0; t 3 5]; Iterate []; CancelMsg [2]; Iterate [[(1, true); (2, true)]];
           Unsched [(3, [mkSlot 0 [0%nat; 1%nat] [] 0 0])]; Iterate [[(1, true)]]; Iterate [[(1, true)]]] with
  | Some w => log w = [Started 3 [mkSlot 0 [0%nat; 1%nat] [] 0 0]; Canceled 2;
                        Started 1 [mkSlot 0 [0%nat; 1%nat] [] 0 0]]
  | None => False
  end.
Proof. vm_compute. reflexivity. Qed.

(* "when a release lets only one of two waiting tasks run, the one with the
   higher priority is started".
   _partial: proved for two waiting tasks in two priority pools (the property's
   literal case): the higher-priority task is tried first, on the state exactly
   as the release left it, and is started in this pass if it fits there. *)
Theorem C04_higher_priority_first_partial :
  forall c s H L pH pL,
    pL < pH ->
    (waitpool s = [(pH, [H]); (pL, [L])] \/ waitpool s = [(pL, [L]); (pH, [H])]) ->
    r_env H = None ->
    forall s' rest res act evs,
      schedule_waitpool c s [[(r_uid H, true)]; [(r_uid L, true)]] = Some (s', rest, res, act, evs) ->
      match snd (try_allocation c s H) with
      | TStarted slH => In (Started (r_uid H) slH) evs
      | _ => True
      end.
Proof. exact higher_priority_tried_first. Qed.
Print Assumptions C04_higher_priority_first_partial.

(* _refuted in general (recorded finding): with more tasks in the higher
   priority pool ru.lazy_bisect leaves tasks unchecked when tasks near them in
   the size-sorted pool failed; such a task that fits the idle pilot keeps
   waiting while a lower-priority task is started.  The witness is the history
   the harness found on the real scheduler, strategy as recorded from the real
   ru.lazy_bisect. *)
Theorem C04_higher_priority_first_refuted :
  exists s' rest res act evs slL slH,
    schedule_waitpool wit_cfg wit_state wit_strat = Some (s', rest, res, act, evs) /\
    r_prio wit_L < r_prio wit_H /\
    In (Started (r_uid wit_L) slL) evs /\
    (forall sl, ~ In (Started (r_uid wit_H) sl) evs) /\
    In wit_H (concat (map snd (waitpool s'))) /\
    snd (try_allocation wit_cfg wit_state wit_H) = TStarted slH.
Proof. exact higher_priority_first_refuted. Qed.
Print Assumptions C04_higher_priority_first_refuted.
