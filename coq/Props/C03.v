(* C03 -- released resources come back exactly once and completely.
   Module SchedSide: the scheduler's bookkeeping (node map, holder count).
   Module ExecSide : the executor asks for the release exactly once per task,
   over every schedule of its four threads (RP.Exec.Model).
   Module AppSide  : release_slots of Pilot.nodelist (RP.AppSlots).
   Proofs here cite the group's lemmas or compute on the model; what needs an
   induction stands in the group. *)
From Coq Require Import ZArith List.
From RP Require Sched.Model Sched.NodeMap Sched.Inv Sched.SchedProofs Sched.RunProofs.
From RP Require Exec.Model Exec.Oracle Exec.Proofs.
From Coq Require String.
From RP Require AppSlots.Model AppSlots.Oracle AppSlots.NodeProofs AppSlots.InvProofs AppSlots.Proofs.
Import ListNotations.

Module SchedSide.
Import RP.Sched.Model RP.Sched.NodeMap RP.Sched.Inv RP.Sched.SchedProofs RP.Sched.RunProofs.
Open Scope Z_scope.

(* giving back restores precisely what was taken: after the release of a held
   placement the node map is again the initial map with exactly the remaining
   held placements marked (cores, GPUs, lfs and mem), whatever else is held *)
Theorem C03_release_restores :
  forall (ns0 ns : list node) (h : held) (u : Z) (sl : list slot),
    Inv ns0 ns h -> first_with u h = Some sl ->
    Inv ns0 (change_slot_states false sl ns) (drop_first u h).
Proof. exact inv_release. Qed.
Print Assumptions C03_release_restores.

(* once no task holds resources the free capacity equals the initial capacity
   and the holder count read by the "can never be scheduled" rule is zero --
   in every reachable state *)
Theorem C03_quiescent_capacity :
  forall (ns0 : list node) (c : cfg) (ops : list op) (w' : world),
    NoDup (map n_idx ns0) -> (forall nd, In nd ns0 -> 0 <= n_lfs nd /\ 0 <= n_mem nd) ->
    Forall op_good ops -> run_disciplined c (init_world ns0) ops ->
    run c (init_world ns0) ops = Some w' -> heldg (st w') = [] ->
    active_cnt (st w') = 0 /\
    (forall n j, core_at (nodes (st w')) n j = core_at ns0 n j) /\
    (forall n j, gpu_at (nodes (st w')) n j = gpu_at ns0 n j) /\
    (forall n, lfs_at (nodes (st w')) n = lfs_at ns0 n) /\
    (forall n, mem_at (nodes (st w')) n = mem_at ns0 n).
Proof.
  intros ns0 c ops w' Hnd Hnn Hg Hd Hr Hh.
  destruct (run_ok ns0 c ops _ _ (winv_init ns0 Hnd Hnn) Hg Hd Hr) as ((I & _ & Hac) & _).
  rewrite Hh in *. split; [exact Hac|]. apply inv_quiescent. exact I.
Qed.
Print Assumptions C03_quiescent_capacity.

(* while a task holds resources nothing it holds is offered to another task *)
Theorem C03_held_not_offered :
  forall (ns0 : list node) (c : cfg) (s : sstate) (t : req) off co tg (sl : list slot),
    SInv ns0 s -> wf_req t -> schedule_task c s t = inr (off, co, tg, Some sl) ->
    forall n j, (touched_c n j sl = true -> touched_c n j (hslots (heldg s)) = false) /\
                (touched_g n j sl = true -> touched_g n j (hslots (heldg s)) = false).
Proof. exact held_not_offered. Qed.
Print Assumptions C03_held_not_offered.

(* the counter of running tasks is the number of holders, in every reachable state *)
Theorem C03_active_count_is_holders :
  forall (ns0 : list node) (c : cfg) (ops : list op) (w' : world),
    NoDup (map n_idx ns0) -> (forall nd, In nd ns0 -> 0 <= n_lfs nd /\ 0 <= n_mem nd) ->
    Forall op_good ops -> run_disciplined c (init_world ns0) ops ->
    run c (init_world ns0) ops = Some w' ->
    active_cnt (st w') = Z.of_nat (length (heldg (st w'))).
Proof.
  intros ns0 c ops w' Hnd Hnn Hg Hd Hr.
  destruct (run_ok ns0 c ops _ _ (winv_init ns0 Hnd Hnn) Hg Hd Hr) as ((_ & _ & Hac) & _). exact Hac.
Qed.
Print Assumptions C03_active_count_is_holders.

(* the map in every reachable state: initial map with exactly the held slots marked (pointwise) *)
Theorem C03_map_is_initial_plus_held :
  forall (ns0 : list node) (c : cfg) (ops : list op) (w w' : world),
    WInv ns0 w -> Forall op_good ops -> run_disciplined c w ops -> run c w ops = Some w' ->
    Inv ns0 (nodes (st w')) (heldg (st w')).
Proof. intros ns0 c ops w w' H1 H2 H3 H4. exact (proj1 (proj1 (run_ok ns0 c ops w w' H1 H2 H3 H4))). Qed.
Print Assumptions C03_map_is_initial_plus_held.

(* non-vacuity: grant, release, quiescence *)
Example C03_nonvacuous :
  let ns0 := [mkNode 0 [Free; Free] [Free] 100 100] in
  let c := mkCfg 2 1 100 100 true in
  let ops := [Arrive [mkReq 1 2 1 32 10 5 0 0 None false None None]; Iterate [];
              Unsched [(1, [mkSlot 0 [0%nat] [(0%nat, 32)] 10 5; mkSlot 0 [1%nat] [(0%nat, 32)] 10 5])];
              Iterate []] in
  match run c (init_world ns0) ops with
  | Some w => heldg (st w) = [] /\ nodes (st w) = ns0 /\ active_cnt (st w) = 0
  | None => False
  end.
Proof. vm_compute. auto. Qed.

End SchedSide.

Module ExecSide.
Import RP.Exec.Model RP.Exec.Oracle RP.Exec.Proofs.

(* "exactly once, whatever way it ends (success, failure, cancellation,
   timeout, launch error)", including releases racing with cancellation: for
   every scenario (any number of tasks with distinct uids, launch-fault points,
   run-time limits, cancel messages) and EVERY schedule of the executor's intake, process
   watcher, timeout watcher and cancel handler, a received task's resources
   are asked to be released at most once at any time and exactly once when
   the executor has come to rest *)
Theorem C03_executor_releases_exactly_once :
  forall (sc : scenario) (sched : list choice) (s : state) (tr : list stepobs) (u : Z),
    NoDup (delivered sc) -> In u (delivered sc) -> run (init sc) sched = (s, tr) ->
    (n_uns u (emissions tr) <= 1)%nat /\ (quiescent s = true -> n_uns u (emissions tr) = 1%nat).
Proof.
  intros sc sched s tr u Hnd Hin Hr. split.
  - pose proof (at_most_once sc sched s tr u Hnd Hin Hr) as H. cbv zeta in H. tauto.
  - intros Hq. pose proof (exactly_once sc sched s tr u Hnd Hin Hr Hq) as H. cbv zeta in H. tauto.
Qed.
Print Assumptions C03_executor_releases_exactly_once.

End ExecSide.

Module AppSide.
Import Coq.Strings.String.
Import RP.AppSlots.Model RP.AppSlots.Oracle RP.AppSlots.NodeProofs RP.AppSlots.Proofs.
Open Scope string_scope.
Open Scope Z_scope.

(* Application side: `Pilot.nodelist` (model RP.AppSlots.Model); the vocabulary (wf_nodes, op_ok,
   all_disciplined, run, judge) is as in Props/C01.v, Module AppSide. *)

(* After EVERY call of ANY sequence the node list is the initial one plus exactly the slots handed out
   and not yet released (per core, GPU, lfs, mem of every node; DOWN stays DOWN; ids and names
   unchanged), and a release_slots of held slots never raises: release_slots gives back exactly what
   find_slots took, on the node it took it from -- also when node names repeat, when node ids are not the list
   positions, and on nodes that do not report lfs / mem *)
Theorem C03_app_release_restores :
  forall (ns0 : list node) (verified : bool) (ops : list op),
    wf_nodes ns0 -> Forall op_ok ops ->
    all_disciplined [] ops (run (start_nl ns0 verified) ops) = true ->
    v_restores (judge ns0 ns0 [] ops (run (start_nl ns0 verified) ops)) = true.
Proof. exact app_release_restores. Qed.
Print Assumptions C03_app_release_restores.

(* once everything has been given back the node list EQUALS the initial one *)
Theorem C03_app_all_released_is_initial :
  forall (ns0 : list node) (verified : bool) (ops : list op),
    wf_nodes ns0 -> Forall op_ok ops ->
    all_disciplined [] ops (run (start_nl ns0 verified) ops) = true ->
    held_end [] ops (run (start_nl ns0 verified) ops) = [] ->
    nl_nodes (last_nl (start_nl ns0 verified) (run (start_nl ns0 verified) ops)) = ns0.
Proof. exact app_all_released_is_initial. Qed.
Print Assumptions C03_app_all_released_is_initial.

(* a find_slots that does not return slots (None after the roll-back of what it had taken, None by
   the last-failed short-cut, or an exception of _assert_rr) leaves every node as it was *)
Theorem C03_app_failed_find_leaves_unchanged :
  forall (ns0 : list node) (verified : bool) (ops : list op),
    wf_nodes ns0 -> Forall op_ok ops ->
    all_disciplined [] ops (run (start_nl ns0 verified) ops) = true ->
    v_failed (judge ns0 ns0 [] ops (run (start_nl ns0 verified) ops)) = true.
Proof. exact app_failed_find_leaves_unchanged. Qed.
Print Assumptions C03_app_failed_find_leaves_unchanged.

Theorem C03_app_failed_find_unchanged_one_call :
  forall (ns0 : list node) (nl : nlist) (h : list slot) (r : rreq) (n : Z) (nl' : nlist) (res : res),
    Reached ns0 nl h -> rr_ok r -> 0 < r_co r -> find_slots nl r n = (nl', res) ->
    (forall sl, res <> RSlots sl) -> nl_nodes nl' = nl_nodes nl.
Proof. exact failed_find_unchanged. Qed.
Print Assumptions C03_app_failed_find_unchanged_one_call.

(* node ids that are not list positions (0,2 after a dropped node; 1,0) and nodes that report neither
   lfs nor mem: find, failed find with roll-back, release -- and the list is the initial one again *)
Example C03_app_ids_and_lfs_nonvacuous :
  let nd i := mkNode i "n" [Some 0; Some 0] [] None None in
  let s i := mkSlot [(0, 64); (1, 64)] [] 0 0 i "n" in
  (let ns0 := [nd 0; nd 2] in
   let tr := run (start_nl ns0 true) [OFind (rr1 2) 2; ORelease [s 0; s 2]] in
   map fst tr = [RSlots [s 0; s 2]; ROk] /\ nl_nodes (last_nl (start_nl ns0 true) tr) = ns0) /\
  (let ns0 := [nd 1; nd 0] in
   let tr := run (start_nl ns0 true) [OFind (rr1 2) 1; OFind (rr1 2) 2; ORelease [s 1]] in
   map fst tr = [RSlots [s 1]; RNone; ROk] /\ nl_nodes (last_nl (start_nl ns0 true) tr) = ns0).
Proof. exact gapped_and_permuted_ids_and_no_lfs. Qed.

Example C03_app_nonvacuous :
  let ns0 := [mkNode 0 "localhost" [Some 0; Some 0] [] (Some 100) (Some 0);
              mkNode 1 "localhost" [Some 0; Some 0] [] (Some 100) (Some 0)] in
  let r := mkRR 2 64 0 64 10 0 false in
  let s i := mkSlot [(0, 64); (1, 64)] [] 10 0 i "localhost" in
  let tr := run (start_nl ns0 true) [OFind r 1; OFind r 1; OFind r 1; ORelease [s 0]; ORelease [s 1]] in
  map fst tr = [RSlots [s 0]; RSlots [s 1]; RNone; ROk; ROk] /\
  nl_nodes (last_nl (start_nl ns0 true) tr) = ns0.
Proof. vm_compute. auto. Qed.

End AppSide.
