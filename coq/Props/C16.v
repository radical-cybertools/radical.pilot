(* C16 -- client and agents exchange each forwarded message exactly once.
   Proofs here cite the lemmas of RP.Fwd.*Proofs and RP.Fwd.Hop or compute on
   the model; what needs an induction stands there.

   Setting (RP.Fwd.Model): one client (side 0) and n pilots (sides 1..n), each
   running Session._crosswire_proxy against one shared proxy; `posts` is any
   batch of application-level publications (side, channel, source), message i
   being the i-th of them; `sched` is any transport schedule of the network;
   `count_at s c i log` is the number of times message i was handed to the
   subscribers of side s on channel c. *)
From Coq Require Import List Bool PeanoNat FinFun.
From Coq Require Import Lia.
From RP Require Import Fwd.Model Fwd.Oracle Fwd.Proofs Fwd.Life Fwd.LifeOracle Fwd.LifeProofs Fwd.Fault Fwd.FaultOracle Fwd.FaultProofs Fwd.NamesProofs.
Import ListNotations.

(* exact delivery counts: for every number of pilots, every batch of posts
   (every originating side, every forward flag / origin marker), every
   schedule, every receiving side and channel *)
Theorem C16_delivery_counts :
  forall (n : nat) (posts : list post) (sched : list nat) (i s0 : nat) (c0 : chan) (src : source)
         (s : nat) (c : chan),
    nth_error posts i = Some (s0, c0, src) -> s0 <= n -> s <= n ->
    count_at s c i (log (network n posts sched)) =
      if chan_eqb c c0
      then if Nat.eqb s s0 then 1 else if post_crosses i (s0, c0, src) then 1 else 0
      else 0.
Proof. exact network_counts. Qed.
Print Assumptions C16_delivery_counts.

(* which messages cross: a true forward flag and no foreign origin marker *)
Theorem C16_crossing_rule :
  forall (i s0 : nat) (c : chan) (o : option nat) (f : option bool),
    post_crosses i (s0, c, Raw o f) =
      match f with Some true => true | _ => false end
      && match o with None => true | Some o' => Nat.eqb o' s0 end.
Proof. reflexivity. Qed.
Print Assumptions C16_crossing_rule.

(* a message published with the forward flag is delivered exactly once on
   every connected side -- the other sides, and (never a second time) its own *)
Theorem C16_forwarded_exactly_once :
  forall (n : nat) (posts : list post) (sched : list nat) (i s0 : nat) (c0 : chan) (src : source),
    nth_error posts i = Some (s0, c0, src) -> s0 <= n ->
    post_crosses i (s0, c0, src) = true ->
    forall s, s <= n -> count_at s c0 i (log (network n posts sched)) = 1.
Proof. exact forwarded_exactly_once. Qed.
Print Assumptions C16_forwarded_exactly_once.

(* whatever the flags: the publishing side sees its message exactly once *)
Theorem C16_never_back_to_origin_twice :
  forall (n : nat) (posts : list post) (sched : list nat) (i s0 : nat) (c0 : chan) (src : source),
    nth_error posts i = Some (s0, c0, src) -> s0 <= n ->
    count_at s0 c0 i (log (network n posts sched)) = 1.
Proof.
  intros n posts sched. apply ok_not_back_spec, model_not_back.
Qed.
Print Assumptions C16_never_back_to_origin_twice.

(* messages without the forward flag (or with a foreign origin marker) stay
   on the side where they were published *)
Theorem C16_unforwarded_stays_local :
  forall (n : nat) (posts : list post) (sched : list nat) (i s0 : nat) (c0 : chan) (src : source),
    nth_error posts i = Some (s0, c0, src) -> s0 <= n ->
    post_crosses i (s0, c0, src) = false ->
    forall s, s <= n ->
      count_at s c0 i (log (network n posts sched)) = if Nat.eqb s s0 then 1 else 0.
Proof. exact unforwarded_stays_local. Qed.
Print Assumptions C16_unforwarded_stays_local.

(* no circulation: within the bound of n + 3 publications per post the
   network falls silent, after at most n + 2 publications per post *)
Theorem C16_no_circulation :
  forall (n : nat) (posts : list post) (sched : list nat),
    pending (network n posts sched) = [] /\
    npub (network n posts sched) <= length posts * (n + 2).
Proof. exact no_circulation. Qed.
Print Assumptions C16_no_circulation.

(* ... from ANY network state: whatever publications are pending on whatever
   bridge (local or proxy) with whatever markers, under any schedule *)
Theorem C16_no_circulation_any_state :
  forall (n fuel : nat) (sched : list nat) (st : net),
    length (pending st) * (n + 2) <= fuel ->
    pending (run (sides_of n) fuel sched st) = [] /\
    npub (run (sides_of n) fuel sched st) <= npub st + length (pending st) * (n + 2).
Proof.
  intros n fuel sched st Hf. pose proof (sides_weight_le n (pending st)) as Hw. rewrite run_iter.
  destruct (run_settled (sides_of n) fuel sched st) as (Hq & Hn & _); [lia|]. split; [exact Hq | lia].
Qed.
Print Assumptions C16_no_circulation_any_state.

(* the two forwarders of a side: what leaves towards the proxy was flagged,
   carries no foreign marker, and goes out stamped with the side's own name and
   a cleared flag (so it is forwarded only once) ... *)
Theorem C16_outgoing_marked :
  forall (me : nat) (m m' : msg),
    pubsub_fwd me false m = Some m' ->
    m_origin m' = Some me /\ m_fwd m' = Some false /\ m_id m' = m_id m /\ crosses me m = true.
Proof. exact fwd_out_spec. Qed.
Print Assumptions C16_outgoing_marked.

(* ... and what is taken from the proxy is unchanged and came from elsewhere *)
Theorem C16_incoming_foreign_only :
  forall (me : nat) (m m' : msg),
    pubsub_fwd me true m = Some m' -> exists o, m_origin m = Some o /\ o <> me /\ m' = m.
Proof. exact fwd_in_spec. Qed.
Print Assumptions C16_incoming_foreign_only.

(* no publication has great-grandchildren: local -> proxy -> remote local -> nothing *)
Theorem C16_three_hops_at_most :
  forall (sides : list nat) (p q r : pub),
    In q (children sides p) -> In r (children sides q) -> children sides r = [].
Proof. exact grandchildren_childless. Qed.
Print Assumptions C16_three_hops_at_most.

(* every delivery is either the local one on the publishing side (message as
   posted) or a remote copy that carries the publisher's name and a cleared
   forward flag -- nothing else is ever handed to a subscriber *)
Theorem C16_delivered_copies_marked :
  forall (n : nat) (posts : list post) (sched : list nat) (e : event),
    In e (log (network n posts sched)) ->
    exists s0 c0 src, nth_error posts (e_id e) = Some (s0, c0, src) /\ e_chan e = c0 /\
      ((e_side e = s0 /\ e_origin e = m_origin (source_msg s0 (e_id e) src)
                      /\ e_fwd e = m_fwd (source_msg s0 (e_id e) src))
       \/ (e_side e <> s0 /\ e_origin e = Some s0 /\ e_fwd e = Some false)).
Proof. exact delivered_copies_marked. Qed.
Print Assumptions C16_delivered_copies_marked.

(* agent-side state advances are forwarded by default ... *)
Theorem C16_agent_advance_forwarded :
  forall (n : nat) (posts : list post) (sched : list nat) (i s0 : nat),
    nth_error posts i = Some (s0, State, Advance None) -> 1 <= s0 <= n ->
    forall s, s <= n -> count_at s State i (log (network n posts sched)) = 1.
Proof. exact agent_advance_forwarded. Qed.
Print Assumptions C16_agent_advance_forwarded.

(* ... client-side ones are not *)
Theorem C16_client_advance_local :
  forall (n : nat) (posts : list post) (sched : list nat) (i : nat),
    nth_error posts i = Some (0, State, Advance None) ->
    forall s, s <= n ->
      count_at s State i (log (network n posts sched)) = if Nat.eqb s 0 then 1 else 0.
Proof. exact client_advance_local. Qed.
Print Assumptions C16_client_advance_local.

(* the boolean oracle clauses evaluated on implementation traces mean what
   their names say ... *)
Theorem C16_oracle_exactly_once_sound :
  forall (n : nat) (posts : list post) (l : list event),
    ok_exactly_once n posts l = true <->
    (forall i s0 c0 src s, nth_error posts i = Some (s0, c0, src) -> s0 <= n ->
       post_crosses i (s0, c0, src) = true -> s <= n -> s <> s0 -> count_at s c0 i l = 1).
Proof. exact ok_exactly_once_spec. Qed.
Print Assumptions C16_oracle_exactly_once_sound.

Theorem C16_oracle_not_back_sound :
  forall (n : nat) (posts : list post) (l : list event),
    ok_not_back n posts l = true <->
    (forall i s0 c0 src, nth_error posts i = Some (s0, c0, src) -> s0 <= n -> count_at s0 c0 i l = 1).
Proof. exact ok_not_back_spec. Qed.
Print Assumptions C16_oracle_not_back_sound.

Theorem C16_oracle_stays_local_sound :
  forall (n : nat) (posts : list post) (l : list event),
    ok_stays_local n posts l = true <->
    (forall i s0 c0 src s, nth_error posts i = Some (s0, c0, src) -> s0 <= n ->
       post_crosses i (s0, c0, src) = false -> s <= n -> s <> s0 -> count_at s c0 i l = 0).
Proof. exact ok_stays_local_spec. Qed.
Print Assumptions C16_oracle_stays_local_sound.

(* ... and the model satisfies all of them *)
Theorem C16_model_satisfies_oracle :
  forall (n : nat) (posts : list post) (sched : list nat),
    let st := network n posts sched in
    ok_exactly_once n posts (log st) = true /\ ok_not_back n posts (log st) = true /\
    ok_stays_local n posts (log st) = true /\ ok_no_stray n posts (log st) = true /\
    ok_no_circulation n (length posts) (npub st) (quiescent st) = true.
Proof.
  intros n posts sched.
  repeat split; [apply model_exactly_once | apply model_not_back | apply model_stays_local
                 | apply model_no_stray | apply model_no_circulation].
Qed.
Print Assumptions C16_model_satisfies_oracle.

(* non-vacuity: 1 client + 2 pilots; pilot 1 advances a task (forwarded by
   default), the client sends a flagged control message, pilot 2 re-publishes a
   flagged message that carries the client's marker (must not leave again) *)
Example C16_nonvacuous :
  model_obs 2 [ (1, State, Advance None); (0, Control, Raw None (Some true));
                (2, Control, Raw (Some 0) (Some true)) ] [2; 0; 1; 3]
  = ([ mkev 2 Control 2 (Some 0) (Some true);
       mkev 1 State   0 None     (Some true);
       mkev 0 Control 1 None     (Some true);
       mkev 0 State   0 (Some 1) (Some false);
       mkev 2 State   0 (Some 1) (Some false);
       mkev 1 Control 1 (Some 0) (Some false);
       mkev 2 Control 1 (Some 0) (Some false) ], 9, true, 0).
Proof. vm_compute. reflexivity. Qed.

(* ==== the life cycle of the forwarding fabric (RP.Fwd.Life) ====================
   A history `ops` is any sequence of  Connect s  (side s builds its session:
   the client registers the session id at the proxy, a pilot looks it up; both
   crosswire),  Close s  (Session.close() and the end of that side's process)
   and  Round posts sched  (live sides publish, the network runs until silent).
   `rounds_from world0 ops` lists the rounds with the situation they were
   played in: (live sides, registered, id of the first post, posts). *)

(* In whatever order sides have connected and closed before and after: a
   message published on a live side in a round played while the client session
   is up has exactly the prescribed number of deliveries on every side that is
   live in that round (1 on its own side; on every other live side 1 if it is
   forward-flagged without a foreign marker, else 0; 0 on the other channel) --
   counted in the final log of the whole history *)
Theorem C16_life_delivery_counts :
  forall (ops : list lop) (live : list nat) (reg : bool) (k : nat) (posts : list post),
    In (live, reg, k, posts) (rounds_from world0 ops) ->
    forall (j s0 : nat) (c0 : chan) (src : source), nth_error posts j = Some (s0, c0, src) ->
    mem 0 live = true -> mem s0 live = true ->
    forall (s : nat) (c : chan), mem s live = true ->
      count_at s c (k + j) (log (w_net (life_run ops world0))) = expected (k + j) (s0, c0, src) s c.
Proof. exact (fun ops => life_counts ops world0 inv0). Qed.
Print Assumptions C16_life_delivery_counts.

(* the closing of a pilot's session changes nothing for the others: after any
   history `pre`, pilot k closes; the messages of the next round still have the
   prescribed counts on all remaining sides *)
Theorem C16_pilot_close_changes_nothing :
  forall (pre : list lop) (k : nat) (posts : list post) (sched : list nat) (rest : list lop)
         (j s0 : nat) (c0 : chan) (src : source) (s : nat) (c : chan),
    k <> 0 ->
    let w := life_run pre world0 in
    nth_error posts j = Some (s0, c0, src) ->
    mem 0 (w_live w) = true -> mem s0 (w_live w) = true -> s0 <> k ->
    mem s (w_live w) = true -> s <> k ->
    count_at s c (w_next w + j)
      (log (w_net (life_run (pre ++ Close k :: Round posts sched :: rest) world0)))
    = expected (w_next w + j) (s0, c0, src) s c.
Proof. exact pilot_close_changes_nothing. Qed.
Print Assumptions C16_pilot_close_changes_nothing.

(* once the client session is gone (or before it exists) nothing crosses: a
   message is delivered on its own side only, once *)
Theorem C16_life_without_client_local :
  forall (ops : list lop) (live : list nat) (reg : bool) (k : nat) (posts : list post),
    In (live, reg, k, posts) (rounds_from world0 ops) ->
    forall (j s0 : nat) (c0 : chan) (src : source), nth_error posts j = Some (s0, c0, src) ->
    mem 0 live = false -> mem s0 live = true ->
    forall (s : nat) (c : chan),
      count_at s c (k + j) (log (w_net (life_run ops world0)))
      = if Nat.eqb s0 s && chan_eqb c0 c then 1 else 0.
Proof. exact (fun ops => life_counts_down ops world0 inv0). Qed.
Print Assumptions C16_life_without_client_local.

(* every history ends silent, within n_live + 1 publications per post *)
Theorem C16_life_no_circulation :
  forall (ops : list lop),
    pending (w_net (life_run ops world0)) = [] /\
    npub (w_net (life_run ops world0)) <= pub_budget (rounds_from world0 ops).
Proof. exact (fun ops => life_quiet ops world0 inv0). Qed.
Print Assumptions C16_life_no_circulation.

(* only the owner of the session id (the client) ever asks the proxy to
   unregister it *)
Theorem C16_only_owner_unregisters :
  forall (ops : list lop), ok_only_owner_unregisters (w_reqs (life_run ops world0)) = true.
Proof. exact model_only_owner_unregisters. Qed.
Print Assumptions C16_only_owner_unregisters.

(* the model satisfies the life-cycle oracle clauses evaluated on implementation traces *)
Theorem C16_life_model_satisfies_oracle :
  forall (ops : list lop),
    let w := life_run ops world0 in
    ok_life_exactly_once ops (log (w_net w)) = true /\ ok_life_not_back ops (log (w_net w)) = true /\
    ok_life_stays_local ops (log (w_net w)) = true /\
    ok_life_no_circulation ops (npub (w_net w)) (quiescent (w_net w)) = true /\
    ok_only_owner_unregisters (w_reqs w) = true.
Proof.
  intros ops.
  repeat split; [apply model_life_exactly_once | apply model_life_not_back | apply model_life_stays_local
                 | apply model_life_no_circulation | apply model_only_owner_unregisters].
Qed.
Print Assumptions C16_life_model_satisfies_oracle.

(* non-vacuity: client and two pilots connect, pilot 1 finishes and closes, the
   client and pilot 2 go on talking, then the client closes *)
Example C16_life_nonvacuous :
  life_obs [ Connect 0; Connect 1; Connect 2;
             Round [(0, Control, Raw None (Some true))] [];
             Close 1;
             Round [(0, Control, Raw None (Some true)); (2, State, Advance None)] [1];
             Close 0;
             Round [(2, State, Advance None)] [] ]
  = ([ mkev 0 Control 0 None (Some true); mkev 1 Control 0 (Some 0) (Some false);
       mkev 2 Control 0 (Some 0) (Some false);
       mkev 2 State 2 None (Some true); mkev 0 Control 1 None (Some true);
       mkev 0 State 2 (Some 2) (Some false); mkev 2 Control 1 (Some 0) (Some false);
       mkev 2 State 3 None (Some true) ],
     11, true, 0, [(0, Register); (1, Lookup); (2, Lookup); (0, Unregister)], 0).
Proof. vm_compute. reflexivity. Qed.

(* ==== failing hand-overs (RP.Fwd.Fault) ==========================================
   A fault schedule F names, per crosswire (side, direction, channel), the
   hand-over attempts (calls of publisher.put on that crosswire) that raise.
   As in the code, a raising put ends the callback: that copy is lost, nothing
   is kept and nothing is sent again.  `network_f F n posts sched` is the
   network of 1 client + n pilots under F; `f_lost` lists the copies whose
   hand-over failed.  `expected i x s c` is the count C16_delivery_counts spells
   out; `tot2 .. (cnt .. s c i) q` is what a lost copy q and its descendants would
   have delivered to (s, c). *)

(* the books balance for EVERY fault schedule, batch of posts and transport
   schedule: deliveries + what the lost copies would still have delivered =
   what the property prescribes *)
Theorem C16_fault_conservation :
  forall (F : faultsched) (n : nat) (posts : list post) (sched : list nat)
         (i s0 : nat) (c0 : chan) (src : source) (s : nat) (c : chan),
    nth_error posts i = Some (s0, c0, src) -> s0 <= n -> s <= n ->
    count_at s c i (log (f_net (network_f F n posts sched)))
    + sum_map (tot2 (sides_of n) (cnt (sides_of n) s c i)) (f_lost (network_f F n posts sched))
    = expected i (s0, c0, src) s c.
Proof. exact fault_conservation. Qed.
Print Assumptions C16_fault_conservation.

(* AT MOST ONCE under faults: no side receives a message more than once,
   whatever fails, whatever is sent, in whatever order it is transported *)
Theorem C16_fault_never_twice :
  forall (F : faultsched) (n : nat) (posts : list post) (sched : list nat)
         (i s0 : nat) (c0 : chan) (src : source) (s : nat) (c : chan),
    nth_error posts i = Some (s0, c0, src) -> s0 <= n -> s <= n ->
    count_at s c i (log (f_net (network_f F n posts sched))) <= 1.
Proof. exact fault_never_twice. Qed.
Print Assumptions C16_fault_never_twice.

(* ... and never more often than prescribed (nothing on the other channel,
   nothing off-side for unflagged messages) *)
Theorem C16_fault_at_most_prescribed :
  forall (F : faultsched) (n : nat) (posts : list post) (sched : list nat)
         (i s0 : nat) (c0 : chan) (src : source) (s : nat) (c : chan),
    nth_error posts i = Some (s0, c0, src) -> s0 <= n -> s <= n ->
    count_at s c i (log (f_net (network_f F n posts sched))) <= expected i (s0, c0, src) s c.
Proof. exact fault_at_most. Qed.
Print Assumptions C16_fault_at_most_prescribed.

(* EXACTLY as often as prescribed for a message whose hand-overs all succeeded *)
Theorem C16_fault_exactly_once_if_handed_over :
  forall (F : faultsched) (n : nat) (posts : list post) (sched : list nat)
         (i s0 : nat) (c0 : chan) (src : source) (s : nat) (c : chan),
    nth_error posts i = Some (s0, c0, src) -> s0 <= n -> s <= n ->
    (forall q, In q (f_lost (network_f F n posts sched)) -> m_id (p_msg q) <> i) ->
    count_at s c i (log (f_net (network_f F n posts sched))) = expected i (s0, c0, src) s c.
Proof. exact fault_exact_if_handed_over. Qed.
Print Assumptions C16_fault_exactly_once_if_handed_over.

(* per receiving side: only the hand-over out of the publishing side and the
   hand-over into that side matter -- failures towards other sides do not *)
Theorem C16_fault_exactly_once_per_receiver :
  forall (F : faultsched) (n : nat) (posts : list post) (sched : list nat)
         (i s0 : nat) (c0 : chan) (src : source) (s : nat),
    nth_error posts i = Some (s0, c0, src) -> s0 <= n -> s <= n -> s <> s0 ->
    post_crosses i (s0, c0, src) = true ->
    let fl := map (lost_failure tt) (f_lost (network_f F n posts sched)) in
    failed_at fl (s0, false, c0) i = false -> failed_at fl (s, true, c0) i = false ->
    count_at s c0 i (log (f_net (network_f F n posts sched))) = 1.
Proof. exact fault_exact_receiver. Qed.
Print Assumptions C16_fault_exactly_once_per_receiver.

(* without faults this is the fault-free statement *)
Theorem C16_fault_free_exact :
  forall (n : nat) (posts : list post) (sched : list nat)
         (i s0 : nat) (c0 : chan) (src : source) (s : nat) (c : chan),
    nth_error posts i = Some (s0, c0, src) -> s0 <= n -> s <= n ->
    count_at s c i (log (f_net (network_f [] n posts sched))) = expected i (s0, c0, src) s c.
Proof.
  intros n posts sched i s0 c0 src s c H1 H2 H3. apply fault_exact_if_handed_over; try assumption.
  unfold network_f. rewrite run_f_nofault; [intros q []|reflexivity].
Qed.
Print Assumptions C16_fault_free_exact.

(* no circulation under faults either, within the fault-free bound *)
Theorem C16_fault_no_circulation :
  forall (F : faultsched) (n : nat) (posts : list post) (sched : list nat),
    pending (f_net (network_f F n posts sched)) = [] /\
    npub (f_net (network_f F n posts sched)) <= length posts * (n + 2).
Proof. exact fault_no_circulation. Qed.
Print Assumptions C16_fault_no_circulation.

(* the model satisfies the two fault clauses evaluated on implementation traces *)
Theorem C16_fault_model_at_most :
  forall (F : faultsched) (n : nat) (posts : list post) (sched : list nat),
    ok_at_most n posts (log (f_net (network_f F n posts sched))) = true.
Proof. exact model_at_most. Qed.
Print Assumptions C16_fault_model_at_most.

Theorem C16_fault_model_exactly_once :
  forall (F : faultsched) (n : nat) (posts : list post) (sched : list nat),
    let st := network_f F n posts sched in
    ok_exactly_once_f n posts (map (lost_failure tt) (f_lost st)) (log (f_net st)) = true.
Proof. exact model_exactly_once_f. Qed.
Print Assumptions C16_fault_model_exactly_once.

(* non-vacuity: three flagged messages of the client, the 1st and 3rd hand-over
   towards the proxy fail: messages 0 and 2 are lost for the pilot, message 1
   arrives once, nothing arrives twice *)
Example C16_fault_nonvacuous :
  model_fobs [((0, false, Control), [1; 3])] 1
             [(0, Control, Raw None (Some true)); (0, Control, Raw None (Some true));
              (0, Control, Raw None (Some true))] []
  = ([ mkev 0 Control 0 None (Some true); mkev 0 Control 1 None (Some true);
       mkev 0 Control 2 None (Some true); mkev 1 Control 1 (Some 0) (Some false) ],
     5, true, 2, [((0, false, Control), 0); ((0, false, Control), 2)]).
Proof. vm_compute. reflexivity. Qed.

(* ==== the ids of the sides (RP.Fwd.NamesProofs) ====================================
   Origin markers are compared for EQUALITY of side ids -- `msg['origin'] ==
   self._module` in the code, Nat.eqb on abstract side ids in pubsub_fwd.  The
   model never looks into an id; which strings the ids are (generated
   'pilot.0007', user-chosen 'p1' / 'p10', ids that contain one another) is
   carried by the correspondence, which names the sides differently per case. *)

(* exact delivery counts over ANY duplicate-free list of side ids *)
Theorem C16_any_side_ids :
  forall (sides : list nat) (posts : list post) (sched : list nat)
         (i s0 : nat) (c0 : chan) (src : source) (s : nat) (c : chan),
    NoDup sides -> nth_error posts i = Some (s0, c0, src) -> In s0 sides -> In s sides ->
    count_at s c i (log (network_on sides posts sched)) = expected i (s0, c0, src) s c.
Proof. exact any_ids_counts. Qed.
Print Assumptions C16_any_side_ids.

(* delivery counts are invariant under every injective renaming of the sides
   (that keeps the client the client), and under the transport schedule *)
Theorem C16_renaming_invariant :
  forall (f : nat -> nat) (sides : list nat) (posts : list post) (sched sched' : list nat)
         (i s0 : nat) (c0 : chan) (src : source) (s : nat) (c : chan),
    Injective f -> f 0 = 0 -> NoDup sides ->
    nth_error posts i = Some (s0, c0, src) -> In s0 sides -> In s sides ->
    count_at (f s) c i (log (network_on (map f sides) (map (rename_post f) posts) sched'))
    = count_at s c i (log (network_on sides posts sched)).
Proof. exact renaming_invariant. Qed.
Print Assumptions C16_renaming_invariant.

(* the network of 1 client + n pilots is the instance sides = 0..n *)
Theorem C16_network_on_standard :
  forall (n : nat) (posts : list post) (sched : list nat),
    network_on (sides_of n) posts sched = network n posts sched.
Proof.
  intros n posts sched.
  unfold network_on, network, bound, sides_of. rewrite seq_length.
  replace (S n + 2) with (n + 3) by lia. reflexivity.
Qed.
Print Assumptions C16_network_on_standard.
