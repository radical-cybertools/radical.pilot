(* C12 -- each task is bound to exactly one eligible pilot.
   Proofs here cite the lemmas of RP.TmgrSched.* or compute on the model; what
   needs an induction stands there.
   The model is RP.TmgrSched.Model (base + RoundRobin + Backfilling of
   tmgr/scheduler/*.py as they are since /repo 8a8946a,
   fixes/C12-1-early-not-cleared.patch); `run c st0 ops` is what the harness
   observes message by message, `ops` ranges over ALL
   message histories (submissions, add/remove commands incl. rejected ones,
   pilot and task state notifications), `c` over both schedulers and all
   backfilling constants.  The ok-functions are the oracle clauses of
   RP.TmgrSched.Oracle that the harness applies to the implementation's trace. *)
From Coq Require Import ZArith List Bool.
From RP Require Import Gen.StatesTables
  TmgrSched.Model TmgrSched.Oracle TmgrSched.Proofs TmgrSched.Proofs2 TmgrSched.Balance TmgrSched.Proofs3 TmgrSched.Proofs4 TmgrSched.Lin TmgrSched.Proofs5.
Import ListNotations.
Open Scope Z_scope.

(* Nothing is lost, nothing is duplicated: after any history every submitted
   task is -- with multiplicity -- either still held back by the scheduler
   (wait pool / early-bound list) or has been forwarded. *)
Theorem C12_conservation :
  forall (c : cfg) (ops : list op) (u : Z),
    countz u (uids (submitted ops)) =
    countz u (waiting (fst (run_st c st0 ops))) + countz u (fwd_uids (snd (run_st c st0 ops))).
Proof. exact conservation. Qed.
Print Assumptions C12_conservation.

(* bound once: with unique task uids, no task is forwarded twice *)
Theorem C12_bound_once :
  forall (c : cfg) (ops : list op),
    NoDup (uids (submitted ops)) -> NoDup (fwd_uids (events_of (run c st0 ops))).
Proof. exact bound_once. Qed.
Print Assumptions C12_bound_once.

(* the same, as the oracle clause *)
Theorem C12_bound_once_oracle :
  forall (c : cfg) (ops : list op),
    nodupb (map t_uid (submitted ops)) = true ->
    nodupb (map fst (fwd_of (events_of (run c st0 ops)))) = true.
Proof. exact bound_once_oracle. Qed.
Print Assumptions C12_bound_once_oracle.

(* a task that names a pilot is bound to that pilot (by work() or when the
   pilot is added), the scheduling algorithm only ever binds tasks that name
   no pilot: no task is ever re-bound to another pilot *)
Theorem C12_named_goes_to_named :
  forall (c : cfg) (ops : list op),
    forallb named_asg (asgs_of (events_of (run c st0 ops))) = true.
Proof. exact named_goes_to_named. Qed.
Print Assumptions C12_named_goes_to_named.

(* backfilling: every placement goes to a pilot whose role is ADDED (never a
   removed one) and whose state is inside [BF_START, BF_STOP] at that moment *)
Theorem C12_bf_window_only_added :
  forall (c : cfg) (ops : list op), c_kind c = BF ->
    forallb (fun a => window_asg c a && added_asg a) (asgs_of (events_of (run c st0 ops))) = true.
Proof.
  intros c ops Hk. pose proof (all_good c ops) as H. rewrite forallb_forall in *. intros a Ha.
  destruct (proj2 (goodb_true c a (H a Ha)) Hk) as [Hw Hr]. rewrite Hw, Hr. reflexivity.
Qed.
Print Assumptions C12_bf_window_only_added.

(* tasks wait while there is no pilot: a message other than add_pilots that
   finds no pilot registered places nothing and fails nothing; by
   C12_conservation the tasks stay in the wait pool *)
Theorem C12_waits_without_pilot :
  forall (c : cfg) (s : st) (o : op) (s' : st) (ev : list event) (e : option serr),
    s_pids s = [] -> (forall t ps, o <> OAdd t ps) -> step c s o = (s', ev, e) ->
    existsb sched_asg (asgs_of ev) = false /\ bad_adv ev = false /\ s_pids s' = [].
Proof. exact waits_without_pilot. Qed.
Print Assumptions C12_waits_without_pilot.

(* round robin: one _schedule_tasks call over k > 0 pilots, from whatever
   start index, gives its tasks to the list positions rr_pos (cyclic walk),
   and the numbers of tasks given to any two positions differ by at most one *)
Theorem C12_rr_balance :
  forall (pl : list (Z * pil)) (pids : list Z) (idx : Z) (ts : list task) idx' ok ev,
    pids <> [] -> 0 <= idx -> rr_loop pl pids idx ts = (idx', ok, ev) ->
    let k := Z.of_nat (length pids) in
    let pos := rr_pos (length ts) k idx in
    map a_pid (asgs_of ev) = map (fun i => nth (Z.to_nat i) pids 0) pos /\
    forall p q, 0 <= p < k -> 0 <= q < k -> Z.abs (countz p pos - countz q pos) <= 1.
Proof. exact rr_balance. Qed.
Print Assumptions C12_rr_balance.

(* round robin, never to a removed pilot -- PARTIAL: stated for one
   _schedule_tasks call under the registration invariant (every entry of
   self._pids has role ADDED), which add_pilots/remove_pilots maintain for
   commands that are not rejected; the preservation of that invariant along
   histories is not proved here (checked by the only_added oracle clause and
   by the correspondence on every run) *)
Theorem C12_rr_only_added_partial :
  forall (pl : list (Z * pil)) (pids : list Z),
    pids <> [] -> (forall pid, In pid pids -> p_role (getp pid pl) = RAdded) ->
    forall ts idx idx' ok ev, 0 <= idx ->
      rr_loop pl pids idx ts = (idx', ok, ev) ->
      forallb (fun a => role_eqb (a_role a) RAdded && memz (a_pid a) pids) (asgs_of ev) = true.
Proof.
  intros pl pids Hne Hr ts idx idx' ok ev _ H. apply forallb_forall. apply Forall_forall.
  refine (Steps.rr_loop_asgs (fun a => role_eqb (a_role a) RAdded && memz (a_pid a) pids = true)
            pl pids ts _ _ _ _ _ H).
  intros t pid _ Hin. specialize (Hin Hne). unfold snap. cbn [a_role a_pid].
  rewrite (Hr _ Hin), (proj2 (Steps.memz_In _ _) Hin). reflexivity.
Qed.
Print Assumptions C12_rr_only_added_partial.

(* the pilot state the scheduler has recorded never regresses (in the pilot
   state order), whatever messages arrive -- in particular not when a pilot
   is added again with an older pilot document *)
Theorem C12_pilot_state_monotone :
  forall (c : cfg) (ops : list op) (s : st) (q : Z),
    pval (stq q (s_pilots s)) <= pval (stq q (s_pilots (fst (run_st c s ops)))).
Proof.
  intros c ops s q. destruct (run_st c s ops) as [s' ev] eqn:E. exact (run_mono c ops s s' ev E q).
Qed.
Print Assumptions C12_pilot_state_monotone.

(* every report is absorbed: after any message, the recorded state of a pilot
   is at least as advanced as every state the message reported for it (state
   notification -- also one carrying a contradicting final state, which is
   skipped without dropping the rest of the batch -- or document of an
   accepted add_pilots command); all _assign_pilot calls of the message see
   that recorded state *)
Theorem C12_reports_absorbed :
  forall (c : cfg) (s : st) (o : op) (s' : st) (ev : list event) (e : option serr),
    step c s o = (s', ev, e) ->
    QA (s_pilots s') ev /\
    forall x, In x (reports_of o e) -> snd x <= pval (stq (fst x) (s_pilots s')).
Proof. exact (fun c s o s' ev e H => proj2 (step_QA c s o s' ev e H)). Qed.
Print Assumptions C12_reports_absorbed.

(* a pilot state notification never leaves the component with an exception
   (the contradicting report is skipped: the code since /repo be30d79) *)
Theorem C12_pilot_notifications_never_raise :
  forall (c : cfg) (s : st) ps (s' : st) (ev : list event) (e : option serr),
    step c s (OPStates ps) = (s', ev, e) -> e = None.
Proof. exact (fun c s ps s' ev e H => proj1 (proj2 (proj2 (update_pilot_states_QA c s ps s' ev e H)))). Qed.
Print Assumptions C12_pilot_notifications_never_raise.

(* bound only to eligible pilots, w.r.t. the most advanced report: over any
   history, no task is placed by Backfilling on a pilot for which some report
   so far (ANY state notification, or the document of an accepted add_pilots
   command) lies beyond BF_STOP -- a pilot once reported final never gets work
   again.  This is the oracle clause bound_only_to_eligible, unconditionally. *)
Theorem C12_bound_only_to_eligible :
  forall (c : cfg) (ops : list op), ok_bf_eligible c ops (run c st0 ops) = true.
Proof.
  intros c ops. unfold ok_bf_eligible. destruct (c_kind c) eqn:Hk; [reflexivity|].
  apply (el_fold_run c Hk ops st0 []); [exact Inv0|intros x []].
Qed.
Print Assumptions C12_bound_only_to_eligible.

(* the history on which the code before /repo be30d79 raised: the contradicting
   final notification for pilot 1 does not drop "pilot 2 is DONE"; task 1 is
   NOT bound to pilot 2, it waits *)
Example C12_batch_not_dropped :
  let c := mkCfg BF 200 4 4 in
  let ops := [OAdd TMine [(2, P_PMGR_ACTIVE, 4)]; OPStates [(1, P_DONE)];
              OPStates [(1, P_CANCELED); (2, P_DONE)]; OSubmit [mkTask 1 None 1]] in
  fwd_of (events_of (run c st0 ops)) = []
  /\ waiting (fst (run_st c st0 ops)) = [1]
  /\ stq 2 (s_pilots (fst (run_st c st0 ops))) = Some P_DONE
  /\ stq 1 (s_pilots (fst (run_st c st0 ops))) = Some P_DONE.
Proof. vm_compute. repeat split. Qed.

(* backfilling usage accounting, full statement (of the code since /repo
   ec949f9 and ac9bb76).  Over ANY history -- submissions with and without named
   pilots, add/remove/re-add, rejected commands, arbitrary pilot and task state
   notifications incl. overridden pilot fields and unknown uids -- with unique
   task uids and non-negative core counts, for the Backfilling scheduler:
   no task state notification batch raises (in particular `used < 0` is
   unreachable), and for every pilot info['used'] equals the cores of the tasks
   placed on it (since it was last added) that are not yet credited, is never
   negative, and is 0 as soon as every placed task has been credited. *)
Theorem C12_bf_used_accounting :
  forall (c : cfg) (ops : list op), c_kind c = BF -> UniqueTasks ops ->
    let s := fst (run_st c st0 ops) in
    tst_ok ops (run c st0 ops) = true /\
    forall p i, info_of p (s_pilots s) = Some i ->
      i_used i = outstanding (s_tk s) i /\ 0 <= i_used i /\
      ((forall u, In u (i_tasks i) -> In u (i_done i)) -> i_used i = 0).
Proof. exact bf_used_accounting. Qed.
Print Assumptions C12_bf_used_accounting.

(* ... and every placed task that a batch reports beyond AGENT_EXECUTING is
   credited by Backfilling.update_tasks, whatever else the batch contains
   (early-bound tasks, tasks placed before a re-add, tasks of pilots known only
   by state, duplicates, unknown uids): the batch is processed to its end *)
Theorem C12_bf_batch_credited :
  forall (c : cfg) (ops : list op) (ns : list (Z * tstate * Z)),
    c_kind c = BF -> UniqueTasks ops ->
    let s := fst (run_st c st0 ops) in
    let rs := map (resolve (s_tk s)) ns in
    exists pl' b, ut_loop rs (s_pilots s) false = (pl', b, None) /\ Cred rs pl'.
Proof. exact bf_batch_credited. Qed.
Print Assumptions C12_bf_batch_credited.

(* one accepted finished-notification credits exactly that task's cores, once *)
Theorem C12_bf_credit_once :
  forall (pl : list (Z * pil)) (uid pid cores : Z) (st : tstate) (p : pil) (i : info),
    aget pid pl = Some p -> p_info p = Some i ->
    memz uid (i_tasks i) = true -> memz uid (i_done i) = false ->
    tvalue T_AGENT_EXECUTING < tvalue st -> 0 <= i_used i - cores ->
    exists pl', ut_loop [(uid, Some pid, st, cores)] pl false = (pl', true, None) /\
      used_of (getp pid pl') = i_used i - cores /\
      ut_loop [(uid, Some pid, st, cores)] pl' false = (pl', false, None).
Proof. exact bf_credit_once. Qed.
Print Assumptions C12_bf_credit_once.

(* the two histories on which the code before these fixes raised.  (1) the
   finished early-bound task 1 does not abort the batch (RuntimeError before
   ac9bb76).  (2) the notification of task 1, which names pilot 2 known only from
   a state notification, is ignored (KeyError('done') before ec949f9).  In both
   task 2 is credited, used = 0. *)
Example C12_early_bound_batch_not_aborted :
  let c := mkCfg BF 200 4 4 in
  let ops := [OAdd TMine [(1, P_PMGR_ACTIVE, 4)];
              OSubmit [mkTask 1 (Some 1) 1; mkTask 2 None 2];
              OTStates [(1, T_DONE, -1); (2, T_DONE, -1)]] in
  map (fun r => snd (fst r)) (run c st0 ops) = [None; None; None]
  /\ info_of 1 (s_pilots (fst (run_st c st0 ops))) = Some (mkInfo 8 0 [2] [2])
  /\ ok_bf_used_zero c ops (run c st0 ops) = true.
Proof. vm_compute. repeat split. Qed.

Example C12_state_only_pilot_batch_not_aborted :
  let c := mkCfg BF 200 4 4 in
  let ops := [OPStates [(2, P_PMGR_ACTIVE)]; OAdd TMine [(1, P_PMGR_ACTIVE, 4)];
              OSubmit [mkTask 1 (Some 2) 1; mkTask 2 None 2];
              OTStates [(1, T_TMGR_SCHEDULING, -1); (2, T_DONE, -1)]] in
  map (fun r => snd (fst r)) (run c st0 ops) = [None; None; None; None]
  /\ info_of 1 (s_pilots (fst (run_st c st0 ops))) = Some (mkInfo 8 0 [2] [2])
  /\ ok_bf_used_zero c ops (run c st0 ops) = true.
Proof. vm_compute. repeat split. Qed.

(* the remaining `raise RuntimeError` of update_tasks (used < 0) needs an input
   outside UniqueTasks: here the uid 1 is submitted twice with different core
   counts and a notification with a foreign pilot field credits the 5 cores of
   the second dict against the 1 core placed for the first *)
Example C12_used_negative_needs_duplicate_uid :
  let c := mkCfg BF 200 4 4 in
  let ops := [OAdd TMine [(1, P_PMGR_ACTIVE, 4)]; OSubmit [mkTask 1 None 1];
              OSubmit [mkTask 1 (Some 9) 5]; OTStates [(1, T_DONE, 1)]] in
  map (fun r => snd (fst r)) (run c st0 ops) = [None; None; None; Some ERuntime].
Proof. vm_compute. reflexivity. Qed.

(* concurrency: the entry points of the scheduler are called from three
   threads (work, control, state subscriber).  The specification the harness
   checks every interleaving against is this model's step function applied to
   the two messages one after the other, in either order (TmgrSched.Lin.seq2;
   the task dicts of a notification are those of the state before the pair).
   Whatever the order, the sequential outcome is "exactly once": every
   submitted task is, with multiplicity, either held back or handed on -- the
   clause lin_exactly_once which the harness evaluates on the implementation's
   interleaved outcomes *)
Theorem C12_lin_spec_exactly_once :
  forall (c : cfg) (prefix : list op) (a b : op) (u : Z) s1 ev1 e1 s2 ev2 e2,
    let s0 := fst (run_st c st0 prefix) in
    let ev0 := snd (run_st c st0 prefix) in
    step_at c s0 s0 a = (s1, ev1, e1) -> step_at c s0 s1 b = (s2, ev2, e2) ->
    countz u (uids (submitted (prefix ++ [a; b]))) =
    countz u (waiting s2) + countz u (fwd_uids (ev0 ++ ev1 ++ ev2)).
Proof. exact lin_spec_exactly_once. Qed.
Print Assumptions C12_lin_spec_exactly_once.

(* non-vacuity: a concrete backfilling history with an early-bound task, a
   pilot that fills up to its high-water mark, a removal and a re-add *)
Example C12_nonvacuous :
  let c := mkCfg BF 200 4 4 in
  let ops := [OSubmit [mkTask 1 (Some 1) 1; mkTask 2 None 2; mkTask 3 None 1];
              OAdd TMine [(1, P_PMGR_ACTIVE, 1)];
              ORemove TMine [1];
              OAdd TMine [(2, P_PMGR_ACTIVE, 4); (1, P_PMGR_ACTIVE, 1)]] in
  fwd_of (events_of (run c st0 ops)) = [(1, Some 1); (2, Some 1); (3, Some 2)]
  /\ waiting (fst (run_st c st0 ops)) = []
  /\ length (filter sched_asg (asgs_of (events_of (run c st0 ops)))) = 2%nat.
Proof. vm_compute. repeat split. Qed.
