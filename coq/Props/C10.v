(* C10 -- the generated task scripts run what the user described.
   Proofs here cite the lemmas of RP.Quote.Proofs, RP.Script.Proofs and
   RP.Script.Barrier or compute on the model; what needs an induction stands
   there (the per-rank clauses in Section RankClauses of Script.Proofs).

   Quote.Model : radical.utils.sh_quote as used by LaunchMethod.get_exec, and
                 bash's word parsing for the emitted fragment (bash_words).
   Script.Model: the exec / launch scripts as abstract programs generated from a
                 task description (exec_prog, launch_prog) and their semantics
                 (step, run); Script.Oracle: the clauses okr_* that the harness
                 evaluates on what real bash did with the real scripts.

   A rank's run: `run rc ep s0` where ep = exec_prog c l t, started in a state
   s0 that has not exited, has an empty trace, and is `ready` (Fork: rank 0;
   stand-in MPI launcher: VERIF_RANK = the rank).  wfb = the inputs the quoting
   promises to handle: plain command word, arguments without $ ` NUL, no
   RP_RANK among the exported names; disjoint_ids = pre and post commands are
   distinguishable in a trace. *)
From Coq Require Import ZArith List String.
From Coq Require Import Permutation.
From RP Require Import Common.ZRange Quote.Model Quote.Proofs Script.Model Script.Oracle Script.Proofs Script.Barrier.
Import ListNotations.
Open Scope Z_scope.

(* ---- quoting ------------------------------------------------------------------------------- *)
(* Every argument list whose members contain no `$`, backtick, NUL byte -- blanks, both
   quote kinds, globs, backslashes, newlines, empty strings, any other byte incl. UTF-8 --
   comes back from bash exactly, as separate words, after the command word.
   Excluded set = exactly what sh_quote leaves to the shell ($ and backtick) and NUL. *)
Theorem C10_argv_roundtrip :
  forall (e : envmap) (exe : bytes) (args : list bytes),
    plain_word exe = true -> forallb safe args = true ->
    bash_words e (get_exec exe args) = Some (exe :: args).
Proof. exact argv_roundtrip_lemma. Qed.
Print Assumptions C10_argv_roundtrip.

(* the excluded bytes are really not preserved: $HOME is expanded by the shell *)
Theorem C10_argv_roundtrip_dollar_refuted :
  exists a, bash_words [] (get_exec (B "x") [a]) <> Some [B "x"; a].
Proof. exists (B "$HOME"). vm_compute. discriminate. Qed.
Print Assumptions C10_argv_roundtrip_dollar_refuted.

(* `export K=<sh_quote v>` (the fixed _get_task_env) is the words `export` and `K=v` *)
Theorem C10_env_roundtrip :
  forall (e : envmap) (k v : bytes),
    plain_word k = true -> safe v = true ->
    bash_words e (B "export" ++ [c_sp] ++ k ++ [61] ++ sh_quote v) = Some [B "export"; k ++ [61] ++ v].
Proof.
  intros e k v Hk Hs. unfold bash_words.
  rewrite (eats_word e _ _ _ _ (bw_plain e (B "export") eq_refl)).
  apply (eats_last e _ _ [B "export"]).
  exact (eats_app e _ _ _ _ (bw_plain e k Hk) (eats_app e _ _ _ _ (bw_plain e [61] eq_refl) (bw_quote e v Hs))).
Qed.
Print Assumptions C10_env_roundtrip.

(* a quoted value / redirection target is one word, unchanged *)
Theorem C10_quoted_word_roundtrip :
  forall (e : envmap) (v : bytes), safe v = true -> bash_word e (sh_quote v) = Some v.
Proof. exact quoted_word_roundtrip. Qed.
Print Assumptions C10_quoted_word_roundtrip.

(* ---- one rank's run of the exec script ---------------------------------------------------------- *)
(* The trace of external commands is: profiler/control calls, then the pre_exec commands that
   apply to this rank in the described order up to the first failure; only if none failed: the
   executable, then the post_exec commands of this rank up to the first failure.  The exit status
   is the executable's unless a pre/post command failed (then 1).  The executable gets the
   described command word and arguments and runs in the directory the script was started in. *)
Theorem C10_rank_run :
  forall c l t rc r s0 ep,
    wfb c t = true -> exec_prog c l t = inr ep ->
    s_exit s0 = None -> s_tr s0 = [] -> s_probe s0 = None -> ready l r s0 -> 0 <= r < t_ranks t ->
    let pre := stubs (per_rank_cmds (ext_pre c t) r) in
    let post := stubs (per_rank_cmds (t_post t) r) in
    let s' := run rc ep s0 in
    exists qA, forallb quiet_ev qA = true /\
      s_tr s' = qA ++ map ECmd (until_fail pre)
                ++ (if all_ok pre
                    then ev_exec ++ map ECmd (until_fail post)
                         ++ (if all_ok post then [EProf (B "exec_stop")] else [])
                    else []) /\
      s_exit s' = Some (if all_ok pre then if all_ok post then rc else 1 else 1) /\
      (if all_ok pre
       then exists e, s_probe s' = Some (t_exe t :: t_args t, s_cwd s0, e)
       else s_probe s' = None).
Proof. exact rank_spec. Qed.
Print Assumptions C10_rank_run.

(* the same facts as the oracle clauses the harness evaluates on implementation
   traces: pre_exec before the executable, post_exec after it, at most one run *)
Theorem C10_pre_before_post_after :
  forall c l t rcs r s0 ep,
    wfb c t = true -> disjoint_ids c t = true -> exec_prog c l t = inr ep ->
    s_exit s0 = None -> s_tr s0 = [] -> s_probe s0 = None -> ready l r s0 -> 0 <= r < t_ranks t ->
    okr_order c t r (robs_of (run (nth_rc rcs r) ep s0)) = true.
Proof. exact rank_okr_order. Qed.
Print Assumptions C10_pre_before_post_after.

(* exactly the pre_exec / post_exec entries for all ranks and for this rank run,
   in the described order, up to the first that fails *)
Theorem C10_per_rank_only_on_rank :
  forall c l t rcs r s0 ep,
    wfb c t = true -> disjoint_ids c t = true -> exec_prog c l t = inr ep ->
    s_exit s0 = None -> s_tr s0 = [] -> s_probe s0 = None -> ready l r s0 -> 0 <= r < t_ranks t ->
    okr_per_rank c t r (robs_of (run (nth_rc rcs r) ep s0)) = true.
Proof. exact rank_okr_per_rank. Qed.
Print Assumptions C10_per_rank_only_on_rank.

(* (`launched t`: the launch script got past pre_launch; otherwise no rank runs) *)
Theorem C10_failing_pre_blocks_exec :
  forall c l t rcs r s0 ep,
    wfb c t = true -> exec_prog c l t = inr ep ->
    s_exit s0 = None -> s_tr s0 = [] -> s_probe s0 = None -> ready l r s0 -> 0 <= r < t_ranks t ->
    launched t = true ->
    okr_pre_blocks c t r (robs_of (run (nth_rc rcs r) ep s0)) = true.
Proof. exact rank_okr_pre_blocks. Qed.
Print Assumptions C10_failing_pre_blocks_exec.

(* `want_rank_rc`: 1 if a pre_exec or post_exec command of the rank fails, else
   the executable's own status *)
Theorem C10_exit_code_rule :
  forall c l t rcs r s0 ep,
    wfb c t = true -> exec_prog c l t = inr ep ->
    s_exit s0 = None -> s_tr s0 = [] -> s_probe s0 = None -> ready l r s0 -> 0 <= r < t_ranks t ->
    exit_code (run (nth_rc rcs r) ep s0) = want_rank_rc c t rcs r /\
    okr_rc c t rcs r (robs_of (run (nth_rc rcs r) ep s0)) = true.
Proof. exact exit_code_rule_lemma. Qed.
Print Assumptions C10_exit_code_rule.

Theorem C10_argv_exact :
  forall c l t rcs r s0 ep,
    wfb c t = true -> exec_prog c l t = inr ep ->
    s_exit s0 = None -> s_tr s0 = [] -> s_probe s0 = None -> ready l r s0 -> 0 <= r < t_ranks t ->
    okr_argv t r (robs_of (run (nth_rc rcs r) ep s0)) = true.
Proof. exact rank_okr_argv. Qed.
Print Assumptions C10_argv_exact.

Theorem C10_executable_runs :
  forall c l t rcs r s0 ep,
    wfb c t = true -> exec_prog c l t = inr ep ->
    s_exit s0 = None -> s_tr s0 = [] -> s_probe s0 = None -> ready l r s0 -> 0 <= r < t_ranks t ->
    okr_runs c t r (robs_of (run (nth_rc rcs r) ep s0)) = true.
Proof. exact rank_okr_runs. Qed.
Print Assumptions C10_executable_runs.

(* ---- RP_* variables (PARTIAL) --------------------------------------------------------------------- *)
(* Proved: both scripts contain, for every identity variable, the statement
   export NAME=''<value>'' with the task's / pilot's value, the count, address and
   task-sandbox exports; and such a literal is read back unchanged by bash when it has no
   double quote, backslash, $, backtick, NUL.  NOT proved (checked only by the correspondence
   and by the oracle clause rp_env_complete on every generated case): that no later statement
   of the script overrides them, the values of the sandbox variables after expansion, RP_RANK /
   RP_RANKS in the executable's environment. *)
Theorem C10_rp_env_complete_partial :
  forall c l t ep, exec_prog c l t = inr ep ->
    (forall kv, In kv (rp_ids c t) ->
       In (SExportQ (fst kv) (dq (snd kv))) ep /\ In (SExportQ (fst kv) (dq (snd kv))) (launch_prog c l t)) /\
    (forall e v, literal v = true -> bash_word e (dq v) = Some v) /\
    In (SExportQ (B "RP_CORES_PER_RANK") (dec (t_cpr t))) ep /\
    In (SExportQ (B "RP_GPUS_PER_RANK") (fmt_gpr (t_gpr_q t))) ep /\
    In (SExportQ (B "RP_CONTROL_PUB_ADDRESS") (c_pub c)) ep /\
    In (SExportQ (B "RP_CONTROL_SUB_ADDRESS") (c_sub c)) ep /\
    In (SExportQ (B "RP_TASK_SANDBOX") (dq (tsbox_text t))) ep.
Proof.
  intros c l t ep Hep. pose proof (fun x => rp_env_in_both c l t ep x Hep) as Both.
  destruct (rp_env_exports_counts c t) as (A & B0 & C & D & E).
  repeat split; try (now apply literal_roundtrip); apply Both; auto using rp_env_exports_ids.
Qed.
Print Assumptions C10_rp_env_complete_partial.

(* ---- the rank synchronisation (pre_exec_sync): every script terminates ------------------------------- *)
(* rp_sync_ranks as written: the marker file gets one line per arriving rank (Arrive r), an arrived rank
   polls until the file has RP_RANKS = n lines (Poll r), nobody removes the file.  A schedule is ANY
   sequence of these events of the concurrently running ranks; brun n sched b0 is the state after it. *)

(* the marker file is exactly the sequence of arrivals: it never shrinks *)
Theorem C10_barrier_file_only_grows :
  forall (n : nat) sched s, b_file (brun n sched s) = b_file s ++ arrivals sched.
Proof. exact barrier_file_lemma. Qed.
Print Assumptions C10_barrier_file_only_grows.

(* none passes before all have arrived: at every moment, a rank that has left the synchronisation has
   arrived and n lines are in the file ... *)
Theorem C10_barrier_none_passes_early :
  forall (n : nat) sched r,
    In r (b_passed (brun n sched b0)) ->
    In r (arrivals sched) /\ (n <= List.length (arrivals sched))%nat.
Proof. exact barrier_none_early_lemma. Qed.
Print Assumptions C10_barrier_none_passes_early.

(* ... so, when each of the ranks 0..n-1 arrives at most once, every rank has arrived by then *)
Theorem C10_barrier_all_arrived_before_any_passes :
  forall (n : nat) sched r,
    NoDup (arrivals sched) -> (forall x, In x (arrivals sched) -> In x (zrange n)) ->
    In r (b_passed (brun n sched b0)) ->
    forall k, In k (zrange n) -> In k (arrivals sched).
Proof.
  intros n sched r ND Hin H. destruct (barrier_none_early_lemma n sched r H) as [_ L].
  apply (NoDup_length_incl ND).
  - unfold zrange. now rewrite map_length, seq_length.
  - exact Hin.
Qed.
Print Assumptions C10_barrier_all_arrived_before_any_passes.

(* no rank waits for ever: once n lines are there, after anything else that may happen (later), the next
   poll of an arrived rank lets it pass *)
Theorem C10_barrier_no_rank_waits_for_ever :
  forall (n : nat) sched later r,
    (n <= List.length (arrivals sched))%nat -> In r (arrivals sched) ->
    In r (b_passed (brun n (sched ++ later ++ [Poll r]) b0)).
Proof. exact barrier_next_poll_passes_lemma. Qed.
Print Assumptions C10_barrier_no_rank_waits_for_ever.

(* for EVERY arrival order (any permutation of the ranks) and any interleaving of polls: one more poll
   of each rank and all n ranks have passed *)
Theorem C10_barrier_every_arrival_order :
  forall (n : nat) order sched,
    Permutation order (zrange n) -> arrivals sched = order ->
    forall r, In r (zrange n) -> In r (b_passed (brun n (sched ++ map Poll (zrange n)) b0)).
Proof. exact barrier_every_order_lemma. Qed.
Print Assumptions C10_barrier_every_arrival_order.

(* the theorems depend on "nobody removes the marker": in the variant where rank 0 removes it when it
   leaves, rank 1 (arrived first) never passes, however often it polls *)
Theorem C10_barrier_with_removal_refuted :
  forall k, ~ In 1 (b_passed (brun_rm 2 ([Arrive 1; Poll 1; Arrive 0; Poll 0] ++ repeat (Poll 1) k) b0)).
Proof. exact barrier_with_removal_blocks_lemma. Qed.
Print Assumptions C10_barrier_with_removal_refuted.

(* ---- non-vacuity: a concrete two-rank task with hostile arguments, a per-rank pre_exec entry,
   a failing post_exec on rank 1; the whole model run (launch + both ranks) satisfies every clause *)
Definition nv_cfg : cfg :=
  mkCfg (B "pilot.0000") (B "sess.c10") (B "local.verif") (B "/R/rs")
        (B "$RP_RESOURCE_SANDBOX/$RP_SESSION_ID/") (B "$RP_SESSION_SANDBOX/pilot.0000")
        (B "tcp://10.0.0.1:10001") (B "tcp://10.0.0.1:10002") (B "tcp://10.0.0.1:10003")
        (B "/R/bin/radical-pilot-control") false [] [(B "VERIF_LM_ENV", B "fork")]
        (B "/R/rs/sess.c10/pilot.0000").
Definition nv_task : task :=
  mkTask (B "task.000000") None (B "probe") [B "a b"; []; [120; 34; 121]; [92]; [42]; [10]]
         [(B "FOO", [34; 104; 105; 34])] 2 2 4 true true false [[0]; [1]]
         [EAll (CStub 1 0); EPer [(1, [CStub 2 0])]] [EPer [(1, [CStub 3 7])]; EAll (CStub 4 0)] true
         [CStub 5 0] [] (Some (B "my out.txt")) None true.

Example C10_nonvacuous :
  wfb nv_cfg nv_task = true /\ disjoint_ids nv_cfg nv_task = true /\
  match model_run nv_cfg nv_task [0; 3] with
  | inr L => unmodelled L = false
             /\ forallb (fun b => b) (clauses nv_cfg nv_task [0; 3] (mobs_of nv_cfg nv_task L)) = true
             /\ map (fun s => s_tr s) (l_ranks L)
                = [ [ECtrl; EProf (B "exec_start"); EProf (B "exec_pre"); ECmd 1;
                     EProf (B "rank_start"); EExec; EProf (B "rank_stop"); EProf (B "exec_post"); ECmd 4;
                     EProf (B "exec_stop")];
                    [EProf (B "exec_start"); EProf (B "exec_pre"); ECmd 1; ECmd 2;
                     EProf (B "rank_start"); EExec; EProf (B "rank_stop"); EProf (B "exec_post"); ECmd 3] ]
             /\ map exit_code (l_ranks L) = [0; 1]
  | inl _ => False
  end.
Proof. vm_compute. repeat split; reflexivity. Qed.
