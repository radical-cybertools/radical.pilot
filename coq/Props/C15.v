(* C15 -- waiting on tasks and pilots returns when it should.
   Statements only; every proof is `exact <lemma>`.  The model is
   RP.Wait.Model instantiated (RP.Wait.Inst) with the state tables generated
   from states.py.  Time is counted in polling ticks (time.sleep(0.1));
   `at_ tr k` is the state an entity shows at tick k; `fuel` bounds the number
   of polls the model may make (the theorems say how much is enough).

   Modules ClientSide and PilotSide: how Task.state and Pilot.state come to
   the states the calls poll (RP.States).

   `mem s (norm FINAL r)` = s is one of the requested states (default: the
   final states); `clauses p0` = the oracle [truthful; timely; timeout;
   justified; no_exception] (p0 = first tick at which the call looks at the
   entities; `timely` = all at once for a polling interval, per entity, and -- for
   wait_tasks only -- per entity in the `reached` (state value) reading) that the harness evaluates on the traces of the
   real code. *)
From Coq Require Import ZArith List Bool.
From RP Require Import Gen.StatesTables Wait.Model Wait.Inst Wait.Oracle Wait.Proofs Wait.InstProofs.
From RP Require States.Model States.Proofs States.Inst States.PilotEnd.
Import ListNotations.

Notation tmem := (mem tstate_beq).
Notation pmem := (mem pstate_beq).
Notation tfin := (is_final tstate_beq tfinal).
Notation pfin := (is_final pstate_beq pfinal).
Notation ttraj := (@traj tstate).
Notation ptraj := (@traj pstate).
Notation ttable := (@table tstate).
Notation ptable := (@table pstate).
Notation all_true := [true; true; true; true; true].

(* the table facts the proofs rest on (regenerated from states.py on every run) *)
Theorem C15_final_states_are_top :
  (forall f s, In f tfinal -> (tvalue f <= tvalue s)%Z -> tfin s = true) /\
  (forall f s, In f pfinal -> (pvalue f <= pvalue s)%Z -> pfin s = true) /\
  (forall s, tfin s = true <-> s = T_DONE \/ s = T_FAILED \/ s = T_CANCELED) /\
  (forall s, pfin s = true <-> s = P_DONE \/ s = P_FAILED \/ s = P_CANCELED).
Proof. exact (conj t_final_top (conj p_final_top (conj t_final_is p_final_is))). Qed.
Print Assumptions C15_final_states_are_top.

(* ---- Task.wait ---------------------------------------------------------- *)
(* If the task shows a requested state -- or any final state, whatever was
   requested -- at tick k, Task.wait has returned by tick k, and it returns
   the state the task shows at the tick of the return. *)
Theorem C15_task_wait_returns_on_requested_or_final :
  forall (r : req) (T : tmo) (term : option nat) (fuel : nat) (tr : ttraj) (k : nat),
    k <= fuel ->
    tmem (at_ tr k) (norm tfinal r) || tfin (at_ tr k) = true ->
    exists t, t <= k /\ m_task_wait r T term fuel tr = Returned (VOne (at_ tr t)) t.
Proof. exact (entity_returns_by tstate_beq tfinal). Qed.
Print Assumptions C15_task_wait_returns_on_requested_or_final.

(* Timeouts (T : tmo = no timeout | a negative number | n ticks).  `deadline T`
   is the first tick d at which the code's test `timeout and timeout <= elapsed`
   holds: d = n for n > 0 ticks, d = 0 for a NEGATIVE timeout (the remainder of
   a used-up time budget), none for None and 0.  Task.wait tests the timeout
   after each sleep: it has returned by tick max d 1 -- by tick T for a
   positive timeout, at its first check (tick 1) for a negative one. *)
Theorem C15_task_wait_returns_on_timeout :
  forall (r : req) (T : tmo) (term : option nat) (fuel : nat) (tr : ttraj) (d : nat),
    deadline T = Some d -> Nat.max d 1 <= fuel ->
    exists t, t <= Nat.max d 1 /\ m_task_wait r T term fuel tr = Returned (VOne (at_ tr t)) t.
Proof. exact (entity_timeout tstate_beq tfinal). Qed.
Print Assumptions C15_task_wait_returns_on_timeout.

(* Task.wait never returns early: a return at tick t is caused by the
   timeout, by the manager terminating, or by the task showing a requested or
   final state at tick t; and it never returns anything but the actual state. *)
Theorem C15_task_wait_justified_and_truthful :
  forall (r : req) (T : tmo) (term : option nat) (fuel : nat) (tr : ttraj),
    (forall v t, m_task_wait r T term fuel tr = Returned v t ->
       timed_out T t = true \/ term_set term t = true \/
       tmem (at_ tr t) (norm tfinal r) || tfin (at_ tr t) = true) /\
    (m_task_wait r T term fuel tr = Spins \/
     exists t, m_task_wait r T term fuel tr = Returned (VOne (at_ tr t)) t).
Proof.
  exact (fun r T term fuel tr =>
           conj (entity_justified tstate_beq tfinal r T term fuel tr)
                (entity_shape tstate_beq tfinal r T term fuel tr)).
Qed.
Print Assumptions C15_task_wait_justified_and_truthful.

(* `Spins` (what the harness reports when the real call polls past the end
   of the trajectory, the timeout and the termination tick) means that the
   call never returns: more fuel does not help. *)
Theorem C15_task_wait_spins_is_forever :
  forall (r : req) (T : tmo) (term : option nat) (fuel : nat) (tr : ttraj),
    length (snd tr) + 1 <= fuel ->
    (forall d, deadline T = Some d -> d + 1 <= fuel) ->
    (forall k, term = Some k -> k + 1 <= fuel) ->
    m_task_wait r T term fuel tr = Spins ->
    forall fuel', m_task_wait r T term fuel' tr = Spins.
Proof. exact (entity_spins_forever tstate_beq tfinal). Qed.
Print Assumptions C15_task_wait_spins_is_forever.

(* all oracle clauses hold for Task.wait on every input *)
Theorem C15_task_wait_oracle :
  forall (r : req) (T : tmo) (term : option nat) (fuel : nat) (tr : ttraj),
    horizon [tr] + 2 <= fuel -> (forall d, deadline T = Some d -> d + 2 <= fuel) ->
    clauses tstate_beq tfinal tvalue 0 false false (norm tfinal r) T term (Some [tr])
            (m_task_wait r T term fuel tr) = all_true.
Proof. exact (entity_clauses tstate_beq tfinal tvalue States.Inst.tstate_beq_spec). Qed.
Print Assumptions C15_task_wait_oracle.

(* ---- Pilot.wait --------------------------------------------------------- *)
(* as for Task.wait *)
Theorem C15_pilot_wait_returns_on_requested_or_final :
  forall (r : req) (T : tmo) (term : option nat) (fuel : nat) (tr : ptraj) (k : nat),
    k <= fuel ->
    pmem (at_ tr k) (norm pfinal r) || pfin (at_ tr k) = true ->
    exists t, t <= k /\ m_pilot_wait r T term fuel tr = Returned (VOne (at_ tr t)) t.
Proof. exact (entity_returns_by pstate_beq pfinal). Qed.
Print Assumptions C15_pilot_wait_returns_on_requested_or_final.

Theorem C15_pilot_wait_returns_on_timeout :
  forall (r : req) (T : tmo) (term : option nat) (fuel : nat) (tr : ptraj) (d : nat),
    deadline T = Some d -> Nat.max d 1 <= fuel ->
    exists t, t <= Nat.max d 1 /\ m_pilot_wait r T term fuel tr = Returned (VOne (at_ tr t)) t.
Proof. exact (entity_timeout pstate_beq pfinal). Qed.
Print Assumptions C15_pilot_wait_returns_on_timeout.

Theorem C15_pilot_wait_justified_and_truthful :
  forall (r : req) (T : tmo) (term : option nat) (fuel : nat) (tr : ptraj),
    (forall v t, m_pilot_wait r T term fuel tr = Returned v t ->
       timed_out T t = true \/ term_set term t = true \/
       pmem (at_ tr t) (norm pfinal r) || pfin (at_ tr t) = true) /\
    (m_pilot_wait r T term fuel tr = Spins \/
     exists t, m_pilot_wait r T term fuel tr = Returned (VOne (at_ tr t)) t).
Proof.
  exact (fun r T term fuel tr =>
           conj (entity_justified pstate_beq pfinal r T term fuel tr)
                (entity_shape pstate_beq pfinal r T term fuel tr)).
Qed.
Print Assumptions C15_pilot_wait_justified_and_truthful.

Theorem C15_pilot_wait_spins_is_forever :
  forall (r : req) (T : tmo) (term : option nat) (fuel : nat) (tr : ptraj),
    length (snd tr) + 1 <= fuel ->
    (forall d, deadline T = Some d -> d + 1 <= fuel) ->
    (forall k, term = Some k -> k + 1 <= fuel) ->
    m_pilot_wait r T term fuel tr = Spins ->
    forall fuel', m_pilot_wait r T term fuel' tr = Spins.
Proof. exact (entity_spins_forever pstate_beq pfinal). Qed.
Print Assumptions C15_pilot_wait_spins_is_forever.

Theorem C15_pilot_wait_oracle :
  forall (r : req) (T : tmo) (term : option nat) (fuel : nat) (tr : ptraj),
    horizon [tr] + 2 <= fuel -> (forall d, deadline T = Some d -> d + 2 <= fuel) ->
    clauses pstate_beq pfinal pvalue 0 false false (norm pfinal r) T term (Some [tr])
            (m_pilot_wait r T term fuel tr) = all_true.
Proof. exact (entity_clauses pstate_beq pfinal pvalue States.Inst.pstate_beq_spec). Qed.
Print Assumptions C15_pilot_wait_oracle.

(* ---- TaskManager.wait_tasks ---------------------------------------------- *)
(* Per entity: if every awaited task (the uids named, or all tasks) HAS shown
   a requested or a final state at some tick 1 <= j <= k -- each at its own
   tick, it may have moved on to a later state since -- wait_tasks has returned
   by tick k, and what it returns are the states the tasks show at the tick of
   the return (a list in the order asked for, or the one state for a single
   uid).  (wait_tasks first looks at the tasks at tick 1.) *)
Theorem C15_wait_tasks_returns_on_requested_or_final :
  forall (r : req) (T : tmo) (term : option nat) (fuel : nat) (tab : ttable) (u : uidsel)
         (aw : list ttraj) (k : nat),
    awaited_tasks tab u = Some aw -> 1 <= k <= fuel ->
    (forall tr, In tr aw -> exists j, 1 <= j <= k /\
        tmem (at_ tr j) (norm tfinal r) || tfin (at_ tr j) = true) ->
    exists v t, t <= k /\ m_wait_tasks r T term fuel tab u = Returned v t /\
                ok_truthful tstate_beq (as_list u) aw (Returned v t) = true.
Proof. exact (wait_tasks_returns_by tstate_beq tfinal tvalue States.Inst.tstate_beq_spec t_final_ne). Qed.
Print Assumptions C15_wait_tasks_returns_on_requested_or_final.

(* "Reached": in the linear task state model a task has reached a requested
   state S once it shows S, a state LATER than S (state value >= value S: its
   callbacks have announced S), or a final state.  If every awaited task has
   reached a requested state at some tick 1 <= j <= k -- it may already have
   been past it when the call began, or have jumped over it between two ticks
   and linger in a later non-final state -- wait_tasks has returned by tick k
   with the tasks' actual states.  (Task.wait, Pilot.wait and wait_pilots are
   membership based; this reading is not claimed for them.) *)
Theorem C15_wait_tasks_returns_when_reached :
  forall (r : req) (T : tmo) (term : option nat) (fuel : nat) (tab : ttable) (u : uidsel)
         (aw : list ttraj) (k : nat),
    awaited_tasks tab u = Some aw -> 1 <= k <= fuel ->
    (forall tr, In tr aw -> exists j, 1 <= j <= k /\
        passed tstate_beq tfinal tvalue (norm tfinal r) (at_ tr j) = true) ->
    exists v t, t <= k /\ m_wait_tasks r T term fuel tab u = Returned v t /\
                ok_truthful tstate_beq (as_list u) aw (Returned v t) = true.
Proof. exact (wait_tasks_returns_when_reached tstate_beq tfinal tvalue States.Inst.tstate_beq_spec t_final_ne). Qed.
Print Assumptions C15_wait_tasks_returns_when_reached.

(* wait_tasks tests the timeout BEFORE its first sleep: with deadline d it has
   returned by tick d with the tasks' actual states -- for a negative timeout
   (d = 0) at once, without polling, whatever the tasks do. *)
Theorem C15_wait_tasks_returns_on_timeout :
  forall (r : req) (T : tmo) (term : option nat) (fuel : nat) (tab : ttable) (u : uidsel)
         (aw : list ttraj) (d : nat),
    awaited_tasks tab u = Some aw -> deadline T = Some d -> d <= fuel ->
    exists v t, t <= d /\ m_wait_tasks r T term fuel tab u = Returned v t /\
                ok_truthful tstate_beq (as_list u) aw (Returned v t) = true.
Proof. exact (wait_tasks_timeout tstate_beq tfinal tvalue States.Inst.tstate_beq_spec t_final_ne). Qed.
Print Assumptions C15_wait_tasks_returns_on_timeout.

(* all oracle clauses (truthful; timely; timeout: returned by deadline+1; justified:
   no early return; no exception) hold for wait_tasks on every input with
   known uids; an unknown uid raises KeyError *)
Theorem C15_wait_tasks_oracle :
  forall (r : req) (T : tmo) (term : option nat) (fuel : nat) (tab : ttable) (u : uidsel) (aw : list ttraj),
    awaited_tasks tab u = Some aw ->
    horizon aw + 2 <= fuel -> (forall d, deadline T = Some d -> d + 2 <= fuel) ->
    clauses tstate_beq tfinal tvalue 1 true (as_list u) (norm tfinal r) T term (Some aw)
            (m_wait_tasks r T term fuel tab u) = all_true.
Proof. exact (wait_tasks_clauses tstate_beq tfinal tvalue States.Inst.tstate_beq_spec t_final_top t_final_ne). Qed.
Print Assumptions C15_wait_tasks_oracle.

Theorem C15_wait_tasks_unknown_uid :
  forall (r : req) (T : tmo) (term : option nat) (fuel : nat) (tab : ttable) (u : uidsel),
    awaited_tasks tab u = None -> m_wait_tasks r T term fuel tab u = Raised KeyError.
Proof. exact (wait_tasks_unknown_uid tstate_beq tfinal tvalue t_final_ne). Qed.
Print Assumptions C15_wait_tasks_unknown_uid.

(* ---- PilotManager.wait_pilots -------------------------------------------- *)
(* Per entity: if every awaited pilot (the uids named, or all pilots not
   final at the time of the call) HAS shown a requested or a final state at some
   tick j <= k -- each at its own tick; a pilot seen in a requested transient
   state stays accounted for when it moves on -- wait_pilots has returned by
   tick k+1 with the pilots' actual states. *)
Theorem C15_wait_pilots_returns_on_requested_or_final :
  forall (r : req) (T : tmo) (term : option nat) (fuel : nat) (tab : ptable) (u : uidsel)
         (aw : list ptraj) (k : nat),
    awaited_pilots pstate_beq pfinal tab u = Some aw -> S k <= fuel ->
    (forall tr, In tr aw -> exists j, j <= k /\
        pmem (at_ tr j) (norm pfinal r) || pfin (at_ tr j) = true) ->
    exists v t, t <= S k /\ m_wait_pilots r T term fuel tab u = Returned v t /\
                ok_truthful pstate_beq (as_list u) aw (Returned v t) = true.
Proof. exact (wait_pilots_returns_by pstate_beq pfinal States.Inst.pstate_beq_spec). Qed.
Print Assumptions C15_wait_pilots_returns_on_requested_or_final.

(* wait_pilots tests the timeout at every poll while pilots are pending: with
   deadline d it has returned by tick d+1 (by tick 1 for a negative timeout). *)
Theorem C15_wait_pilots_returns_on_timeout :
  forall (r : req) (T : tmo) (term : option nat) (fuel : nat) (tab : ptable) (u : uidsel)
         (aw : list ptraj) (d : nat),
    awaited_pilots pstate_beq pfinal tab u = Some aw -> deadline T = Some d -> S d <= fuel ->
    exists v t, t <= S d /\ m_wait_pilots r T term fuel tab u = Returned v t /\
                ok_truthful pstate_beq (as_list u) aw (Returned v t) = true.
Proof. exact (wait_pilots_timeout pstate_beq pfinal States.Inst.pstate_beq_spec). Qed.
Print Assumptions C15_wait_pilots_returns_on_timeout.

Theorem C15_wait_pilots_oracle :
  forall (r : req) (T : tmo) (term : option nat) (fuel : nat) (tab : ptable) (u : uidsel) (aw : list ptraj),
    awaited_pilots pstate_beq pfinal tab u = Some aw ->
    horizon aw + 2 <= fuel -> (forall d, deadline T = Some d -> d + 2 <= fuel) ->
    clauses pstate_beq pfinal pvalue 0 false (as_list u) (norm pfinal r) T term (Some aw)
            (m_wait_pilots r T term fuel tab u) = all_true.
Proof. exact (wait_pilots_clauses pstate_beq pfinal pvalue States.Inst.pstate_beq_spec). Qed.
Print Assumptions C15_wait_pilots_oracle.

Theorem C15_wait_pilots_unknown_uid :
  forall (r : req) (T : tmo) (term : option nat) (fuel : nat) (tab : ptable) (u : uidsel),
    awaited_pilots pstate_beq pfinal tab u = None -> m_wait_pilots r T term fuel tab u = Raised ValueError.
Proof. exact (wait_pilots_unknown_uid pstate_beq pfinal). Qed.
Print Assumptions C15_wait_pilots_unknown_uid.

(* non-vacuity: waiting for DONE on a task that fails at tick 2 returns FAILED
   at tick 2; the default request returns at the first final state; a timeout
   of 3 ticks on a stalled pilot returns at tick 3; a task that never becomes
   final makes an untimed wait poll for ever; two tasks, the later final at
   tick 3, wait_tasks returns both states at tick 3 *)
Example C15_nonvacuous :
  m_task_wait (ROne T_DONE) TNone None 10 (T_NEW, [T_AGENT_EXECUTING; T_FAILED]) = Returned (VOne T_FAILED) 2 /\
  m_task_wait RNone TNone None 10 (T_NEW, [T_AGENT_EXECUTING; T_CANCELED; T_DONE]) = Returned (VOne T_CANCELED) 2 /\
  m_pilot_wait (ROne P_DONE) (TTicks 3) None 10 (P_NEW, [P_PMGR_ACTIVE]) = Returned (VOne P_PMGR_ACTIVE) 3 /\
  m_task_wait RNone TNone None 10 (T_NEW, [T_AGENT_EXECUTING]) = Spins /\
  m_wait_tasks RNone TNone None 10 [(1%Z, (T_NEW, [T_DONE])); (2%Z, (T_NEW, [T_NEW; T_NEW; T_FAILED]))] UAll
    = Returned (VList [T_DONE; T_FAILED]) 3 /\
  m_wait_pilots (ROne P_PMGR_ACTIVE) TNone None 10
    [(1%Z, (P_NEW, [P_PMGR_ACTIVE])); (2%Z, (P_DONE, []))] UAll = Returned (VList [P_PMGR_ACTIVE]) 2 /\
  (* pilot 1 passes through the requested state at tick 1 and has moved on
     when pilot 2 shows it at tick 3: the wait returns at tick 4 *)
  m_wait_pilots (ROne P_PMGR_ACTIVE_PENDING) TNone None 12
    [(1%Z, (P_NEW, [P_PMGR_ACTIVE_PENDING; P_PMGR_ACTIVE]));
     (2%Z, (P_NEW, [P_NEW; P_NEW; P_PMGR_ACTIVE_PENDING]))] UAll
    = Returned (VList [P_PMGR_ACTIVE; P_PMGR_ACTIVE_PENDING]) 4 /\
  (* task 1 is already past the awaited state, task 2 jumps over it at tick 2
     and both linger in later non-final states: wait_tasks returns at tick 2 *)
  m_wait_tasks (ROne T_AGENT_EXECUTING_PENDING) TNone None 12
    [(1%Z, (T_AGENT_EXECUTING, [])); (2%Z, (T_AGENT_SCHEDULING, [T_AGENT_SCHEDULING; T_AGENT_EXECUTING]))] UAll
    = Returned (VList [T_AGENT_EXECUTING; T_AGENT_EXECUTING]) 2 /\
  (* a negative timeout (used-up budget): wait_tasks returns at once with the
     actual states, Task.wait and wait_pilots at their first check (tick 1);
     a timeout of 0 is no timeout *)
  m_wait_tasks RNone TNeg None 10 [(1%Z, (T_NEW, [T_AGENT_EXECUTING]))] UAll = Returned (VList [T_NEW]) 0 /\
  m_task_wait RNone TNeg None 10 (T_NEW, [T_AGENT_EXECUTING]) = Returned (VOne T_AGENT_EXECUTING) 1 /\
  m_wait_pilots RNone TNeg None 10 [(1%Z, (P_NEW, [P_PMGR_ACTIVE]))] UAll = Returned (VList [P_NEW]) 0 /\
  m_wait_tasks RNone (TTicks 0) None 10 [(1%Z, (T_NEW, [T_AGENT_EXECUTING]))] UAll = Spins.
Proof. vm_compute. repeat split. Qed.

(* ---- the client's end: what wait() looks at ----
   wait() polls Task.state; the trajectories quantified over above are the
   states the client's Task objects go through.  They are produced from the
   notification batches by TaskManager._update_tasks (model: RP.States, the
   subject of C06).  What C15 needs from it: no batch is ever dropped by an
   exception (a dropped batch loses the final state of every task in it, and
   wait() hangs although the awaited state was reached), and Task.state is the
   end of the chain of states announced so far -- for every history of batches,
   duplicates, reordering, gaps and contradictory finals included. *)
Module ClientSide.
Import RP.States.Model RP.States.Proofs RP.States.Inst.
Notation tchain := (chain tstate_beq T_DONE T_FAILED T_CANCELED tvalue).

Theorem C15_client_never_drops_a_batch :
  forall (t : tasks) (b : list (Z * tstate)), snd (t_update_batch t b) = None.
Proof. exact (history_no_exception _ _ _ _ _ _ _ t_wf). Qed.
Print Assumptions C15_client_never_drops_a_batch.

Theorem C15_client_state_is_end_of_announced_chain :
  forall (bs : list (list (Z * tstate))) (t : tasks) (u : Z) (cur : tstate),
    lookup u t = Some cur ->
    tchain cur (proj u (snd (t_run_cbs t bs))) /\
    lookup u (fst (t_run_cbs t bs)) = Some (last_of cur (proj u (snd (t_run_cbs t bs)))).
Proof. exact (history_chain _ _ _ _ _ _ _ t_wf). Qed.
Print Assumptions C15_client_state_is_end_of_announced_chain.

End ClientSide.

(* ---- the pilot's end reaches Pilot.state ----
   Pilot.wait and wait_pilots poll Pilot.state, which Pilot._update sets from the
   pmgr notifications (model: RP.States, the subject of C14).  What C15 needs
   from it: a final notification for a pilot that is not final yet makes
   Pilot.state that final state and raises nothing, whatever state the client
   still had the pilot in (a very short pilot, a missed activation notice). *)
Module PilotSide.
Import RP.States.Inst RP.States.PilotEnd.
Theorem C15_pilot_end_is_observed :
  forall cur tgt : pstate,
    p_is_final cur = false -> p_is_final tgt = true ->
    exists cbs, p_notify cur tgt = (tgt, cbs ++ [tgt], None).
Proof. exact pilot_end_is_observed. Qed.
Print Assumptions C15_pilot_end_is_observed.
End PilotSide.
