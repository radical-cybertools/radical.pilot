(* C06 -- applications observe the linear task state model.
   Statements only; every proof is `exact <lemma>`.  The model is
   RP.States.Model instantiated (RP.States.Inst) with the tables generated
   from states.py.  Module RaceSide: RP.States.DeathRace. *)
From Coq Require Import ZArith List.
From RP Require Import Gen.StatesTables States.Model States.Proofs States.Inst.
From RP Require States.DeathRace.
Import ListNotations.
Open Scope Z_scope.

Notation tchain := (chain tstate_beq T_DONE T_FAILED T_CANCELED tvalue).

(* the generated tables are well-formed (re-checked whenever states.py changes) *)
Theorem C06_tables_wf : wf tstate_beq T_DONE T_FAILED T_CANCELED tvalue tinv ttop.
Proof. exact t_wf. Qed.
Print Assumptions C06_tables_wf.

(* For every history of notification batches and every known task: the
   states delivered to callbacks form a chain from the task's initial state
   (each step leaves a non-final state and is either the next state of the
   model or FAILED/CANCELED), and Task.state is the end of that chain. *)
Theorem C06_observed_progression :
  forall (bs : list (list (Z * tstate))) (t : tasks) (u : Z) (cur : tstate),
    lookup u t = Some cur ->
    tchain cur (proj u (snd (t_run_cbs t bs))) /\
    lookup u (fst (t_run_cbs t bs)) = Some (last_of cur (proj u (snd (t_run_cbs t bs)))).
Proof. exact (history_chain _ _ _ _ _ _ _ t_wf). Qed.
Print Assumptions C06_observed_progression.

(* a chain announces every state at most once (and never the starting one) *)
Theorem C06_each_state_once :
  forall (ns : list tstate) (p : tstate), tchain p ns -> NoDup (p :: ns).
Proof. exact (chain_NoDup _ _ _ _ _ _ _ t_wf). Qed.
Print Assumptions C06_each_state_once.

(* nothing is observed after a final state: final states are sticky *)
Theorem C06_final_sticky :
  forall (p : tstate) (a ns b : list tstate),
    tchain p ns -> ns = a ++ b -> t_is_final (last_of p a) = true -> b = [].
Proof. exact (chain_after_final _ _ _ _ _). Qed.
Print Assumptions C06_final_sticky.

(* no batch ever raises, whatever it contains *)
Theorem C06_no_exception :
  forall (t : tasks) (b : list (Z * tstate)), snd (t_update_batch t b) = None.
Proof. exact (history_no_exception _ _ _ _ _ _ _ t_wf). Qed.
Print Assumptions C06_no_exception.

(* isolation: what is observed for task u is what would be observed if all
   notifications for other tasks were removed from every batch *)
Theorem C06_isolation :
  forall (bs : list (list (Z * tstate))) (t : tasks) (u : Z) (cur : tstate),
    lookup u t = Some cur ->
    proj u (snd (t_run_cbs t bs)) =
    proj u (snd (t_run_cbs [(u, cur)] (map (only u) bs))).
Proof. exact (history_isolation _ _ _ _ _ _ _ t_wf). Qed.
Print Assumptions C06_isolation.

(* the boolean oracle applied to implementation traces is this proposition *)
Theorem C06_oracle_sound :
  forall (ns : list tstate) (p : tstate),
    chainb tstate_beq T_DONE T_FAILED T_CANCELED tvalue p ns = true <-> tchain p ns.
Proof. exact (chainb_spec _ _ _ _ _). Qed.
Print Assumptions C06_oracle_sound.

(* non-vacuity: a concrete history with a gap, a duplicate, a contradictory
   final state and an unknown uid *)
Example C06_nonvacuous :
  t_run_cbs [(1, T_NEW); (2, T_AGENT_EXECUTING)]
            [[(1, T_TMGR_SCHEDULING); (2, T_DONE); (9, T_DONE)];
             [(2, T_FAILED); (1, T_TMGR_SCHEDULING); (1, T_CANCELED)]]
  = ([(1, T_CANCELED); (2, T_DONE)],
     [(1, T_TMGR_SCHEDULING_PENDING); (1, T_TMGR_SCHEDULING);
      (2, T_AGENT_STAGING_OUTPUT_PENDING); (2, T_AGENT_STAGING_OUTPUT);
      (2, T_TMGR_STAGING_OUTPUT_PENDING); (2, T_TMGR_STAGING_OUTPUT); (2, T_DONE);
      (1, T_CANCELED)]).
Proof. vm_compute. reflexivity. Qed.

(* the other thread that changes task states on the client: when a pilot dies,
   the pilot manager's callback thread fails its tasks (TaskManager._pilot_state_cb)
   while the state subscriber may be handling a notification for the same task.
   Both run under the tasks lock; in either order at most one final state is
   announced and it is the state the Task object ends in (every pair of task
   states) -- the application never sees DONE and FAILED for one task. *)
Module RaceSide.
Import RP.States.DeathRace.
Theorem C06_one_final_state_under_pilot_death :
  forall cur tgt : tstate,
    one_final (order_ud cur tgt) = true /\ one_final (order_du cur tgt) = true.
Proof. exact death_race_one_final. Qed.
Print Assumptions C06_one_final_state_under_pilot_death.
End RaceSide.
