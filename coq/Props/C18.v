(* C18 -- the pilot offers exactly the nodes it was allocated.
   Proofs here cite the lemmas of RP.NodeList.Proofs (stated for
   init_from_scratch, cited through construct_scratch) or compute on the
   model; what needs an induction stands there.

   rm_construct c e acc  is the model of ResourceManager.__init__ (registry
   empty) of the Slurm / PBSPro / LSF / Fork / Cobalt / Torque / CCM
   subclasses: configuration c, batch-system environment e, ssh-probe
   outcomes acc  |->  inl <exception> or inr <RMInfo>.  all_nodes r is
   node_list ++ agent_node_list ++ service_node_list.  The theorems hold for
   EVERY configuration, environment and probe outcome (no bound on the number
   of nodes, lines, agents, blocked indices). *)
From Coq Require Import ZArith List Bool String.
From RP Require Import NodeList.Model NodeList.Oracle NodeList.Proofs NodeList.Tables.
Import ListNotations.
Open Scope Z_scope.

(* 0. The tables regenerated from base.py on every run (RMInfo._defaults,
   RMInfo._schema, the get_manager factory) are the ones the model assumes. *)
Theorem C18_tables_wf : tables_wf = true.
Proof. exact tables_wf_ok. Qed.
Print Assumptions C18_tables_wf.

(* 1. One entry per allocated node: no node is named twice among the offered
   and reserved nodes, every name is one the environment mentions, and under
   LSF no login/batch pseudo node is left.  (Fork's virtual nodes share the
   name localhost and are told apart by index, theorem 2.  input_distinct:
   a Slurm hostlist / Cobalt partition range names each node once.) *)
Theorem C18_one_entry_per_node :
  forall c e acc r, rm_construct c e acc = inr r ->
    is_fork e = false -> input_distinct e = true ->
    NoDup (map n_name (all_nodes r))
    /\ incl (map n_name (all_nodes r)) (env_names e)
    /\ (is_lsf e = true -> forall n, In n (map n_name (all_nodes r)) ->
          contains "login" n = false /\ contains "batch" n = false).
Proof. exact (fun c e acc r H => one_entry_per_node c e acc r (construct_scratch c e acc r H)). Qed.
Print Assumptions C18_one_entry_per_node.

(* 2. Unique indices, over offered and reserved nodes together. *)
Theorem C18_indices_unique :
  forall c e acc r, rm_construct c e acc = inr r -> NoDup (map n_index (all_nodes r)).
Proof. exact (fun c e acc r H => indices_unique c e acc r (construct_scratch c e acc r H)). Qed.
Print Assumptions C18_indices_unique.

(* 3. Configured size: every node has gpus_per_node (+ blocked) GPU slots and
   cores_per_node (+ blocked) core slots as RMInfo itself reports them; the
   blocked indices are Down and every other slot is Free.  For Torque/CCM with
   a configured cores_per_node the node file's line count is the node size
   (size_from_file) and only the Down/Free pattern is claimed. *)
Theorem C18_sizes_configured :
  forall c e acc r n, rm_construct c e acc = inr r ->
    (forall i, In i (c_bcores c) -> 0 <= i) -> (forall i, In i (c_bgpus c) -> 0 <= i) ->
    In n (all_nodes r) ->
    pattern_ok (c_bcores c) (n_cores n) = true /\ pattern_ok (c_bgpus c) (n_gpus n) = true
    /\ zlen (n_gpus n) = Z.max 0 (r_gpn r + zlen (c_bgpus c))
    /\ (size_from_file c e = false -> zlen (n_cores n) = Z.max 0 (r_cpn r + zlen (c_bcores c))).
Proof. exact (fun c e acc r n H => sizes_configured c e acc r n (construct_scratch c e acc r H)). Qed.
Print Assumptions C18_sizes_configured.

(* pattern_ok says: slot k is Down iff k is a blocked index, else Free *)
Theorem C18_pattern_meaning :
  forall blocked l, pattern_ok blocked l = true <->
    (forall k x, nth_error l k = Some x ->
       slot_eqb x (if memZ (0 + Z.of_nat k) blocked then Down else Free) = true).
Proof. exact (fun blocked l => enum_forallb _ l 0). Qed.
Print Assumptions C18_pattern_meaning.

(* 4. Nodes set aside for sub-agents and services: as many as the layout asks
   for, and none of them is offered (nor serves both purposes). *)
Theorem C18_agents_excluded :
  forall c e acc r, rm_construct c e acc = inr r ->
    List.length (r_agents r) = count_agents (c_agents c)
    /\ List.length (r_services r) = (if c_services c then 1 else 0)%nat
    /\ (forall n, In n (r_nodes r) -> ~ In (n_index n) (map n_index (r_agents r ++ r_services r)))
    /\ (forall n, In n (r_agents r) -> ~ In (n_index n) (map n_index (r_services r))).
Proof. exact (fun c e acc r H => agents_excluded c e acc r (construct_scratch c e acc r H)). Qed.
Print Assumptions C18_agents_excluded.

(* 5. Never empty: the constructor either raises or offers at least one node. *)
Theorem C18_not_empty_or_error :
  forall c e acc r, rm_construct c e acc = inr r -> r_nodes r <> [].
Proof. exact (fun c e acc r H => not_empty c e acc r (construct_scratch c e acc r H)). Qed.
Print Assumptions C18_not_empty_or_error.

(* 6. Never longer than requested: offered + reserved nodes together do not
   exceed requested_nodes (a negative requested_nodes can only come from
   negative sizes in the configuration) ... *)
Theorem C18_not_longer_than_requested :
  forall c e acc r, rm_construct c e acc = inr r -> 0 <= r_req_nodes r ->
    zlen (r_nodes r) + zlen (r_agents r) + zlen (r_services r) <= r_req_nodes r.
Proof. exact (fun c e acc r H => not_longer_than_requested c e acc r (construct_scratch c e acc r H)). Qed.
Print Assumptions C18_not_longer_than_requested.

(* ... and requested_nodes is the number the pilot asked for whenever it did. *)
Theorem C18_requested_as_configured :
  forall c e acc r, rm_construct c e acc = inr r -> is_fork e = false -> c_nodes c <> 0 ->
    r_req_nodes r = c_nodes c.
Proof. exact (fun c e acc r H => requested_as_configured c e acc r (construct_scratch c e acc r H)). Qed.
Print Assumptions C18_requested_as_configured.

(* 7. The same list is seen by every component: what is put into the registry
   reads back as the same RMInfo, and passes the same verification. *)
Theorem C18_registry_round_trip : forall r, from_dict (as_dict r) = Some r.
Proof. exact from_dict_as_dict. Qed.
Print Assumptions C18_registry_round_trip.

Theorem C18_same_for_all_components :
  forall c e acc r, rm_construct c e acc = inr r -> rm_from_registry (as_dict r) = inr r.
Proof. exact registry_round_trip. Qed.
Print Assumptions C18_same_for_all_components.

(* 8. The usable nodes -- all allocated ones, or with backup nodes those that
   answer the probe (accessible) -- are what the pilot works with.
   (a) _filter_nodes itself, on ANY node list (names arbitrary, also all equal
   as under Fork; any probe outcome per position): offered + reserved nodes
   are, up to order, a sub-sequence of the usable nodes (so each node at most
   once, no unusable and no foreign node) of exactly min(requested, usable)
   length. *)
Theorem C18_filter_nodes_offers_usable :
  forall c acc r0 r, filter_nodes c acc r0 = inr r ->
    exists L, Permutation.Permutation (all_nodes r) L
      /\ subl L (accessible (r_backup r0) acc (r_nodes r0))
      /\ (0 <= r_req_nodes r0 ->
          zlen L = Z.min (r_req_nodes r0) (zlen (accessible (r_backup r0) acc (r_nodes r0)))).
Proof.
  intros c acc r0 r H. apply filter_nodes_spec in H as [L F]. destruct F. exists L.
  split; [apply all_nodes_perm; assumption|]. split; assumption.
Qed.
Print Assumptions C18_filter_nodes_offers_usable.

(* (b) it does not fail while enough usable nodes exist: one per node-bound
   sub-agent, one for services, one to offer (needed c) *)
Theorem C18_filter_nodes_succeeds_when_enough :
  forall c acc r0, 0 <= r_req_nodes r0 ->
    needed c <= Z.min (r_req_nodes r0) (zlen (accessible (r_backup r0) acc (r_nodes r0))) ->
    exists r, filter_nodes c acc r0 = inr r.
Proof. exact filter_nodes_enough. Qed.
Print Assumptions C18_filter_nodes_succeeds_when_enough.

(* (c) the same for the whole constructor, r0 being the allocation as the
   resource manager read it (pre_filter) *)
Theorem C18_offers_requested_accessible_nodes :
  forall c e acc r0 r, pre_filter c e = inr r0 -> rm_construct c e acc = inr r ->
    (forall n, In n (all_nodes r) -> In n (accessible (r_backup r0) acc (r_nodes r0)))
    /\ (0 <= r_req_nodes r ->
        zlen (all_nodes r) = Z.min (r_req_nodes r) (zlen (accessible (r_backup r0) acc (r_nodes r0)))).
Proof. exact (fun c e acc r0 r Hp H => offers_accessible c e acc r0 r Hp (construct_scratch c e acc r H)). Qed.
Print Assumptions C18_offers_requested_accessible_nodes.

(* ... and start-up fails only when the usable nodes do not suffice (`scalars_ok`:
   requested cores, cores per node and partitions as the later steps need them;
   `needed`: nodes for agents, services and one compute node) *)
Theorem C18_startup_fails_only_if_short :
  forall c e acc r0, pre_filter c e = inr r0 -> scalars_ok r0 = true -> 0 <= r_req_nodes r0 ->
    needed c <= Z.min (r_req_nodes r0) (zlen (accessible (r_backup r0) acc (r_nodes r0))) ->
    exists r, rm_construct c e acc = inr r.
Proof. exact startup_fails_only_if_short. Qed.
Print Assumptions C18_startup_fails_only_if_short.

(* the clause the harness evaluates on the implementation's outcome (success
   or exception) is true of the model's outcome, whatever it is *)
Theorem C18_oracle_accessible_on_model :
  forall c e acc, ok_accessible c e acc (rm_construct c e acc) = true.
Proof. exact oracle_ok_accessible. Qed.
Print Assumptions C18_oracle_accessible_on_model.

(* 9. Several initialisations in one process (fresh objects, any resource
   managers, configurations, SMT values; the user may set, unset or keep
   $RADICAL_SMT before each): an initialisation reads its configuration and the
   environment as given and leaves the environment as it was, so every
   result is the result of that initialisation alone ... *)
Theorem C18_initialisations_independent :
  forall l pe,
    run_seq pe l =
    map (fun ps => rm_construct (with_smt_env (fst ps) (st_cfg (snd ps))) (st_env (snd ps)) (st_acc (snd ps)))
        (combine (given_envs pe l) (map snd l)).
Proof. exact seq_independent. Qed.
Print Assumptions C18_initialisations_independent.

(* ... and does not depend on what was initialised before it in the process *)
Theorem C18_earlier_initialisations_irrelevant :
  forall l1 l2 pe1 pe2 u s,
    apply_user u (last (given_envs pe1 l1) pe1) = apply_user u (last (given_envs pe2 l2) pe2) ->
    nth (List.length l1) (run_seq pe1 (l1 ++ [(u, s)])) (inl OtherError) =
    nth (List.length l2) (run_seq pe2 (l2 ++ [(u, s)])) (inl OtherError).
Proof. intros l1 l2 pe1 pe2 u s E. rewrite !run_seq_last, E. reflexivity. Qed.
Print Assumptions C18_earlier_initialisations_irrelevant.

(* The boolean clauses the harness evaluates on the implementation's RMInfo
   are true of everything the model returns ... *)
Theorem C18_oracle_holds_on_model :
  forall c e acc r, rm_construct c e acc = inr r ->
    ok_names e r = true /\ ok_indices r = true /\ ok_sizes c e r = true
    /\ ok_reserved c r = true /\ ok_nonempty r = true
    /\ (r_req_nodes r <? 0) || ok_bound r = true
    /\ ok_same r (Some (rm_from_registry (as_dict r))) = true.
Proof.
  exact (fun c e acc r H =>
    conj (oracle_ok_names c e acc r H) (conj (oracle_ok_indices c e acc r H)
    (conj (oracle_ok_sizes c e acc r H) (conj (oracle_ok_reserved c e acc r H)
    (conj (oracle_ok_nonempty c e acc r H) (conj (oracle_ok_bound c e acc r H)
          (oracle_ok_same c e acc r H))))))).
Qed.
Print Assumptions C18_oracle_holds_on_model.

(* ... and the duplicate checks mean what they say. *)
Theorem C18_oracle_indices_sound :
  forall r, ok_indices r = true <-> NoDup (map n_index (all_nodes r)).
Proof. exact (fun r => nodupZ_NoDup _). Qed.
Print Assumptions C18_oracle_indices_sound.

Theorem C18_oracle_names_sound :
  forall l, nodupS l = true <-> NoDup l.
Proof. exact nodupS_NoDup. Qed.
Print Assumptions C18_oracle_names_sound.

(* non-vacuity: an LSF allocation of six 2-core nodes (SMT 2) plus batch and
   login lines, core 0 blocked, one sub-agent on a node, a service node, one
   backup node, node 2 not reachable, 12 cores requested: 4 nodes requested,
   two offered, one each reserved *)
Example C18_nonvacuous :
  let c := mkCfg 0 12 0 0 1 1 0 0 1 None (Some 2) [0] [] [true; false] true false in
  let e := ELSF (NFLines ["batch1"; "h1"; "h1"; "h2"; "h2"; "h3"; "h3"; "h4"; "h4";
                          "h5"; "h5"; "h6"; "h6"; "login2"]%string) in
  match rm_construct c e [AccOk; AccFail; AccOk; AccOk; AccOk; AccOk] with
  | inr r => (map n_name (r_nodes r), map n_name (r_agents r), map n_name (r_services r),
              r_req_nodes r, r_cpn r, map n_cores (r_nodes r), map n_index (all_nodes r))
             = (["h1"; "h3"]%string, ["h5"%string], ["h4"%string], 4, 3,
                [[Down; Free; Free; Free]; [Down; Free; Free; Free]], [0; 2; 4; 3])
  | inl _ => False
  end.
Proof. vm_compute. reflexivity. Qed.

(* non-vacuity of 8: Fork (every node is localhost), 2 nodes requested, 1 backup
   node, one sub-agent on a node, node 1 does not answer: nodes 0 and 2 are
   used, node 2 goes to the sub-agent, node 0 is offered *)
Example C18_nonvacuous_repeated_names :
  let c := mkCfg 2 8 0 4 0 1 0 0 1 None None [] [] [true] false true in
  match rm_construct c (EFork 8) [AccOk; AccFail; AccOk] with
  | inr r => (map n_name (all_nodes r), map n_index (r_nodes r), map n_index (r_agents r))
             = (["localhost"; "localhost"]%string, [0], [2])
  | inl _ => False
  end.
Proof. vm_compute. reflexivity. Qed.

(* non-vacuity of 9: LSF with SMT 1 after an LSF initialisation with SMT 4
   (both from the resource config, $RADICAL_SMT never set): 2 core slots per
   node, not 8 *)
Example C18_nonvacuous_sequence :
  let nf := NFLines ["h1"; "h1"; "h2"; "h2"]%string in
  let c4 := mkCfg 2 16 0 0 0 0 0 0 1 None (Some 4) [] [] [] false false in
  let c1 := mkCfg 2 4 0 0 0 0 0 0 1 None (Some 1) [] [] [] false false in
  map (fun r => match r with inr i => map (fun n => zlen (n_cores n)) (r_nodes i) | inl _ => [] end)
      (run_seq None [(Keep, mkStep c4 (ELSF nf) []); (Keep, mkStep c1 (ELSF nf) [])])
  = [[8; 8]; [2; 2]].
Proof. vm_compute. reflexivity. Qed.
