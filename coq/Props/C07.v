(* C07 -- the executor finishes each task exactly once.
   Statements only; every proof is `exact <lemma>`.

   Model: RP.Exec.Model -- the Popen executor as four interleaved thread
   programs (intake I, control/cancel handler C, process watcher W, timeout
   watcher T) plus the environment step X "a process exits"; one step = one
   lock-protected region or one statement touching self._tasks / task['proc'] /
   the process table / the cancel list / the queues, or one advance()/publish().
   `run (init sc) sched` executes ANY schedule (list of thread choices) on ANY
   scenario (batches of task descriptions with a launch-fault point, a
   run-time limit and a `d_stub` flag each, and cancel messages).  A process
   with d_stub outlives the kill: the thread that runs cancel_task then has no
   step (it sits in proc.wait()) until the process exits by itself (step X).  `emissions tr` is the sequence
   of advance()/publish(AGENT_UNSCHEDULE_PUBSUB) calls; n_adv st u counts the
   advance calls to state st that list uid u, n_uns u the unschedule
   publications listing u, n_hand u = staged + FAILED + CANCELED advances.

   Proof method: every global step, seen from one uid, is invisible or a move
   of a finite local transition system (the per-step simulation is
   Exec.ProjProofs, put together as Exec.Proofs.step_proj under the invariant
   Exec.Proj.wf, which Exec.WfProofs.wf_step keeps; the induction over the
   schedule, for any number of tasks, is Exec.Proj.run_inv with
   Exec.Proofs.run_reach); the
   reachable states of that system (112k) are explored and checked safe one
   by one by the kernel, and what a finished exploration has visited is closed
   under the local moves (Exec.LocalProofs, vm_compute over a genuinely
   finite domain: Local.lstate with counters saturating at 2). *)
From Coq Require Import ZArith List.
From RP Require Import Exec.Model Exec.Oracle Exec.Local Exec.LocalProofs Exec.Proj Exec.Proofs Exec.ExamProofs Exec.PollProofs Exec.HandlerProofs Exec.KillProofs.
Import ListNotations.
Open Scope Z_scope.

(* Under fair completion (the run has reached quiescence: intake and control
   thread done, no pending timeouts, the watcher's list and queue empty --
   which requires every spawned process to have exited) and for pairwise
   distinct delivered uids, for EVERY schedule and EVERY delivered uid:
   the task was announced AGENT_EXECUTING exactly once (or, canceled by the
   intake filter, advanced CANCELED exactly once and never announced), handed
   on exactly once (pushed to output staging, or advanced FAILED/CANCELED),
   its resources were released exactly once, and it is not left behind in
   self._tasks. *)
Theorem C07_exactly_once :
  forall (sc : scenario) (sched : list choice) (s : state) (tr : list stepobs) (u : Z),
    NoDup (delivered sc) -> In u (delivered sc) -> run (init sc) sched = (s, tr) -> quiescent s = true ->
    let ems := emissions tr in
    (n_adv SExecuting u ems = 1 /\ n_adv SCanceled u ems = 0 \/ n_adv SExecuting u ems = 0 /\ n_adv SCanceled u ems = 1)%nat /\
    n_hand u ems = 1%nat /\ n_uns u ems = 1%nat /\ tasks s u = false.
Proof. exact exactly_once. Qed.
Print Assumptions C07_exactly_once.

(* At ANY point of ANY schedule (no fairness needed): nothing has happened
   twice, a task is never both collected (staged with an exit code) and
   canceled, and nothing is handed on that was not announced before. *)
Theorem C07_never_twice :
  forall (sc : scenario) (sched : list choice) (s : state) (tr : list stepobs) (u : Z),
    NoDup (delivered sc) -> In u (delivered sc) -> run (init sc) sched = (s, tr) ->
    let ems := emissions tr in
    (n_adv SExecuting u ems <= 1)%nat /\ (n_hand u ems <= 1)%nat /\ (n_uns u ems <= 1)%nat /\
    ~ (0 < n_collected u ems /\ 0 < n_canceled u ems)%nat /\
    ((0 < n_adv SStaging u ems + n_adv SFailed u ems)%nat -> n_adv SExecuting u ems = 1%nat).
Proof. exact at_most_once. Qed.
Print Assumptions C07_never_twice.

(* the same, as the boolean oracle clauses which the harness evaluates on the
   traces of the real code *)
Theorem C07_oracle_clauses_hold_in_model :
  forall (sc : scenario) (sched : list choice) (s : state) (tr : list stepobs),
    NoDup (delivered sc) -> run (init sc) sched = (s, tr) ->
    let dl := delivered sc in let q := quiescent s in let ems := emissions tr in
    ok_announced dl q ems = true /\ ok_handed_on dl q ems = true /\ ok_unscheduled dl q ems = true /\
    ok_not_both dl ems = true.
Proof. exact model_clauses. Qed.
Print Assumptions C07_oracle_clauses_hold_in_model.

(* a named task that was launched has been examined for cancellation after it
   entered self._tasks (clause named_examined_after_launch; see Props/C08.v) *)
Theorem C07_named_examined_clause_holds_in_model :
  forall (sc : scenario) (sched : list choice) (s : state) (tr : list stepobs),
    NoDup (delivered sc) -> run (init sc) sched = (s, tr) -> ok_named_examined sc tr (quiescent s) = true.
Proof. exact model_named_examined. Qed.
Print Assumptions C07_named_examined_clause_holds_in_model.

(* a task is handed on as CANCELED only by a cancel_task whose poll saw the
   process running (clause canceled_only_if_running_when_polled; see Props/C08.v) *)
Theorem C07_cancel_polled_clause_holds_in_model :
  forall (sc : scenario) (sched : list choice) (s : state) (tr : list stepobs),
    run (init sc) sched = (s, tr) -> ok_cancel_polled (delivered sc) tr = true.
Proof. exact model_cancel_polled. Qed.
Print Assumptions C07_cancel_polled_clause_holds_in_model.

(* the cancel handler looks up every uid of every request (clause
   handler_examines_every_named_uid; see Props/C08.v) *)
Theorem C07_handler_covers_clause_holds_in_model :
  forall (sc : scenario) (sched : list choice) (s : state) (tr : list stepobs),
    run (init sc) sched = (s, tr) -> ok_handler_covers sc tr (quiescent s) = true.
Proof. exact model_handler_covers. Qed.
Print Assumptions C07_handler_covers_clause_holds_in_model.

(* the kill reaches the running process, cancel_task does not wait for a natural
   end, bystanders and the executor's own process group are not signalled
   (clauses kill_reaches_running_process, cancel_does_not_wait_for_natural_end,
   bystanders_not_signalled; see Props/C08.v) *)
Theorem C07_kill_clauses_hold_in_model :
  forall (sc : scenario) (sched : list choice) (s : state) (tr : list stepobs),
    run (init sc) sched = (s, tr) ->
    ok_kill_reaches (delivered sc) tr = true /\ ok_no_natural_wait (delivered sc) tr = true.
Proof. exact model_kill_reaches. Qed.
Print Assumptions C07_kill_clauses_hold_in_model.

Theorem C07_not_signalled_clause_holds_in_model :
  forall (sc : scenario) (sched : list choice) (s : state) (tr : list stepobs),
    NoDup (delivered sc) -> run (init sc) sched = (s, tr) -> ok_not_signalled sc tr = true.
Proof. exact model_not_signalled. Qed.
Print Assumptions C07_not_signalled_clause_holds_in_model.

(* the ownership argument: every run stays, for every delivered uid, inside the
   kernel-checked set of local states on which `Local.safe` holds (whoever
   removes the uid from self._tasks -- watcher, a cancel_task, or the error
   path of work() -- is the only one to finish it) *)
Theorem C07_ownership_invariant :
  forall (sc : scenario) (sched : list choice) (s : state) (tr : list stepobs) (u : Z),
    NoDup (delivered sc) -> In u (delivered sc) -> run (init sc) sched = (s, tr) ->
    safe (view (kof sc u) u s tr) = true.
Proof. exact run_safe. Qed.
Print Assumptions C07_ownership_invariant.

(* the finite part: the local transition system never leaves the safe states *)
Theorem C07_local_system_safe :
  forall (k : lconst) (v : lstate), lreach k v -> safe v = true.
Proof. exact lreach_safe. Qed.
Print Assumptions C07_local_system_safe.

(* non-vacuity: two tasks (one with a run-time limit, one whose launch fails
   after the spawn), a cancel request naming both, timeout and cancel racing
   with the intake and with the exit of process 1; the run reaches quiescence, task 1 is staged as
   CANCELED once, task 2 is FAILED once, each released once *)
Example C07_nonvacuous :
  let sc := mkSc [[mkTd 1 FNone true false; mkTd 2 FAfterSpawn false false]] [[2; 1]] in
  let sched := [CI; CI; CI; CI; CC; CI; CI; CI; CT; CC; CC; CT; CT; CC; CX 1 3; CW; CW; CW; CT; CW; CC; CT; CW; CW; CC; CC;
                CI; CI; CI; CI; CI; CI; CI; CI; CI; CT; CT; CT; CT; CT; CT; CX 2 0; CW; CW; CW] in
  let '(s, tr) := run (init sc) sched in
  quiescent s = true /\
  filter (fun e => match e with EUns [] => false | _ => true end) (emissions tr) =
    [EAdv SExecuting [(1, None, TgNone); (2, None, TgNone)] false;
     EUns [2]; EAdv SFailed [(2, None, TgNone)] false;
     EUns [1]; EAdv SStaging [(1, None, TgCanceled)] true] /\
  world s 1 = PExited 3.   (* it exited just before the kill: the kill was a lost race *)
Proof. vm_compute. repeat split. Qed.
