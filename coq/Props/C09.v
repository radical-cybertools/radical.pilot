(* C09 -- launch commands enact the placement they were given.
   Proofs here cite the lemmas of RP.Launch.Proofs or compute on the model;
   what needs an induction stands there (the `*_den` lemmas in the group's
   terms `emits`, `exact_placement`).

   Model: RP.Launch.Model (can_launch / get_launch_cmds of every launch
   method, producing a structured command) and its denotation `den` (how many
   processes a command starts, on which nodes, pinned to which cores).
   `mobs c st t` is what the model observes for task t on a launcher object in
   state st; ok_count / ok_nodes / ok_pins / ok_refuses / ok_nocrash are the
   oracle clauses the harness applies to the implementation's trace.
   `valid t`: the placement is non-empty, has one slot per rank
   (ranks = #slots), and every slot has a core. *)
From Coq Require Import ZArith List Bool Permutation.
From RP Require Import Launch.Model Launch.Oracle Launch.Proofs.
Import ListNotations.
Open Scope Z_scope.

(* ---- the command depends only on the task at hand ---- *)
Theorem C09_state_unchanged : forall c st t, fst (get_launch_cmds c st t) = st.
Proof. exact step_state. Qed.
Print Assumptions C09_state_unchanged.

(* every launch method, every history of earlier tasks: what is observed for
   t after the history is what a fresh launcher object gives *)
Theorem C09_stateless : forall c hist t,
  run c [] (hist ++ [t]) = run c [] hist ++ run c [] [t].
Proof. intros c hist t. rewrite run_app. rewrite final_state_id. reflexivity. Qed.
Print Assumptions C09_stateless.

(* ---- MPIRUN, MPIRUN_MPT, MPIRUN_RSH, MPIRUN_CCMRUN, MPIRUN_DPLACE; host list
        and host file (more than 42 hosts) ---- *)
Theorem C09_mpirun_enacts : forall c st t, c_lm c = MPIRUN -> valid t ->
  ok_count c t (mobs c st t) = true /\ ok_nodes c t (mobs c st t) = true /\
  ok_pins c t (mobs c st t) = true.
Proof. exact mpirun_enacts. Qed.
Print Assumptions C09_mpirun_enacts.

(* what the command means: unless dplace is to place threads (refused, next
   theorem) or the host file (above MIN_NNODES_IN_LIST hosts) cannot be written,
   one process per slot on the slots' nodes, not pinned *)
Theorem C09_mpirun_denotation : forall c st t,
  c_lm c = MPIRUN -> forallb has_cores (t_slots t) = true ->
  c_dpl_named c && (1 <? t_cpr t) = false ->
  (MIN_NNODES_IN_LIST <? zlen (map s_node (t_slots t))) && t_wfail t = false ->
  exists cmd, snd (get_launch_cmds c st t) = inr cmd /\
    den c cmd = Some {| p_count := zlen (map s_node (t_slots t));
                        p_nodes := NList (map s_node (t_slots t)); p_pins := None |}.
Proof. exact mpirun_den. Qed.
Print Assumptions C09_mpirun_denotation.

(* dplace cannot place threads: refused with ValueError, never a crash *)
Theorem C09_mpirun_refuses : forall c st t, c_lm c = MPIRUN ->
  ok_refuses c t (mobs c st t) = true /\
  (forallb has_cores (t_slots t) = true -> ok_nocrash (mobs c st t) = true).
Proof. exact mpirun_refuses. Qed.
Print Assumptions C09_mpirun_refuses.

(* ---- MPIEXEC, MPIEXEC_MPT: rank file (count, nodes, pinned cores), host
        files "h:n" and "h slots=n" (count, nodes).  PARTIAL: the PALS flavour
        without rank file is excluded, see the two _refuted theorems ---- *)
Theorem C09_mpiexec_enacts_partial : forall c st t, c_lm c = MPIEXEC -> valid t ->
  (c_rf c = true \/ c_flavor c <> PALS) ->
  ok_count c t (mobs c st t) = true /\ ok_nodes c t (mobs c st t) = true /\
  ok_pins c t (mobs c st t) = true.
Proof. exact mpiexec_enacts. Qed.
Print Assumptions C09_mpiexec_enacts_partial.

(* rank file: rank i runs on the node of slot i, bound to the cores of slot i *)
Theorem C09_mpiexec_rankfile_pins : forall c st t,
  c_lm c = MPIEXEC -> c_rf c = true -> t_slots t <> [] -> t_wfail t = false ->
  exists cmd, snd (get_launch_cmds c st t) = inr cmd /\
    den c cmd = Some {| p_count := zlen (map s_node (t_slots t));
                        p_nodes := NList (map s_node (t_slots t));
                        p_pins := Some (map s_cores (t_slots t)) |}.
Proof. exact mpiexec_rf_den. Qed.
Print Assumptions C09_mpiexec_rankfile_pins.

Theorem C09_mpiexec_pals_nodes_refuted : exists c t, c_lm c = MPIEXEC /\ c_flavor c = PALS /\ valid t /\
  ok_count c t (mobs c [] t) = true /\ ok_nodes c t (mobs c [] t) = false.
Proof.
  exists (cfg0 MPIEXEC PALS), (task0 [sl 1 0; sl 2 0; sl 2 1] [] 3).
  repeat split; try discriminate; vm_compute; reflexivity.
Qed.
Print Assumptions C09_mpiexec_pals_nodes_refuted.

Theorem C09_mpiexec_pals_pins_refuted : exists c t, c_lm c = MPIEXEC /\ c_flavor c = PALS /\ valid t /\
  ok_nodes c t (mobs c [] t) = true /\ ok_pins c t (mobs c [] t) = false.
Proof.
  exists (cfg0 MPIEXEC PALS), (task0 [sl 2 0; sl 1 4] [] 2).
  repeat split; try discriminate; vm_compute; reflexivity.
Qed.
Print Assumptions C09_mpiexec_pals_pins_refuted.

(* the per-host counts written to host files / --host expand back to the
   slots' nodes (as a multiset), and add up to the number of slots *)
Theorem C09_host_counts : forall hosts : list Z,
  Permutation (expand (host_counts hosts)) hosts /\
  zsum (map snd (host_counts hosts)) = zlen hosts.
Proof. exact (fun l => conj (host_counts_perm l) (host_counts_sum l)). Qed.
Print Assumptions C09_host_counts.

(* ---- SRUN (node list and node file, any slurm version, traverse variant):
        process count and node SET (srun's CLI cannot say more) ---- *)
Theorem C09_srun_enacts : forall c st t, c_lm c = SRUN -> valid t ->
  ok_count c t (mobs c st t) = true /\ ok_nodes c t (mobs c st t) = true /\
  ok_pins c t (mobs c st t) = true.
Proof. exact srun_enacts. Qed.
Print Assumptions C09_srun_enacts.

(* ---- PRTE ---- *)
Theorem C09_prte_enacts : forall c st t, c_lm c = PRTE -> valid t ->
  ok_count c t (mobs c st t) = true /\ ok_nodes c t (mobs c st t) = true /\
  ok_pins c t (mobs c st t) = true.
Proof. exact prte_enacts. Qed.
Print Assumptions C09_prte_enacts.

(* ---- SSH, RSH, FORK: one process on the slot's node; more than one rank
        (and, for FORK, a remote node) is refused ---- *)
Theorem C09_ssh_rsh_enacts : forall c st t, (c_lm c = SSH \/ c_lm c = RSH) -> valid t ->
  ok_count c t (mobs c st t) = true /\ ok_nodes c t (mobs c st t) = true /\
  ok_pins c t (mobs c st t) = true.
Proof. exact single_enacts. Qed.
Print Assumptions C09_ssh_rsh_enacts.

(* more than one slot, or none: RuntimeError from get_launch_cmds, never a crash *)
Theorem C09_ssh_rsh_refuses : forall c st t, (c_lm c = SSH \/ c_lm c = RSH) ->
  ok_refuses c t (mobs c st t) = true /\ ok_nocrash (mobs c st t) = true.
Proof. exact single_refuses. Qed.
Print Assumptions C09_ssh_rsh_refuses.

(* no `valid t`: FORK's can_launch accepts one slot on the agent's node only *)
Theorem C09_fork_enacts : forall c st t, c_lm c = FORK ->
  ok_count c t (mobs c st t) = true /\ ok_nodes c t (mobs c st t) = true /\
  ok_pins c t (mobs c st t) = true.
Proof. exact fork_enacts. Qed.
Print Assumptions C09_fork_enacts.

Theorem C09_fork_refuses : forall c st t, c_lm c = FORK -> ok_refuses c t (mobs c st t) = true.
Proof. exact fork_refuses. Qed.
Print Assumptions C09_fork_refuses.

(* ---- APRUN, CCMRUN, IBRUN: the process count only (PARTIAL) ---- *)
Theorem C09_aprun_ccmrun_ibrun_count_partial : forall c st t,
  (c_lm c = APRUN \/ c_lm c = CCMRUN \/ c_lm c = IBRUN) -> valid t ->
  ok_count c t (mobs c st t) = true /\ ok_pins c t (mobs c st t) = true.
Proof.
  intros c st t Hlm [Hs [Hr _]]. apply reads_ok_nonode;
    [destruct Hlm as [H|[H|H]]; congruence | assumption | rewrite <- Hr; now apply count_reads].
Qed.
Print Assumptions C09_aprun_ccmrun_ibrun_count_partial.

Theorem C09_aprun_nodes_refuted : exists c t, c_lm c = APRUN /\ valid t /\ ok_nodes c t (mobs c [] t) = false.
Proof. exact aprun_nodes_refuted. Qed.
Print Assumptions C09_aprun_nodes_refuted.

Theorem C09_ccmrun_nodes_refuted : exists c t, c_lm c = CCMRUN /\ valid t /\ ok_nodes c t (mobs c [] t) = false.
Proof. exact ccmrun_nodes_refuted. Qed.
Print Assumptions C09_ccmrun_nodes_refuted.

(* ---- JSRUN without ERF: neither the count (inhomogeneous resource sets)
        nor the nodes ---- *)
Theorem C09_jsrun_plain_refuted : exists c t, c_lm c = JSRUN /\ c_erf c = false /\
  ok_count c t (mobs c [] t) = false /\ ok_nodes c t (mobs c [] t) = false.
Proof. exact jsrun_plain_refuted. Qed.
Print Assumptions C09_jsrun_plain_refuted.


(* ---- launcher selection (ResourceManager.find_launcher over the launch
        order).  Node identifiers stand for node names: equal iff the names
        are the same strings. ---- *)

(* FORK accepts a task only if its single slot's node name is 'localhost' (0)
   or EQUAL to the agent's node name *)
Theorem C09_fork_accepts_only_own_node : forall c t, c_lm c = FORK -> can_launch c t = inr true ->
  exists s, t_slots t = [s] /\ (s_node s = 0 \/ s_node s = c_local c).
Proof. exact fork_accepts. Qed.
Print Assumptions C09_fork_accepts_only_own_node.

Theorem C09_fork_selected_own_node : forall cs t j c,
  find_launcher cs t = inr (Some (j, c)) -> c_lm c = FORK ->
  exists s, t_slots t = [s] /\ (s_node s = 0 \/ s_node s = c_local c).
Proof. exact fork_selected_own_node. Qed.
Print Assumptions C09_fork_selected_own_node.

(* the selected launcher is the j-th of the order, it accepted the task *)
Theorem C09_find_launcher_sound : forall cs t j c, find_launcher cs t = inr (Some (j, c)) ->
  can_launch c t = inr true /\ nth_error cs j = Some c.
Proof. exact find_launcher_sound. Qed.
Print Assumptions C09_find_launcher_sound.

(* whatever launcher find_launcher selects (among the methods and flavours
   with proved commands: FORK, SSH, RSH, MPIRUN*, SRUN, PRTE, MPIEXEC* with
   rank file or non-PALS), its command starts exactly the task's ranks on
   exactly the nodes named in the placement *)
Theorem C09_selected_launcher_enacts : forall cs t j c st,
  find_launcher cs t = inr (Some (j, c)) -> valid t -> proven c ->
  let o := (inr true, snd (get_launch_cmds c st t)) : obs1 in
  ok_count c t o = true /\ ok_nodes c t o = true /\ ok_pins c t o = true.
Proof. exact selected_enacts. Qed.
Print Assumptions C09_selected_launcher_enacts.

(* the three clauses on a launch order: `select_obs cs t` is the first launcher
   of cs that accepts t with its command, `sel_clause f` judges it by clause f *)
Theorem C09_selection_rows_hold : forall cs t, valid t -> (forall c, In c cs -> proven c) ->
  sel_clause ok_count cs t (select_obs cs t) = true /\
  sel_clause ok_nodes cs t (select_obs cs t) = true /\
  sel_clause ok_pins cs t (select_obs cs t) = true.
Proof.
  intros cs t Hv Hall. unfold select_obs.
  destruct (find_launcher cs t) as [e|[[j c]|]] eqn:Hf; unfold sel_clause; cbn [fst snd]; auto.
  destruct (find_launcher_sound cs t j c Hf) as [_ Hn]. rewrite Hn.
  apply (selected_enacts cs t j c [] Hf Hv). apply Hall. eapply nth_error_In, Hn.
Qed.
Print Assumptions C09_selection_rows_hold.

(* non-vacuity of the selection theorems: agent on node 10, launch order
   FORK, SSH; a task placed on node 1 is passed on to SSH (index 1), a task on
   node 10 is taken by FORK (index 0) *)
Example C09_selection_nonvacuous :
  let cs := [cfg0 FORK OMPI; cfg0 SSH OMPI] in
  let cs := map (fun c => Build_cfg (c_lm c) false false false false false OMPI false false false false 20
                            false false 1 false 64 4 10 0 [] false true) cs in
  fst (select_obs cs (Build_task [sl 1 0] [] 1 1 0 false true 0 false false false false)) = inr (Some 1%nat) /\
  fst (select_obs cs (Build_task [sl 10 0] [] 1 1 0 false true 0 false false false false)) = inr (Some 0%nat).
Proof. split; vm_compute; reflexivity. Qed.


(* ---- bulks: Popen.work(bulk) handles every task of the bulk on its own
        (model: work_st threads the shared launcher objects' states through
        the bulk; handle cs t = the task alone on fresh launchers) ---- *)

(* work bulk = map handle bulk, from any launcher states *)
Theorem C09_bulk_is_map : forall cs bulk sts,
  work_st cs sts bulk = map (fun t => snd (handle_st cs sts t)) bulk.
Proof. exact work_st_map. Qed.
Print Assumptions C09_bulk_is_map.

(* bulk independence: launcher and command of task t in ANY bulk are those of
   t alone *)
Theorem C09_bulk_task_alone : forall cs a t b,
  nth_error (work cs (a ++ t :: b)) (length a) = Some (handle cs t).
Proof. exact bulk_task_alone. Qed.
Print Assumptions C09_bulk_task_alone.

(* a refused task is FAILED and changes nothing for the others *)
Theorem C09_bulk_refused_neutral : forall cs a r b, handle cs r = HFailed ->
  work cs (a ++ r :: b) = work cs a ++ HFailed :: work cs b /\
  work cs (a ++ b) = work cs a ++ work cs b.
Proof. exact bulk_refused_neutral. Qed.
Print Assumptions C09_bulk_refused_neutral.

(* a launched task was launched by the first launcher of the launch order
   whose can_launch accepts it, with that launcher's command for this task *)
Theorem C09_bulk_launcher_is_own : forall cs t i cmd, handle cs t = HLaunched i cmd ->
  exists c, find_launcher cs t = inr (Some (i, c)) /\ nth_error cs i = Some c /\
            can_launch c t = inr true /\ snd (get_launch_cmds c [] t) = inr cmd.
Proof. exact handle_launched. Qed.
Print Assumptions C09_bulk_launcher_is_own.

(* the bulk oracle clauses hold on the model for every bulk of valid tasks
   over launch orders of proved launch methods *)
Theorem C09_bulk_rows_hold : forall cs bulk,
  (forall t, In t bulk -> valid t) -> (forall c, In c cs -> proven c) ->
  all2 (bulk_launcher_is_own cs) bulk (work cs bulk) = true /\
  all2 (bulk_cmd_matches_placement cs) bulk (work cs bulk) = true.
Proof. exact bulk_rows_hold. Qed.
Print Assumptions C09_bulk_rows_hold.

(* non-vacuity: agent on node 10, order FORK, SSH, MPIRUN; a bulk of a refused
   task (no executable), a local task, a remote task and a two-rank MPI task *)
Example C09_bulk_nonvacuous :
  let mk := fun l => Build_cfg l false false false false false OMPI false false false false 20
                       false false 1 false 64 4 10 0 [] false true in
  let cs := [mk FORK; mk SSH; mk MPIRUN] in
  let one := fun n exe => Build_task [sl n 0] [] 1 1 0 false exe 0 false false false false in
  let two := Build_task [sl 3 0; sl 4 0] [] 2 1 0 true true 0 false false false false in
  map (fun h => match h with HFailed => None | HLaunched i _ => Some i end)
      (work cs [one 10 false; one 10 true; one 3 true; two])
  = [None; Some 0%nat; Some 1%nat; Some 2%nat].
Proof. vm_compute. reflexivity. Qed.

(* ---- sequences of bulks on ONE executor / resource manager: nothing is
        carried from one task to a later one ---- *)
Theorem C09_bulk_sequence_is_map : forall cs bulks sts,
  work_seq cs sts bulks = map (map (fun t => snd (handle_st cs sts t))) bulks.
Proof. exact work_seq_map. Qed.
Print Assumptions C09_bulk_sequence_is_map.

(* find_launcher is a function of the task and the launch order, not of
   history: whatever bulks were handled before, whatever shares its bulk and
   whatever follows, launcher and command of task t are those of t alone on a
   fresh resource manager *)
Theorem C09_find_launcher_history_free : forall cs before a t b after,
  nth_error (concat (work_seq cs (fresh cs) (before ++ (a ++ t :: b) :: after)))
            (length (concat before ++ a)) = Some (handle cs t).
Proof. exact find_launcher_history_free. Qed.
Print Assumptions C09_find_launcher_history_free.

(* ---- error path: the host / rank / node / ERF file cannot be written into
        the task sandbox (t_wfail).  The enactment theorems above hold for
        every task, with or without the fault ("emitted => enacts"); in
        addition: ---- *)

(* a method that has to write a file for this task (mpirun above 42 hosts,
   mpiexec always, srun above 42 nodes, jsrun ERF) produces NO command when
   the write fails: the task is refused with an error *)
Theorem C09_write_failure_refuses : forall c st t, t_wfail t = true -> writes_file c t = true ->
  exists e, snd (get_launch_cmds c st t) = inl e.
Proof.
  intros c st t Hw Hf. destruct (snd (get_launch_cmds c st t)) as [e|cmd] eqn:E; [eauto|].
  apply emitted_file in E. rewrite Hf in E. congruence.
Qed.
Print Assumptions C09_write_failure_refuses.

(* and whatever command is emitted under the fault names no file *)
Theorem C09_write_failure_no_file : forall c st t cmd, t_wfail t = true ->
  snd (get_launch_cmds c st t) = inr cmd -> file cmd = None.
Proof.
  intros c st t cmd Hw H. apply emitted_file in H. destruct (writes_file c t); [congruence|exact H].
Qed.
Print Assumptions C09_write_failure_no_file.

Example C09_write_failure_nonvacuous :
  let c := cfg0 MPIEXEC OMPI in
  let t := Build_task [sl 1 0; sl 2 0] [] 2 1 0 true true 0 false false false true in
  valid t /\ writes_file c t = true /\ snd (get_launch_cmds c [] t) = inl EOs.
Proof. repeat split; try discriminate; vm_compute; reflexivity. Qed.

(* ---- the oracle's multiset / set comparisons mean what they say ---- *)
Theorem C09_oracle_multiset : forall a b : list Z,
  (mseteqb a b = true <-> forall x, count_occ Z.eq_dec a x = count_occ Z.eq_dec b x) /\
  (Permutation a b -> mseteqb a b = true) /\
  (seteqb a b = true <-> forall x, In x a <-> In x b).
Proof. exact (fun a b => conj (mseteqb_count a b) (conj (mseteqb_perm a b) (seteqb_spec a b))). Qed.
Print Assumptions C09_oracle_multiset.

(* non-vacuity: a valid 3-rank placement over two nodes (n1, n2, n2), accepted
   by MPIRUN, whose command denotes exactly those nodes *)
Example C09_nonvacuous :
  let c := cfg0 MPIRUN OMPI in
  let t := task0 [sl 1 0; sl 2 0; sl 2 1] [] 3 in
  valid t /\ can_launch c t = inr true /\
  option_map p_nodes (match snd (get_launch_cmds c [] t) with inr cmd => den c cmd | inl _ => None end)
    = Some (NList [1; 2; 2]).
Proof. repeat split; try discriminate; vm_compute; reflexivity. Qed.
