(* C20 -- raptor workers and masters account for every request.
   Proofs here cite the lemmas of RP.Raptor.*Proofs or compute on the model;
   what needs an induction stands there.
   Model: RP.Raptor.Model
   (DefaultWorker._alloc/_dealloc/_request_cb/_result_cb, Master._result_cb/
   _request_cb/_submit_tasks, Worker._dispatch_func etc.), oracle: RP.Raptor.Oracle. *)
From Coq Require Import ZArith List Bool Permutation.
From RP Require Import Raptor.Model Raptor.Oracle Raptor.Proofs Raptor.Race Raptor.RaceOracle Raptor.RaceProofs Raptor.Lin Raptor.LinProofs Raptor.Endings Raptor.EndingsOracle Raptor.EndingsProofs.
Import ListNotations.
Open Scope Z_scope.

(* A request stream: any list of operations -- batches of requests handed to
   _request_cb (with any choice of completions arriving while a request waits
   for resources, and process starts that may fail), completions / failures /
   time-outs of running requests in any order, and stale results -- in which
   every request asks for 1..nc cores and 0..ng GPUs (`op_in_bound`). *)

(* cores (GPUs) held by the requests that are running at the end of the stream *)
Notation cores_held st := (hc (w_pool st)).
Notation gpus_held st := (hg (w_pool st)).

(* No core and no GPU is held twice -- neither by two concurrently running
   requests nor twice by one -- and everything held is an index of the
   worker's own allotment.  (Every prefix of a stream is a stream, so this
   holds at every point of every history.) *)
Theorem C20_worker_disjoint :
  forall (nc ng : nat) (ops : list wop) (st : wst) (evs : list wev),
    Forall (op_in_bound nc ng) ops -> wrun (winit nc ng) ops = (st, evs) ->
    NoDup (cores_held st) /\ NoDup (gpus_held st) /\
    (forall k, In k (cores_held st) -> 0 <= k < Z.of_nat nc) /\
    (forall k, In k (gpus_held st) -> 0 <= k < Z.of_nat ng).
Proof. exact worker_disjoint. Qed.
Print Assumptions C20_worker_disjoint.

(* The worker's occupancy maps mark exactly what the running requests hold:
   whatever finished, failed, timed out or failed to start has given
   everything back, and nothing else is marked. *)
Theorem C20_worker_occupancy_exact :
  forall (nc ng : nat) (ops : list wop) (st : wst) (evs : list wev),
    Forall (op_in_bound nc ng) ops -> wrun (winit nc ng) ops = (st, evs) ->
    w_cb st = bm_of nc (cores_held st) /\ w_gb st = bm_of ng (gpus_held st).
Proof.
  intros nc ng ops st evs Hb Hr.
  exact (winv_exact _ _ _ (proj1 (wrun_spec nc ng ops _ _ _ Hb (winit_inv nc ng) Hr))).
Qed.
Print Assumptions C20_worker_occupancy_exact.

(* _dealloc undoes _alloc: releasing what was just taken restores the bitmap *)
Theorem C20_release_restores_bitmap :
  forall (bm : bitmap) (held : list Z) (want : Z) (bm' : bitmap) (l : list Z),
    binv bm held -> take want bm = (bm', l) -> release l bm' = (bm, None).
Proof.
  intros bm held want bm' l Hb Ht. destruct (take_binv _ _ _ _ _ Hb Ht) as [Hb' Hl].
  destruct (release_binv _ _ _ Hb') as (bm'' & Hr & Hb'' & Hl'').
  rewrite Hr. f_equal. apply (binv_unique _ _ held); congruence.
Qed.
Print Assumptions C20_release_restores_bitmap.

(* a worker with no running request has every core and GPU bit cleared *)
Theorem C20_quiescent_all_free :
  forall (nc ng : nat) (ops : list wop) (st : wst) (evs : list wev),
    Forall (op_in_bound nc ng) ops -> wrun (winit nc ng) ops = (st, evs) ->
    w_pool st = [] -> w_cb st = repeat false nc /\ w_gb st = repeat false ng.
Proof.
  intros nc ng ops st evs Hb Hr.
  exact (winv_quiescent _ _ _ (proj1 (wrun_spec nc ng ops _ _ _ Hb (winit_inv nc ng) Hr))).
Qed.
Print Assumptions C20_quiescent_all_free.

(* Within the demand bound no request thread raises or spins forever, and the
   result callback only ever rejects stale results (before freeing anything). *)
Theorem C20_worker_no_failure :
  forall (nc ng : nat) (ops : list wop) (st : wst) (evs : list wev),
    Forall (op_in_bound nc ng) ops -> wrun (winit nc ng) ops = (st, evs) ->
    Forall clean evs.
Proof. exact worker_no_failure. Qed.
Print Assumptions C20_worker_no_failure.

(* Every request handed to the worker is accounted for exactly once: the uids
   of the results put on the result queue together with the uids of the
   requests still running are a permutation of the uids requested. *)
Theorem C20_worker_each_request_once :
  forall (nc ng : nat) (ops : list wop) (st : wst) (evs : list wev),
    Forall (op_in_bound nc ng) ops -> wrun (winit nc ng) ops = (st, evs) ->
    Permutation (res_uids evs ++ map u_uid (w_pool st)) (map q_uid (requests_of ops)).
Proof.
  intros nc ng ops st evs Hb Hr.
  destruct (wrun_spec nc ng ops _ _ _ Hb (winit_inv nc ng) Hr) as (_ & _ & H).
  simpl in H. rewrite app_nil_r in H. exact H.
Qed.
Print Assumptions C20_worker_each_request_once.

(* Master._result_cb: the target state is DONE iff the reported exit code is 0
   (absent / None counts as failure) ... *)
Theorem C20_master_target_done_iff_exit_0 :
  forall (u : Z) (code : option Z), target_of (u, None, code) = TDone <-> code = Some 0.
Proof. exact target_done_iff. Qed.
Print Assumptions C20_master_target_done_iff_exit_0.

(* ... FAILED otherwise ... *)
Theorem C20_master_target_failed_otherwise :
  forall (u : Z) (code : option Z), code <> Some 0 -> target_of (u, None, code) = TFailed.
Proof.
  intros u code H. destruct (target_of (u, None, code)) eqn:E; try reflexivity.
  - apply target_done_iff in E. contradiction.
  - unfold target_of in E. destruct (dflt (-1) code =? 0); discriminate.
Qed.
Print Assumptions C20_master_target_failed_otherwise.

(* ... and every task of the batch is advanced exactly once (one advance call
   over the whole batch) *)
Theorem C20_master_advances_batch_once :
  forall (sd : sdata) (ts : list rtask),
    snd (master_result sd ts) =
      [MAdvance (map (fun t => fst (fst t)) ts) S_STAGING_OUTPUT_PENDING true true] /\
    snd (fst (master_result sd ts)) = map (fun t => (fst (fst t), target_of t)) ts.
Proof. intros sd ts. split; reflexivity. Qed.
Print Assumptions C20_master_advances_batch_once.

(* Routing by mode: of a submitted batch (every task has a description) the
   executable tasks, and only they, go to the agent's execution path, all
   others, and only they, to the workers' request queue; together they are
   the batch. *)
Theorem C20_routing_by_mode :
  forall (ts : list itask) (evs : list mev),
    submit_tasks ts = inr evs ->
    agent_path evs = map i_uid (filter is_exec_task ts) /\
    worker_path evs = map i_uid (filter (fun t => negb (is_exec_task t)) ts) /\
    Permutation (agent_path evs ++ worker_path evs) (map i_uid ts).
Proof. exact routing_by_mode. Qed.
Print Assumptions C20_routing_by_mode.

(* ... and executable tasks arriving through _request_cb are flagged
   raptor_seen (so that the scheduler does not send them back), no others *)
Theorem C20_routing_marks_executables_seen :
  forall (ts : list itask),
    forallb (fun t : itask => snd (fst t) && match snd t with Some _ => true | None => false end) ts = true ->
    fst (master_request ts) = map i_uid (filter is_exec_task ts).
Proof.
  intros ts H. unfold master_request. rewrite (mscan_spec ts [] H). simpl.
  destruct (submit_tasks ts); reflexivity.
Qed.
Print Assumptions C20_routing_marks_executables_seen.

(* Dispatch truthfulness and isolation: for every sequence of requests and
   every payload (any list of prints, environment edits and look-ups, ending
   in a return or a raise), each request is answered exactly as specified by
   `expected` on the worker's ORIGINAL environment ... *)
Theorem C20_dispatch_truthful_and_isolated :
  forall (tenv : env) (rs : list dreq) (w0 : world),
    sync w0 -> map fst (drun tenv w0 rs) = map (expected tenv w0) rs.
Proof. intros tenv rs w0 Hs. exact (proj1 (drun_isolated tenv rs w0 w0 Hs (weq_refl w0))). Qed.
Print Assumptions C20_dispatch_truthful_and_isolated.

(* ... where `expected` reports exit code 0 exactly when the call succeeded,
   with the return value, the captured output, and the exception otherwise *)
Theorem C20_expected_is_truthful :
  forall (tenv : env) (w0 : world) (r : dreq),
    (d_ret (expected tenv w0 r) =? 0) = succeeded r /\
    (forall m denv acts v, r = (m, denv, mkPayload acts (FReturn v)) ->
       py_mode m ->
       d_val (expected tenv w0 r) = Some v /\ d_exc (expected tenv w0 r) = false
       /\ d_fail (expected tenv w0 r) = None) /\
    (forall m denv acts x, r = (m, denv, mkPayload acts (FRaise x)) ->
       py_mode m ->
       d_ret (expected tenv w0 r) = 1 /\ d_val (expected tenv w0 r) = None
       /\ d_exc (expected tenv w0 r) = true /\ d_fail (expected tenv w0 r) = Some x).
Proof. exact expected_truthful. Qed.
Print Assumptions C20_expected_is_truthful.

(* Dispatch restores: after every request of every sequence, os.environ, the
   process-level environment and the write-through binding are what they were
   before the first request. *)
Theorem C20_dispatch_restores_environment :
  forall (tenv : env) (rs : list dreq) (w0 : world),
    sync w0 -> Forall (fun x : dres * world => weq (snd x) w0) (drun tenv w0 rs).
Proof. intros tenv rs w0 Hs. exact (proj2 (drun_isolated tenv rs w0 w0 Hs (weq_refl w0))). Qed.
Print Assumptions C20_dispatch_restores_environment.

(* The process wrapper DefaultWorker._dispatch reports exactly one result
   however the payload's process ends (return, raise, sys.exit/os._exit with
   any code, killed by a signal, time-out), with exit code 0 iff the payload
   returned, and an exception otherwise -- so that _result_cb runs, and the
   cores and GPUs are released, for every accepted request. *)
Theorem C20_process_end_reported_once :
  forall (e : pend),
    exists ret exc, proc_results e = [(ret, exc)] /\
                    (ret = 0 <-> e = PReturn) /\ exc = negb (ret =? 0).
Proof.
  intros e.
  destruct e; simpl; eexists _, _; (split; [reflexivity|]); (split; [|reflexivity]);
    split; intro H; try discriminate; reflexivity.
Qed.
Print Assumptions C20_process_end_reported_once.

(* The dispatcher / task-process protocol of DefaultWorker._dispatch around
   the request's timeout (Raptor.Race: the dispatcher's steps start, join,
   lock, read res_done, is_alive, terminate, join(grace), is_alive, kill,
   join, put, unlock and the task process's steps call-ends, lock, put, set
   res_done, unlock, exit, as two interleaved parties; the lock makes the
   dispatcher's check+act atomic).  For EVERY schedule -- every interleaving
   of these steps, every moment at which the request's timeout and the grace
   period expire -- every way the call ends (returns, raises, leaves the
   process, never ends; the last only with a timeout) and every reaction of the
   task process to SIGTERM (dies at once, dies later -- before or after the
   grace period --, never; SIGKILL always works): both
   parties finish, exactly one result is queued, and it is truthful: the
   call's own result iff the task process queued it (exit code 0 iff the call
   returned), a time-out only if the process was killed before it reported,
   'process died' only if it ended by itself without reporting. *)
Theorem C20_dispatch_protocol_one_truthful_result :
  forall (p : pay) (timed : bool) (sg : sigr) (s : list choice),
    allowed p timed = true ->
    finished (fst (race p timed sg s)) = true /\
    ok_one (c_q (fst (race p timed sg s))) = true /\
    forallb (truthful_rk p (snd (race p timed sg s))) (c_q (fst (race p timed sg s))) = true.
Proof. exact race_ok. Qed.
Print Assumptions C20_dispatch_protocol_one_truthful_result.

(* ... and therefore the worker's result watcher (which dies on a second
   result for one request) survives: it hands back the raced request and a
   LATER request, and all cores are free again. *)
Theorem C20_dispatch_protocol_watcher_survives :
  forall (p : pay) (timed : bool) (sg : sigr) (s : list choice),
    allowed p timed = true ->
    let '(st, evs, alive) := watcher wst2 (feed (c_q (fst (race p timed sg s)))) in
    alive = true /\ returned_uids evs = [1; 2] /\ w_cb st = [false; false] /\ w_pool st = [].
Proof.
  intros p timed sg s Ha. destruct (race_ok p timed sg s Ha) as (_ & H1 & _).
  destruct (c_q (fst (race p timed sg s))) as [|k [|k2 r]]; try discriminate H1.
  rewrite (watcher_after_one k). auto.
Qed.
Print Assumptions C20_dispatch_protocol_watcher_survives.

(* Resources of a request are free only after its process is gone: at no point
   of any schedule (`srun_race` = an arbitrary prefix, `race` = run to the end)
   has the dispatcher queued a result -- on which _result_cb gives the request's
   cores and GPUs back -- while the request's task process still existed
   (`c_bad` records exactly that), whatever the payload does and however it
   reacts to SIGTERM.  The task process's own report is queued by that process
   after the call has ended.  Hence a later request is never started on a core
   or GPU of a live task process: no two live task processes on one core. *)
Theorem C20_reported_only_after_process_gone :
  forall (p : pay) (timed : bool) (sg : sigr) (s : list choice),
    c_bad (fst (srun_race p timed sg cinit s)) = false /\ c_bad (fst (race p timed sg s)) = false.
Proof.
  intros p timed sg s.
  assert (H : forall s, c_bad (fst (srun_race p timed sg cinit s)) = false).
  { intro s0. pose proof (srun_good p timed sg s0) as H. apply andb_true_iff in H as [H _].
    apply negb_true_iff, H. }
  split; [apply H|]. destruct (race_srun p timed sg s) as [s' ->]. apply H.
Qed.
Print Assumptions C20_reported_only_after_process_gone.

(* Two-thread cases (request intake / _alloc against _result_cb / _dealloc,
   against another intake, against the completion of the request being
   started) are judged against the sequential model: the observed outcome must
   be `outcome_of` the model run in one of the two orders.  For EVERY operation
   sequence within the demand bound that sequential outcome satisfies the
   clauses used on the observation: nothing held twice and all within the
   worker, the maps mark exactly what is held, idle means all free. *)
Theorem C20_sequential_outcome_satisfies_clauses :
  forall (nc ng : nat) (ops : list wop),
    Forall (op_in_bound nc ng) ops ->
    let o := outcome_of (wrun (winit nc ng) ops) in
    lin_disjoint nc ng o = true /\ lin_accounting nc ng o = true /\ lin_quiescent o = true.
Proof.
  intros nc ng ops Hb. destruct (wrun (winit nc ng) ops) as [st evs] eqn:Hr.
  exact (winv_outcome_ok _ _ _ _ (proj1 (wrun_spec _ _ _ _ _ _ Hb (winit_inv nc ng) Hr))).
Qed.
Print Assumptions C20_sequential_outcome_satisfies_clauses.

(* However a request ENDS.  `dispatch_x` (Raptor.Endings) is the table of
   request kinds (function/method, eval, exec, proc, shell) x endings: normal
   return / raise, empty or missing function / code, callable that cannot be
   resolved or deserialized, PythonTask with extra args, communicator that
   cannot be injected, environment entry the OS refuses, syntax error, failing
   pre_exec, missing executable / command, bad arguments, payload that closes
   the captured stdout, leaves the interpreter, or changes the directory.
   One task on a persistent rank (MPIWorkerRank.run): whatever the kind and
   the ending, os.environ, the process environment, the write-through binding,
   the working directory, Worker._task_env and the stdio streams afterwards are
   what they were before. *)
Theorem C20_any_ending_restores_rank_state :
  forall (r : xreq) (s : rstate),
    sync (r_w s) -> r_cwd s = 0 ->
    weq (r_w (snd (rank_request r s))) (r_w s) /\ sync (r_w (snd (rank_request r s))) /\
    r_cwd (snd (rank_request r s)) = 0 /\ r_tenv (snd (rank_request r s)) = r_tenv s /\
    r_stdio (snd (rank_request r s)) = r_stdio s.
Proof. exact rank_request_restores. Qed.
Print Assumptions C20_any_ending_restores_rank_state.

(* ... hence, for every sequence of requests with arbitrary endings, each one
   (in particular a probe that follows a refused request) is answered as on the
   rank's original state, and that state is found again after each of them *)
Theorem C20_any_ending_sequence_isolated :
  forall (rs : list xreq) (s0 : rstate),
    sync (r_w s0) -> r_cwd s0 = 0 ->
    map fst (xrun true s0 rs) = map (expected_x (r_tenv s0) (r_w s0)) rs /\
    Forall (fun x : dres * rstate => rs_eq (snd x) s0) (xrun true s0 rs).
Proof.
  intros rs s0 Hs Hc.
  exact (xrun_rank_isolated rs s0 s0 Hs Hc (conj (weq_refl _) (conj eq_refl (conj eq_refl eq_refl)))).
Qed.
Print Assumptions C20_any_ending_sequence_isolated.

(* exit code 0 exactly for the endings in which the call itself succeeded *)
Theorem C20_any_ending_truthful :
  forall (tenv : env) (w0 : world) (r : xreq),
    (d_ret (expected_x tenv w0 r) =? 0) = succeeded_x r.
Proof.
  intros tenv w0 r. destruct r as [[[m denv] p] e]. unfold expected_x, succeeded_x.
  pose proof (proj1 (expected_truthful tenv w0 (m, denv, p))) as Hn.
  rewrite <- dispatch_expected in Hn.
  destruct (applicable m e) eqn:Ea.
  - (* an ending that exists for the kind: the normal one and chdir answer as
       the dispatcher does, every other one with a failure *)
    destruct m, e; try discriminate Ea; first [exact Hn | reflexivity].
  - rewrite dispatch_x_inapplicable by exact Ea. exact Hn.
Qed.
Print Assumptions C20_any_ending_truthful.

(* The agent scheduler's raptor forwarding loses and duplicates nothing: for
   every history of incoming batches, queue registrations / unregistrations
   and cancel requests, the uids handed to the local scheduler, put on raptor
   queues, failed ("raptor gone") or canceled, together with the uids waiting
   in the backlog, are a permutation of the uids that came in. *)
Theorem C20_scheduler_forwarding_conserves_tasks :
  forall (ops : list sop) (st : sst),
    Permutation (evs_uids (snd (srun st ops)) ++ backlog_uids (s_backlog (fst (srun st ops))))
                (concat (map sop_uids ops) ++ backlog_uids (s_backlog st)).
Proof. exact srun_conservation. Qed.
Print Assumptions C20_scheduler_forwarding_conserves_tasks.

(* a task is scheduled by the agent itself iff it names no raptor, is a
   raptor worker, or was already seen by its raptor (executable tasks coming
   back from the master); otherwise it is grouped under the raptor it names *)
Theorem C20_scheduler_routing_decision :
  forall (u : Z) (rid : option Z) (w seen : bool),
    classify [(u, rid, w, seen)] =
    match rid with
    | Some name => if negb w && negb seen then ([], [(name, [u])]) else ([u], [])
    | None => ([u], [])
    end.
Proof. intros u rid w seen. destruct rid as [n|]; destruct w, seen; reflexivity. Qed.
Print Assumptions C20_scheduler_routing_decision.

(* non-vacuity: a 3-core x 2-GPU worker; three requests, the third has to wait
   until the first completes (a failure); a fourth request waits for the
   second and then its process start fails; a stale result is rejected; the
   last completion leaves the worker idle and all free *)
Example C20_nonvacuous :
  let ops := [OReq [mkReq 1 (Some 2) (Some 1) false; mkReq 2 None None false;
                    mkReq 3 (Some 2) (Some 2) false] [(0, 1, true)];
              OReq [mkReq 4 (Some 1) None true] [];
              OStale 1000; OFin (0, 0, false)] in
  Forall (op_in_bound 3 2) ops /\
  wrun (winit 3 2) ops =
    (mkW [false; false; false] [false; false] [] 1003,
     [EvStart 1 1000 [0; 1] [0] [true; true; false] [true; false];
      EvStart 2 1001 [2] [] [true; true; true] [true; false];
      EvResult 1 (Some 1) true [false; false; true] [false; false];
      EvStart 3 1002 [0; 1] [0; 1] [true; true; true] [true; true];
      EvResult 2 (Some 0) false [true; true; false] [true; true];
      EvResult 4 None true [true; true; false] [true; true];
      EvRaise 1 KeyError;
      EvResult 3 (Some 0) false [false; false; false] [false; false]]).
Proof. cbv zeta. split; [repeat (first [constructor | progress simpl]) | vm_compute; reflexivity]. Qed.

Example C20_dispatch_nonvacuous :
  let w0 := mkWorld [(0, 1)] [(0, 1)] true in
  sync w0 /\
  map (fun x : dres * world => (fst x, view (py_env (snd x)), view (pr_env (snd x)), bound (snd x)))
      (drun [] w0 [(DEval, Some [(1, 7)], mkPayload [ASet 2 5; ADel 0; AEcho 1; AEcho 0] (FReturn 3));
                   (DExec, None, mkPayload [AEcho 1; AEcho 2; APrint 9] (FRaise 4))])
  = [(mkRes (Some [7; -1]) [] None 0 (Some 3) false,
      [Some 1; None; None; None; None; None], [Some 1; None; None; None; None; None], true);
     (mkRes (Some [-1; -1; 9]) [] (Some 4) 1 None true,
      [Some 1; None; None; None; None; None], [Some 1; None; None; None; None; None], true)].
Proof. split; [intros _ k; reflexivity | vm_compute; reflexivity]. Qed.

(* non-vacuity of the protocol theorems: the call returns and reports while
   the timeout expires; the dispatcher finds res_done set although the task
   process has not exited yet, and adds nothing (the interleaving at which the
   code before /repo a0d9f2d queued a second, time-out, result) *)
Example C20_protocol_nonvacuous :
  race_show PayReturn true SigNow [CD; CT; CT; CX] =
  ([(PD, RoStart); (PT, RoFn); (PT, RoAcquire); (PD, RoExpire); (PD, RoJoin);
    (PT, RoPut RReal0); (PT, RoSet); (PT, RoRelease); (PD, RoAcquire);
    (PD, RoIsSet true); (PD, RoRelease); (PT, RoExit)],
   [RReal0], true, [1; 2], true, [false; false], false).
Proof. vm_compute. reflexivity. Qed.

(* ... and a payload that handles SIGTERM and then returns: the call ends after
   the kill attempt, the task process waits for the result lock the dispatcher
   holds, the grace period expires, SIGKILL, and only then the time-out is
   reported (in the code before /repo cdbd8e0 this schedule never ends) *)
Example C20_protocol_sigterm_ignored_nonvacuous :
  race_show PayReturn true SigNever [CD; CX] =
  ([(PD, RoStart); (PD, RoExpire); (PD, RoJoin); (PD, RoAcquire); (PD, RoIsSet false);
    (PD, RoIsAlive true); (PD, RoTerminate); (PT, RoFn); (PD, RoExpire2); (PD, RoJoin);
    (PD, RoIsAlive true); (PD, RoKill); (PD, RoJoin); (PD, RoPut RTimeout); (PD, RoRelease)],
   [RTimeout], true, [1; 2], true, [false; false], false).
Proof. vm_compute. reflexivity. Qed.

(* non-vacuity of the ending theorems: on a rank, a function request with an
   environment whose callable cannot be resolved is reported as failed, a probe
   then finds the original environment (key 1 unset), directory and streams *)
Example C20_endings_nonvacuous :
  map (fun m : dres * rstate => (fst m, view (py_env (r_w (snd m))), r_cwd (snd m)))
      (xrun true (mkR (mkWorld [(0, 1)] [(0, 1)] true) 0 [] true)
            [((DFunc, Some [(1, 7)], mkPayload [] (FReturn 3)), EUnresolvable);
             ((DEval, Some [], mkPayload [AEcho 0; AEcho 1] (FReturn 1)), ENormal)])
  = [(reported None, [Some 1; None; None; None; None; None], 0);
     (mkRes (Some [1; -1]) [] None 0 (Some 1) false, [Some 1; None; None; None; None; None], 0)].
Proof. vm_compute. reflexivity. Qed.
