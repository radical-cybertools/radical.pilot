(* C08 -- cancel stops the named tasks and nothing else.
   Proofs here cite the group's lemmas or compute on the model; what needs an
   induction stands in the group.
   Module SchedSide : the pilot agent's scheduler (waiting tasks, tasks met later).
   Module ExecSide  : the pilot agent's executor (running tasks, tasks met at the
   executor's intake, bystanders), over RP.Exec.Model -- any number of tasks,
   any schedule of the four executor threads.
   Module RelaySide : the backlog of raptor tasks (RP.Relay).
   Module ClientSide: TaskManager.cancel_tasks (RP.CancelReq). *)
From Coq Require Import ZArith List.
From Coq Require Import Lia.
From RP Require Sched.Model Sched.NodeMap Sched.Inv Sched.SchedProofs Sched.RunProofs
               Sched.LiveProofs Sched.CancelProofs Sched.ConsProofs Sched.CancelRunProofs.
From RP Require Exec.Model Exec.Oracle Exec.Local Exec.Proj Exec.Proofs Exec.CancelProofs Exec.ExamProofs Exec.PollProofs Exec.HandlerProofs Exec.KillProofs.
From RP Require CancelReq.Model CancelReq.Proofs.
From RP Require Relay.Model Relay.Oracle Relay.Proofs Relay.History Relay.Frame Relay.OracleProofs.
Import ListNotations.

Module SchedSide.
Import RP.Sched.Model RP.Sched.Inv RP.Sched.RunProofs
       RP.Sched.LiveProofs RP.Sched.CancelProofs RP.Sched.ConsProofs RP.Sched.CancelRunProofs.
Open Scope Z_scope.

(* a named task that is waiting is taken out of the wait pool ... *)
Theorem C08_named_waiting_leaves_pool :
  forall us wp evs wp' evs' u,
    NoDup (uids (pool_reqs wp)) -> cancel_uids us wp evs = (wp', evs') -> In u us ->
    ~ In u (uids (pool_reqs wp')).
Proof.
  intros us wp evs wp' evs' u Hnd E Hin.
  apply cz_zero_notin, Z.eq_le_incl, (cancel_uids_cz u _ _ _ _ _ E), cz_NoDup, Hnd. exact Hin.
Qed.
Print Assumptions C08_named_waiting_leaves_pool.

(* ... and ends as CANCELED *)
Theorem C08_named_waiting_canceled :
  forall us wp evs wp' evs' u,
    cancel_uids us wp evs = (wp', evs') -> In u us -> In u (uids (pool_reqs wp)) ->
    NoDup (uids (pool_reqs wp)) -> In (Canceled u) evs'.
Proof. intros us wp evs wp' evs' u H Hu Hw _. exact (cancel_named_event us wp evs wp' evs' u H Hu Hw). Qed.
Print Assumptions C08_named_waiting_canceled.

(* a named task that the scheduler meets later is canceled there instead of
   being processed: at intake it is not passed on ... *)
Theorem C08_named_met_at_intake :
  forall ts cl evs keep cl' evs' t,
    intake ts cl evs = (keep, cl', evs') -> NoDup (map r_uid ts) ->
    In t ts -> In (r_uid t) cl -> ~ In t keep.
Proof. exact intake_named_not_kept. Qed.
Print Assumptions C08_named_met_at_intake.

(* ... and a task that has to wait but was named meanwhile is canceled, not parked *)
Theorem C08_named_met_at_pool_insert :
  forall p ts wp cl evs wp' cl' evs' t,
    pool_insert p ts wp cl evs = (wp', cl', evs') -> NoDup (map r_uid ts) ->
    In t ts -> In (r_uid t) cl -> In (Canceled (r_uid t)) evs'.
Proof. intros p ts wp cl evs wp' cl' evs' t H _. exact (pool_insert_named p ts wp cl evs wp' cl' evs' t H). Qed.
Print Assumptions C08_named_met_at_pool_insert.

(* tasks not named are unaffected: they stay in the wait pool ... *)
Theorem C08_bystanders_stay_waiting :
  forall us wp evs wp' evs' t,
    cancel_uids us wp evs = (wp', evs') -> ~ In (r_uid t) us ->
    (In t (pool_reqs wp) <-> In t (pool_reqs wp')).
Proof. exact cancel_only_named. Qed.
Print Assumptions C08_bystanders_stay_waiting.

(* ... the only events a request causes are CANCELED events of named uids ... *)
Theorem C08_only_named_canceled :
  forall us wp evs wp' evs' e,
    cancel_uids us wp evs = (wp', evs') -> In e evs' ->
    In e evs \/ exists u, In u us /\ e = Canceled u.
Proof. exact cancel_events_named. Qed.
Print Assumptions C08_only_named_canceled.

(* ... and at intake every task whose uid is not listed is passed on; only
   listed uids of the bulk are canceled *)
Theorem C08_intake_bystanders :
  forall ts cl evs keep cl' evs',
    intake ts cl evs = (keep, cl', evs') ->
    (forall t, In t keep -> In t ts) /\
    (forall t, In t ts -> ~ In (r_uid t) cl -> In t keep) /\
    (forall e, In e evs' -> In e evs \/ exists t, In t ts /\ In (r_uid t) cl /\ e = Canceled (r_uid t)).
Proof. exact intake_spec. Qed.
Print Assumptions C08_intake_bystanders.

(* resources: processing a request never touches the node map or the held
   set; resources of running tasks are released by the unschedule message the
   executor publishes (C07), exactly once (C03_release_restores) *)
Theorem C08_release_exactly_what_was_held :
  forall (ns0 ns : list node) (h : held) (u : Z) (sl : list slot),
    Inv ns0 ns h -> first_with u h = Some sl ->
    Inv ns0 (change_slot_states false sl ns) (drop_first u h).
Proof. exact inv_release. Qed.
Print Assumptions C08_release_exactly_what_was_held.

Example C08_nonvacuous :
  let wp := [(0, [mkReq 1 1 1 0 0 0 0 0 None false None None; mkReq 2 1 1 0 0 0 0 0 None false None None]);
             (3, [mkReq 5 1 1 0 0 0 0 3 None false None None])] in
  cancel_uids [5; 9; 1] wp [] =
  ([(0, [mkReq 2 1 1 0 0 0 0 0 None false None None]); (3, [])], [Canceled 5; Canceled 1]).
Proof. vm_compute. reflexivity. Qed.

(* whole histories: after ANY history of arrivals (unique uids), cancel requests
   -- delivered at once (CancelMsg) or in two halves with the loop running in
   between (CancelReg = the uids are put on the cancel list, CancelQ = the CANCEL
   item is put on the scheduler queue), in any order --, releases and loop
   iterations with any bisect strategy: a uid that was registered for
   cancellation and still waits in a pool has its CANCEL item pending in the
   queue, or belongs to a request of which only the registration half has
   happened ([half]: the ghost multiset of such uids) *)
Theorem C08_named_not_waiting_any_history :
  forall c ns0 ops w' u,
    run c (init_world ns0) ops = Some w' -> NoDup (arrivals ops) ->
    In u (registered ops []) -> In u (P (waitpool (st w'))) ->
    In u (QC (q_sched w')) \/ In u (half ops []).
Proof. exact named_not_waiting. Qed.
Print Assumptions C08_named_not_waiting_any_history.

(* ... hence after a loop iteration no task named by a completely delivered
   request waits -- whether it waited before the request, was pulled from the
   queue in the same drain as the CANCEL item, or arrived later *)
Theorem C08_named_not_waiting_after_iteration :
  forall c ns0 ops strat w' u,
    run c (init_world ns0) (ops ++ [Iterate strat]) = Some w' -> NoDup (arrivals ops) ->
    In u (registered ops []) -> ~ In u (half ops []) ->
    ~ In u (P (waitpool (st w'))).
Proof. exact named_not_waiting_after_iteration. Qed.
Print Assumptions C08_named_not_waiting_after_iteration.

(* non-vacuity, and why the order of the two halves matters: task 2 cannot fit
   while task 1 holds the node.  Registration first (the code's order): task 2
   is canceled when it is put into the pool.  Queue item first (the order a
   regression could produce): the CANCEL item is consumed while task 2 is not
   in the pool yet, the later registration is never looked at again, task 2
   waits forever -- and the theorem does not apply, task 2 stays in [half] *)
Example C08_split_request_orders :
  let c := mkCfg 2 0 0 0 true in
  let ns := [mkNode 0 [Free; Free] [] 0 0] in
  let t u cores := mkReq u 1 cores 0 0 0 0 0 None false None None in
  let pre := [Arrive [t 1 2]; Iterate []; Arrive [t 2 1]] in
  (match run c (init_world ns) (pre ++ [CancelReg [2]; Iterate []; CancelQ [2]; Iterate []]) with
   | Some w => (P (waitpool (st w)), half (pre ++ [CancelReg [2]; Iterate []; CancelQ [2]]) [])
   | None => ([0], [0]) end) = ([], []) /\
  (match run c (init_world ns) (pre ++ [CancelQ [2]; Iterate []; CancelReg [2]; Iterate [[(2, true)]]]) with
   | Some w => (P (waitpool (st w)), half (pre ++ [CancelQ [2]; Iterate []; CancelReg [2]]) [])
   | None => ([0], [0]) end) = ([2], [2]).
Proof. vm_compute. split; reflexivity. Qed.

End SchedSide.

Module ExecSide.
Import RP.Exec.Model RP.Exec.Oracle RP.Exec.Proj RP.Exec.CancelProofs RP.Exec.ExamProofs RP.Exec.PollProofs RP.Exec.HandlerProofs RP.Exec.KillProofs.

(* a named task that is running: once cancel_task has found its process running
   and taken it over, it is never collected and never failed; at quiescence it
   has been handed on exactly once, as CANCELED, its resources were released
   exactly once, and its process does not run any more *)
Theorem C08_named_running_killed_and_released_once :
  forall sc sched s tr u,
    NoDup (delivered sc) -> In u (delivered sc) -> run (init sc) sched = (s, tr) -> own_of u tr = true ->
    let ems := emissions tr in
    n_collected u ems = 0%nat /\ n_adv SFailed u ems = 0%nat /\
    (quiescent s = true ->
     n_canceled u ems = 1%nat /\ n_adv SStaging u ems = 1%nat /\ n_hand u ems = 1%nat /\ n_uns u ems = 1%nat /\
     is_running (world s u) = false).
Proof. exact cancel_named_running. Qed.
Print Assumptions C08_named_running_killed_and_released_once.

(* a named task that the executor meets later (at its intake) is canceled
   there: never launched, never announced as executing, CANCELED exactly once *)
Theorem C08_named_met_at_executor_intake :
  forall sc sched s tr u,
    NoDup (delivered sc) -> In u (delivered sc) -> run (init sc) sched = (s, tr) ->
    (0 < n_adv SCanceled u (emissions tr))%nat ->
    world s u = PNone /\ n_adv SExecuting u (emissions tr) = 0%nat /\ n_adv SCanceled u (emissions tr) = 1%nat.
Proof. exact cancel_later_met. Qed.
Print Assumptions C08_named_met_at_executor_intake.

(* tasks not named (and without a run-time limit) are unaffected: never killed,
   never canceled, and at quiescence announced once, released once and ended
   with their own outcome *)
Theorem C08_bystanders_untouched_by_executor :
  forall sc sched s tr u,
    NoDup (delivered sc) -> In u (delivered sc) -> run (init sc) sched = (s, tr) ->
    mem u (named sc) = false -> has_limit sc u = false ->
    let ems := emissions tr in
    world s u <> PKilled /\ n_canceled u ems = 0%nat /\ own_of u tr = false /\
    (quiescent s = true ->
     n_adv SExecuting u ems = 1%nat /\ n_uns u ems = 1%nat /\
     match fault_of sc u with
     | FNone => n_collected u ems = 1%nat /\ n_adv SStaging u ems = 1%nat /\ n_adv SFailed u ems = 0%nat
     | _ => n_adv SFailed u ems = 1%nat /\ n_adv SStaging u ems = 0%nat /\ n_collected u ems = 0%nat
     end).
Proof. exact bystanders_untouched_exec. Qed.
Print Assumptions C08_bystanders_untouched_by_executor.

(* ... they reach the same outcome they would have reached without the
   request: two runs over the same tasks, with ANY cancel requests not naming u
   and ANY schedules, give u the same outcome *)
Theorem C08_bystander_same_outcome :
  forall sc1 sc2 sched1 sched2 s1 tr1 s2 tr2 u,
    sc_batches sc1 = sc_batches sc2 ->
    NoDup (delivered sc1) -> In u (delivered sc1) ->
    run (init sc1) sched1 = (s1, tr1) -> run (init sc2) sched2 = (s2, tr2) ->
    quiescent s1 = true -> quiescent s2 = true ->
    mem u (named sc1) = false -> mem u (named sc2) = false -> has_limit sc1 u = false ->
    outcome u (emissions tr1) = outcome u (emissions tr2).
Proof. exact bystander_same_outcome. Qed.
Print Assumptions C08_bystander_same_outcome.

(* a named task cannot slip through between the registration of the request
   and its launch: for every schedule, at quiescence, a named task that the
   executor launched (far enough to reach the late check of _launch_task) has
   been examined for cancellation AFTER it entered self._tasks -- the cancel
   handler looked it up there (and then either found it and ran cancel_task,
   which kills the process unless it has exited by then, or found it already
   finished), or the late check found the uid on the cancel list and called
   cancel_task.  gex_of reads this off the recorded actions; G3 = "the late
   check missed the task and nothing has examined it since".  This is the
   order `register the uids, then control_cb` of BaseComponent._control_cb. *)
Theorem C08_named_launched_is_examined :
  forall sc sched s tr u,
    NoDup (delivered sc) -> In u (delivered sc) -> In u (named sc) ->
    run (init sc) sched = (s, tr) -> quiescent s = true -> gex_of u tr <> G3.
Proof. exact named_examined. Qed.
Print Assumptions C08_named_launched_is_examined.

(* ... as the oracle clause evaluated on the traces of the real code *)
Theorem C08_named_examined_clause_holds_in_model :
  forall sc sched s tr,
    NoDup (delivered sc) -> run (init sc) sched = (s, tr) -> ok_named_examined sc tr (quiescent s) = true.
Proof. exact model_named_examined. Qed.
Print Assumptions C08_named_examined_clause_holds_in_model.

(* "ends as CANCELED unless it had already finished": whenever a thread hands a
   task on as CANCELED (cancel_task: staged with target CANCELED), the last
   proc.poll() of that thread on the task -- the poll of that cancel_task
   invocation -- reported a RUNNING process.  A task whose process had exited
   before the poll, with whatever exit code (0 included), is never taken over:
   it is left to the watcher and keeps its own outcome.  For every scenario
   and every schedule, no fairness needed. *)
Theorem C08_canceled_only_if_running_when_polled :
  forall sc sched s tr u,
    run (init sc) sched = (s, tr) -> ok_polled_from u false false false tr = true.
Proof. exact canceled_only_if_polled_running. Qed.
Print Assumptions C08_canceled_only_if_running_when_polled.

Theorem C08_cancel_polled_clause_holds_in_model :
  forall sc sched s tr, run (init sc) sched = (s, tr) -> ok_cancel_polled (delivered sc) tr = true.
Proof. exact model_cancel_polled. Qed.
Print Assumptions C08_cancel_polled_clause_holds_in_model.

(* the cancel handler examines every uid of every request: control_cb walks
   the uid list of the message as received (not the component's shared cancel
   list, from which the intake filter removes uids meanwhile), so at
   quiescence the control thread has looked u up in self._tasks once for every
   occurrence of u in the requests -- no named uid is skipped, whatever the
   other threads do during the loop *)
Theorem C08_handler_examines_every_named_uid :
  forall sc sched s tr u,
    run (init sc) sched = (s, tr) -> quiescent s = true -> n_lookups u tr = occ u (named sc).
Proof. exact handler_covers. Qed.
Print Assumptions C08_handler_examines_every_named_uid.

Theorem C08_handler_covers_clause_holds_in_model :
  forall sc sched s tr, run (init sc) sched = (s, tr) -> ok_handler_covers sc tr (quiescent s) = true.
Proof. exact model_handler_covers. Qed.
Print Assumptions C08_handler_covers_clause_holds_in_model.

(* "its process is killed": in every run, of any length, the history of
   recorded actions and the process table agree (the process of u runs iff it
   was spawned and has neither exited nor been killed since); a signal of
   LaunchMethod.cancel_task is answered "no such process" only when the process
   does not run -- a running process is reached by the kill [ks_ok1]; and while
   a kill attempt is under way the process does not end by itself, unless a
   signal was delivered without effect (a process that outlives the kill) --
   cancel_task does not sit in proc.wait() for the natural end of a process it
   failed to signal [ks_ok2] *)
Theorem C08_kill_reaches_running_process :
  forall sc sched s tr u,
    run (init sc) sched = (s, tr) ->
    ks_ok1 (kst_of u (all_events tr)) = true /\ ks_ok2 (kst_of u (all_events tr)) = true /\
    ks_run (kst_of u (all_events tr)) = is_running (world s u).
Proof. exact kill_reaches_and_no_natural_wait. Qed.
Print Assumptions C08_kill_reaches_running_process.

Theorem C08_kill_clauses_hold_in_model :
  forall sc sched s tr,
    run (init sc) sched = (s, tr) ->
    ok_kill_reaches (delivered sc) tr = true /\ ok_no_natural_wait (delivered sc) tr = true.
Proof. exact model_kill_reaches. Qed.
Print Assumptions C08_kill_clauses_hold_in_model.

(* "and nothing else": no signal ever goes to the process group of the
   executor, and the process of a task that no request names and that has no
   run-time limit is never killed *)
Theorem C08_no_signal_to_the_executor_group :
  forall sc sched s tr,
    run (init sc) sched = (s, tr) ->
    existsb (fun e : event => let '(k, _, _) := e in Z.eqb k K_GSIG) (all_events tr) = false.
Proof. exact no_group_signal. Qed.
Print Assumptions C08_no_signal_to_the_executor_group.

Theorem C08_bystander_never_killed :
  forall sc sched s tr u,
    NoDup (delivered sc) -> In u (delivered sc) -> mem u (named sc) = false -> has_limit sc u = false ->
    run (init sc) sched = (s, tr) -> existsb (event_eqb (ev K_KILL u 1)) (all_events tr) = false.
Proof. exact bystander_never_killed. Qed.
Print Assumptions C08_bystander_never_killed.

Theorem C08_not_signalled_clause_holds_in_model :
  forall sc sched s tr, NoDup (delivered sc) -> run (init sc) sched = (s, tr) -> ok_not_signalled sc tr = true.
Proof. exact model_not_signalled. Qed.
Print Assumptions C08_not_signalled_clause_holds_in_model.

End ExecSide.

(* ---- raptor relay of the agent scheduler: the third of the four places where
   cancellation is implemented (the backlog of raptor tasks waiting for their
   master), RP.Relay.Model.  All statements are about EVERY history. ---- *)
Module RelaySide.
Import RP.Relay.Model RP.Relay.Oracle RP.Relay.Proofs RP.Relay.History RP.Relay.Frame RP.Relay.OracleProofs.
Open Scope Z_scope.

(* one request: its uids are registered on the cancel list; every named uid
   leaves every backlog and is canceled as often as it waited there; tasks not
   named keep their place and their order; nothing is forwarded or failed;
   scheduler queue and registrations untouched *)
Theorem C08_relay_cancel_in_backlog :
  forall s us,
    let '(s', e) := step s (Cancel us) in
    backlog s' = unnamed us (backlog s) /\ inq s' = inq s /\ queues s' = queues s
    /\ clist s' = clist s ++ us /\ gone s' = gone s
    /\ (exists c, e = [OCancel c] /\ (forall u, In u c -> In u us)
                  /\ forall u, In u us -> cnt u c = tot u (backlog s))
    /\ (forall u, In u us -> tot u (backlog s') = 0%nat)
    /\ (forall u, ~ In u us -> tot u (backlog s') = tot u (backlog s)).
Proof. exact cancel_in_backlog. Qed.
Print Assumptions C08_relay_cancel_in_backlog.

(* whole histories: a request naming a task that waits in a backlog cancels it,
   exactly once, and the task is never forwarded, failed or waiting again *)
Theorem C08_relay_cancel_stops_waiting_task :
  forall ops1 us ops2 u s1 e1 s2 e2 s3 e3,
    run init ops1 = (s1, e1) -> step s1 (Cancel us) = (s2, e2) -> run s2 ops2 = (s3, e3) ->
    In u us -> (n_arr u (ops1 ++ ops2) <= 1)%nat -> (0 < tot u (backlog s1))%nat ->
    n_cancel u e2 = 1%nat
    /\ n_fwd u (e1 ++ e2 ++ e3) = 0%nat /\ n_fail u (e1 ++ e2 ++ e3) = 0%nat
    /\ n_cancel u (e1 ++ e2 ++ e3) = 1%nat
    /\ (n_inq u s3 + tot u (backlog s3) = 0)%nat.
Proof. exact cancel_stops_waiting_task. Qed.
Print Assumptions C08_relay_cancel_stops_waiting_task.

(* "a named task that a component meets later is canceled there instead of
   being processed": a request naming a raptor task that has arrived -- on the
   scheduler queue or in a backlog -- and has not been forwarded (nor failed or
   canceled) stops it.  Whatever preceded and whatever follows, the task is
   never forwarded and never failed, and it is canceled exactly once: by the
   request itself when it waits in a backlog, by the drain that meets it when
   it is still on the scheduler queue; until that drain it stays on the queue
   with its uid on the cancel list. *)
Theorem C08_relay_cancel_stops_arrived_task :
  forall ops1 us ops2 u s1 e1 s2 e2 s3 e3,
    run init ops1 = (s1, e1) -> step s1 (Cancel us) = (s2, e2) -> run s2 ops2 = (s3, e3) ->
    In u us -> n_arr u ops1 = 1%nat -> n_arr u ops2 = 0%nat ->
    (n_fwd u e1 + n_fail u e1 + n_cancel u e1 = 0)%nat ->
    let e := e1 ++ e2 ++ e3 in
    n_fwd u e = 0%nat /\ n_fail u e = 0%nat /\
    ((n_cancel u e = 1%nat /\ (n_inq u s3 + tot u (backlog s3) = 0)%nat)
     \/ (n_cancel u e = 0%nat /\
         (n_inq u s3 = 1%nat /\ tot u (backlog s3) = 0%nat /\ zmem u (clist s3) = true) /\
         existsb is_drain ops2 = false)).
Proof. exact cancel_stops_arrived_task. Qed.
Print Assumptions C08_relay_cancel_stops_arrived_task.

(* ... once the scheduler loop has drained its queue again: canceled exactly once *)
Theorem C08_relay_cancel_stops_arrived_task_drained :
  forall ops1 us ops2 u s1 e1 s2 e2 s3 e3,
    run init ops1 = (s1, e1) -> step s1 (Cancel us) = (s2, e2) -> run s2 ops2 = (s3, e3) ->
    In u us -> n_arr u ops1 = 1%nat -> n_arr u ops2 = 0%nat ->
    (n_fwd u e1 + n_fail u e1 + n_cancel u e1 = 0)%nat ->
    existsb is_drain ops2 = true ->
    n_cancel u (e1 ++ e2 ++ e3) = 1%nat /\ n_fwd u (e1 ++ e2 ++ e3) = 0%nat /\ n_fail u (e1 ++ e2 ++ e3) = 0%nat
    /\ (n_inq u s3 + tot u (backlog s3) = 0)%nat.
Proof. exact cancel_stops_arrived_task_drained. Qed.
Print Assumptions C08_relay_cancel_stops_arrived_task_drained.

(* tasks not named are unaffected: a request placed anywhere in a history
   changes nothing of what the relay shows about a uid it does not name (to
   which registered queue it is put and when, that it goes out by round robin,
   failures, cancellations, all normal scheduling traffic, warnings) and
   nothing of where that uid waits.  Which queue the round robin picks is not
   part of the view: it goes by the position among the wildcard tasks of the
   drain, and a named task canceled in that drain does not take a position. *)
Theorem C08_relay_bystander_frame :
  forall ops1 us ops2 u s e s' e',
    ~ In u us ->
    run init (ops1 ++ Cancel us :: ops2) = (s, e) -> run init (ops1 ++ ops2) = (s', e') ->
    view u e = view u e' /\
    (inq s = inq s' /\ queues s = queues s' /\ gone s = gone s'
     /\ cnt u (clist s) = cnt u (clist s')
     /\ (forall k, cnt u (key_list k (backlog s)) = cnt u (key_list k (backlog s')))
     /\ tot u (backlog s) = tot u (backlog s')).
Proof. exact bystander_frame. Qed.
Print Assumptions C08_relay_bystander_frame.

Theorem C08_relay_bystander_same_counts :
  forall ops1 us ops2 u s e s' e',
    ~ In u us ->
    run init (ops1 ++ Cancel us :: ops2) = (s, e) -> run init (ops1 ++ ops2) = (s', e') ->
    n_fwd u e = n_fwd u e' /\ n_fail u e = n_fail u e' /\ n_cancel u e = n_cancel u e'
    /\ n_inq u s = n_inq u s' /\ tot u (backlog s) = tot u (backlog s').
Proof. exact bystander_same_counts. Qed.
Print Assumptions C08_relay_bystander_same_counts.

(* the relay's oracle clauses hold of the model's trace of every history *)
Theorem C08_relay_clauses_hold_in_model :
  forall ops, forallb (fun b => b) (relay_row ops (trace init ops)) = true.
Proof. exact clauses_hold_in_model. Qed.
Print Assumptions C08_relay_clauses_hold_in_model.

(* non-vacuity: tasks 1, 2 wait for master 1, task 3 for any master, task 4 is
   still on the scheduler queue; the request for 2, 3, 4 (and an unknown 9)
   cancels 2 and 3 where they wait, the next drain cancels 4; master 1 then gets
   task 1 and the emptied wildcard backlog *)
Example C08_relay_nonvacuous :
  let t u n := mkT u (Some n) false false in
  run init [Arrive [t 1 1; t 2 1; t 3 0]; Drain; Arrive [t 4 1]; Cancel [2; 3; 4; 9]; Drain; Register 1 1]
  = (mkS [] [(1, 1)] [] [2; 3; 9] [], [OCancel [2; 3]; OCancel1 4; OPut 1 [1]; OPut 1 []]).
Proof. vm_compute. reflexivity. Qed.
End RelaySide.

(* ---- where a request starts: the client.  TaskManager.cancel_tasks(uids) with
   nothing (all tasks of the manager), one uid (Task.cancel()) or a list; the
   message carries a LIST of uids, which every component registers. *)
Module ClientSide.
Import RP.CancelReq.Model RP.CancelReq.Proofs.

(* the request names exactly the tasks the application named *)
Theorem C08_client_request_names_exactly :
  forall (all : list Z) (a : carg) (u : Z), In u (request_uids all a) <-> named all a u.
Proof. exact request_names_exactly. Qed.
Print Assumptions C08_client_request_names_exactly.

(* a component that receives it registers exactly those, and keeps what it had *)
Theorem C08_client_registered_exactly :
  forall (cl all : list Z) (a : carg) (u : Z),
    In u (register cl (request_uids all a)) <-> In u cl \/ named all a u.
Proof. exact registered_exactly. Qed.
Print Assumptions C08_client_registered_exactly.

Theorem C08_client_register_keeps :
  forall cl uids : list Z, firstn (length cl) (register cl uids) = cl.
Proof. exact register_keeps. Qed.
Print Assumptions C08_client_register_keeps.

Example C08_client_nonvacuous :
  request_uids [1; 2; 3] ANone = [1; 2; 3] /\ request_uids [1; 2; 3] (AOne 2) = [2]
  /\ request_uids [1; 2; 3] (AMany [3; 9]) = [3; 9] /\ request_uids [1; 2] (AMany []) = [1; 2].
Proof. vm_compute. auto. Qed.
End ClientSide.

