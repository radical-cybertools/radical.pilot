(* C05 -- every submitted task ends in one final state that tells the truth.
   Proofs here cite the group's lemmas or compute on the model; what needs an
   induction stands in the group.
   Model: RP.Pipeline.Model
   (nine stations under BaseComponent.work_cb, FIFO queues, cancel lists),
   the client is the C06 model (RP.States).  P = mkP true thr: one pilot,
   added and known.  `calm`: no bulk-level exception at the tmgr scheduler
   (that case is C05_one_truthful_final_refuted, a recorded finding).
   Modules ExecSide (RP.Exec) and RelaySide (RP.Relay): what the pipeline model
   takes as one step. *)
From Coq Require Import ZArith List Bool Permutation.
From RP Require Import Gen.StatesTables Pipeline.Model Pipeline.Stage Pipeline.Oracle Pipeline.Proofs Pipeline.StageProofs.
From RP Require Exec.Model Exec.Oracle Exec.CancelProofs.
From RP Require Relay.Model Relay.Oracle Relay.Proofs Relay.History Relay.OracleProofs.
Import ListNotations.
Open Scope Z_scope.

(* ---- fault isolation, per station ----
   What station c lets the outside see about task u (publications, pushes)
   when it handles ANY bulk B with ANY cancel list is a function of u's own
   token, of whether u is on the cancel list, and of whether an exception
   escaped the work routine for that bulk (`raises`) -- nothing else.  *)
Theorem C05_station_view_is_local :
  forall c P cl B bf u, NoDup (map t_uid B) ->
    proj u (snd (work_cb c P cl B bf))
    = seen c P (zmem u cl) (raises c P bf (kept cl B)) (only u B).
Proof. exact work_cb_proj. Qed.
Print Assumptions C05_station_view_is_local.

(* agent_0 proxy in/out, agent stage-in, agent scheduler, executor and agent
   stage-out catch per task: no exception escapes, whatever the faults of the
   other tasks of the bulk (tmgr scheduler: the scheduler's _work; tmgr
   stage-in: the bulk mkdir; tmgr stage-out: a task without target_state --
   these three fail the whole bulk) *)
Theorem C05_fault_isolation_station :
  forall c P cl B bf u, NoDup (map t_uid B) -> catches_per_task c = true ->
    proj u (snd (work_cb c P cl B bf)) = seen c P (zmem u cl) false (only u B).
Proof.
  intros c P cl B bf u Hnd Hc. rewrite work_cb_proj by assumption. destruct c; try discriminate; reflexivity.
Qed.
Print Assumptions C05_fault_isolation_station.

(* nothing is emitted about tasks that are not in the bulk *)
Theorem C05_station_silent_about_others :
  forall c P cl B bf u, NoDup (map t_uid B) -> only u B = [] ->
    proj u (snd (work_cb c P cl B bf)) = [].
Proof. intros c P cl B bf u Hnd Hn. rewrite work_cb_proj, Hn by assumption. apply seen_nil. Qed.
Print Assumptions C05_station_silent_about_others.

(* ---- one station, one task: handed on intact, or one truthful final state ----
   `canon c t0` is the token of task t0 as it arrives at station c, which no
   fault of its own keeps it from (`reach`).  `canceled`: the uid is on the
   station's cancel list; `raised`: the work routine raises for the whole bulk,
   admitted here only at tmgr stage-in (the tmgr scheduler's is the refuted case
   below). *)
Theorem C05_single_step :
  forall c thr u d f canceled raised creq bulkf,
    let t0 := fresh u d f in
    reach c t0 = true ->
    (canceled = true -> creq = true) ->
    (raised = true -> bulkf = true /\ c = CTIn) ->
    let es := seen c (mkP true thr) canceled raised [canon c t0] in
    handed_on c t0 es \/ finished t0 creq bulkf es.
Proof. exact single_step. Qed.
Print Assumptions C05_single_step.

(* ---- the network: every workload, fault placement, delivery schedule ---- *)
(* no task is ever lost or duplicated *)
Theorem C05_never_lost :
  forall thr W evs t0, wf_workload W -> forallb calm evs = true -> In t0 W ->
    let g := run (mkP true thr) (init W) evs in
    (exists c, queued (t_uid t0) g = [(c, canon c t0)] /\ final_pubs (t_uid t0) (tr g) = [])
    \/ (queued (t_uid t0) g = [] /\ final_pubs (t_uid t0) (tr g) <> []).
Proof. exact never_lost. Qed.
Print Assumptions C05_never_lost.

(* a task that is no longer queued has a final state s: every final state
   published for it is s, s tells the truth (Oracle.truthful: DONE -> exit 0
   and no fault on its path; FAILED -> a fault of its own, a failed execution
   or a bulk-level fault; CANCELED -> cancel requested or timeout), and the
   client ends in s for EVERY delivery order of the notifications.
   _partial: liveness (queues are eventually served) is the hypothesis
   `queued u g = []`; bulk-level faults at the tmgr scheduler are excluded. *)
Theorem C05_one_truthful_final_partial :
  forall thr W evs t0, wf_workload W -> forallb calm evs = true -> In t0 W ->
    let g := run (mkP true thr) (init W) evs in
    let u := t_uid t0 in
    queued u g = [] ->
    exists s,
      fin_sts u (tr g) <> [] /\ (forall x, In x (fin_sts u (tr g)) -> x = s) /\
      truthful t0 (ev_cancels u evs) (ev_bulkf evs) s = true /\
      forall ns, Permutation (notifications u (tr g)) ns -> client_state ns = s.
Proof. exact one_truthful_final_partial. Qed.
Print Assumptions C05_one_truthful_final_partial.

(* without `calm` it fails (a recorded finding): work_cb fails every task of a
   bulk when the worker raises, also an early-bound one the tmgr scheduler has
   already forwarded, which is later published DONE as well *)
Theorem C05_one_truthful_final_refuted :
  exists W evs, wf_workload W /\
    let g := run (mkP true 1000) (init W) evs in
    toks g = [] /\ fin_sts 1 (tr g) = [T_FAILED; T_DONE].
Proof. exact one_truthful_final_refuted. Qed.
Print Assumptions C05_one_truthful_final_refuted.

(* a task with no fault of its own, exit code 0 and no cancel request ends
   DONE, whatever the other tasks, their faults, the bulks and the schedule *)
Theorem C05_fault_isolation :
  forall thr W evs t0, wf_workload W -> forallb calm evs = true -> In t0 W ->
    let g := run (mkP true thr) (init W) evs in
    let u := t_uid t0 in
    queued u g = [] ->
    any_fault t0 = false -> f_exec (t_f t0) = XExit 0 ->
    ev_cancels u evs = false -> ev_bulkf evs = false ->
    forall x, In x (fin_sts u (tr g)) -> x = T_DONE.
Proof. exact fault_isolation. Qed.
Print Assumptions C05_fault_isolation.

(* the executor station releases the slots of every task it receives exactly
   once (AGENT_UNSCHEDULE_PUBSUB), whatever the outcome -- including a task
   removed by the cancel filter at the intake, which is published CANCELED and
   then released *)
Theorem C05_aexec_intake_cancel_releases :
  forall P cl B bf t, NoDup (map t_uid B) -> In t B -> zmem (t_uid t) cl = true ->
    proj (t_uid t) (snd (work_cb CAExec P cl B bf)) = [pubf (cancel t); Unsched (t_uid t)].
Proof. exact aexec_intake_cancel_releases. Qed.
Print Assumptions C05_aexec_intake_cancel_releases.

Theorem C05_aexec_releases_once :
  forall P cl B bf t, NoDup (map t_uid B) -> In t B ->
    releases_of (proj (t_uid t) (snd (work_cb CAExec P cl B bf))) = 1%nat.
Proof. exact aexec_releases_once. Qed.
Print Assumptions C05_aexec_releases_once.

(* ---- staging: when does a directive succeed (Pipeline.Stage: the local
   backend over an abstract file tree), and what DONE says about it ---- *)
(* a directive that succeeds found its source and leaves its target *)
Theorem C05_directive_sound :
  forall tr d tr', sd_src d <> sd_tgt d -> apply_sd tr d = Some tr' ->
    present (get (sd_src d) tr) = true /\
    (is_tar d = false -> present (get (sd_tgt d) tr') = true).
Proof. exact apply_sd_sound. Qed.
Print Assumptions C05_directive_sound.

(* every directive of a list that succeeds, at the moment it is enacted *)
Theorem C05_directive_list_sound :
  forall l tr tr', distinct_ends l -> run_sds tr l = Some tr' ->
    forall a d b, l = a ++ d :: b ->
      exists ta tb, run_sds tr a = Some ta /\ apply_sd ta d = Some tb /\
        present (get (sd_src d) ta) = true /\ (is_tar d = false -> present (get (sd_tgt d) tb) = true).
Proof. exact run_sds_sound. Qed.
Print Assumptions C05_directive_list_sound.

(* a stager that hands the task on ran all the directives it enacts, and
   (tmgr stage-in) found every source it packs *)
Theorem C05_stage_ok_enacted :
  forall c tr l, stage_ok c tr l = true ->
    (exists tr', run_sds tr (enacted c l) = Some tr') /\
    forall d, In d (packed c l) -> present (get (sd_src d) tr) = true.
Proof. exact stage_ok_enacted. Qed.
Print Assumptions C05_stage_ok_enacted.

(* a truthful DONE means: the staging of all four stagers succeeded *)
Theorem C05_done_implies_staged :
  forall u b soe fa fo fs fx tin ain aout tout creq bulkf,
    truthful (staged_task u b soe fa fo fs fx tin ain aout tout) creq bulkf T_DONE = true ->
    stage_ok CTIn (sp_tr tin) (sp_l tin) = true /\ stage_ok CAIn (sp_tr ain) (sp_l ain) = true /\
    stage_ok CAOut (sp_tr aout) (sp_l aout) = true /\ stage_ok CTOut (sp_tr tout) (sp_l tout) = true.
Proof. exact done_implies_staged. Qed.
Print Assumptions C05_done_implies_staged.

(* for every workload, fault placement and delivery schedule: a task whose
   final state is DONE had all its staging succeed *)
Theorem C05_done_means_staging_succeeded :
  forall thr W evs u b soe fa fo fs fx tin ain aout tout,
    let t0 := staged_task u b soe fa fo fs fx tin ain aout tout in
    wf_workload W -> forallb calm evs = true -> In t0 W ->
    let g := run (mkP true thr) (init W) evs in
    queued u g = [] ->
    (forall x, In x (fin_sts u (tr g)) -> x = T_DONE) ->
    stage_ok CTIn (sp_tr tin) (sp_l tin) = true /\ stage_ok CAIn (sp_tr ain) (sp_l ain) = true /\
    stage_ok CAOut (sp_tr aout) (sp_l aout) = true /\ stage_ok CTOut (sp_tr tout) (sp_l tout) = true.
Proof. exact done_means_staging_succeeded. Qed.
Print Assumptions C05_done_means_staging_succeeded.

(* non-vacuity of the staging model: link of a missing source fails, link of
   a file onto a free name succeeds, a second move of the same source fails *)
Example C05_staging_nonvacuous :
  stage_ok CAOut [] [mkSD ALink 1 51] = false /\
  stage_ok CAOut [(1, KFile)] [mkSD ALink 1 51] = true /\
  stage_ok CAIn [(1, KFile); (12, KDir [])] [mkSD AMove 1 12; mkSD AMove 1 12] = false /\
  run_stage CAIn [(1, KFile); (12, KDir [])] [mkSD ACopy 1 12; mkSD AMove 1 51]
  = Some [(1, KAbsent); (51, KFile); (12, KDir [1]); (1, KFile); (12, KDir [])].
Proof. vm_compute. repeat split; reflexivity. Qed.

(* the client, any delivery order *)
Theorem C05_client_any_order :
  forall u es s ns,
    fin_sts u es <> [] -> forallb (tstate_beq s) (fin_sts u es) = true ->
    Permutation (notifications u es) ns -> client_state ns = s.
Proof. exact client_any_order. Qed.
Print Assumptions C05_client_any_order.

(* non-vacuity: three tasks (clean; tmgr input staging error; non-zero exit
   with stage_on_error), a cancel request for a fourth at the executor,
   bulks of two, drained: DONE, FAILED, FAILED, CANCELED *)
Example C05_nonvacuous :
  let D := mkD PNone true true true true true in
  let W := [ fresh 1 D (mkF false false false SStart (XExit 0) false false false);
             fresh 2 D (mkF false true false SStart (XExit 0) false false false);
             fresh 3 D (mkF false false false SStart (XExit 2) false false false);
             fresh 4 (mkD PKnown false false false false false)
                     (mkF false false false SStart (XExit 0) false false false) ] in
  let evs := ECancel CAExec 4
             :: flat_map (fun c => [EDeliver c 2 false; EDeliver c 2 false])
                  [CTSched; CTIn; CA0In; CAIn; CASched; CAExec; CAOut; CA0Out; CTOut] in
  let g := run (mkP true 1000) (init W) evs in
  forallb calm evs = true /\ toks g = [] /\
  map (fun u => fin_sts u (tr g)) [1; 2; 3; 4]
  = [[T_DONE; T_DONE]; [T_FAILED]; [T_FAILED]; [T_CANCELED]].
Proof. vm_compute. repeat split; reflexivity. Qed.

(* ---- executor side: the thread interleavings which the pipeline model
   abstracts (station CAExec as one step) ----
   RP.Exec.Model: the Popen executor as four interleaved threads.  For every
   scenario and EVERY schedule, at quiescence every received task has been
   handed on exactly once (staged with its outcome, FAILED or CANCELED), never
   both collected and canceled; it is CANCELED only if a cancel request named
   it or it has a run-time limit; otherwise FAILED exactly when its launch
   fails and collected with its process' exit code exactly once if not. *)
Module ExecSide.
Import RP.Exec.Model RP.Exec.Oracle RP.Exec.CancelProofs.
Theorem C05_executor_one_truthful_handover :
  forall (sc : scenario) (sched : list choice) (s : state) (tr : list stepobs) (u : Z),
    NoDup (delivered sc) -> In u (delivered sc) -> run (init sc) sched = (s, tr) -> quiescent s = true ->
    let ems := emissions tr in
    n_hand u ems = 1%nat /\
    ~ (0 < n_collected u ems /\ 0 < n_canceled u ems)%nat /\
    (mem u (named sc) = false -> has_limit sc u = false ->
     n_canceled u ems = 0%nat /\
     match fault_of sc u with
     | FNone => n_collected u ems = 1%nat /\ n_adv SFailed u ems = 0%nat
     | _ => n_adv SFailed u ems = 1%nat /\ n_collected u ems = 0%nat
     end).
Proof. exact one_truthful_handover. Qed.
Print Assumptions C05_executor_one_truthful_handover.
End ExecSide.

(* ---- raptor relay of the agent scheduler: tasks with a raptor_id are not
   scheduled but forwarded to raptor masters, or kept in a backlog until a
   master registers (station CASched of the pipeline model handles them as any
   other task; this is what really happens to them) ----
   RP.Relay.Model: work / _schedule_incoming / control_cb(register_raptor_queue,
   unregister_raptor_queue, cancel_tasks; for a cancel request preceded by
   BaseComponent._control_cb, which registers the uids on the cancel list) as a
   state machine over the scheduler queue, the registered queues, the backlog,
   the cancel list and the set of unregistered names.  All statements are about
   EVERY history of operations. *)
Module RelaySide.
Import RP.Relay.Model RP.Relay.Oracle RP.Relay.Proofs RP.Relay.History RP.Relay.OracleProofs.
Open Scope Z_scope.

(* handed on exactly once: at every moment the raptor tasks called u that have
   arrived are, with multiplicity, on the scheduler queue, in a backlog,
   forwarded, failed or canceled -- none lost, none doubled *)
Theorem C05_relay_conservation :
  forall ops u s e, run init ops = (s, e) ->
    n_arr u ops = (n_inq u s + tot u (backlog s) + n_fwd u e + n_fail u e + n_cancel u e)%nat.
Proof. exact conservation. Qed.
Print Assumptions C05_relay_conservation.

(* for a uid that arrived once: exactly one of the five counts is 1, the others are 0 *)
Theorem C05_relay_exactly_one_place :
  forall ops u s e, run init ops = (s, e) -> n_arr u ops = 1%nat ->
    exists a b, [n_inq u s; tot u (backlog s); n_fwd u e; n_fail u e; n_cancel u e] = a ++ 1%nat :: b
                /\ Forall (fun x => x = 0%nat) (a ++ b).
Proof. exact exactly_one_place. Qed.
Print Assumptions C05_relay_exactly_one_place.

(* never forwarded more often than it arrived: at most once, to one queue *)
Theorem C05_relay_never_forwarded_twice :
  forall ops u s e, run init ops = (s, e) -> (n_fwd u e <= n_arr u ops)%nat.
Proof. exact never_forwarded_twice. Qed.
Print Assumptions C05_relay_never_forwarded_twice.

(* one final state: a task (a uid that arrives at most once) that was failed or
   canceled has not been forwarded and is not forwarded, failed or canceled
   again in any continuation *)
Theorem C05_relay_no_forward_after_final :
  forall ops1 ops2 u s1 e1 s2 e2,
    run init ops1 = (s1, e1) -> run s1 ops2 = (s2, e2) ->
    (n_arr u (ops1 ++ ops2) <= 1)%nat -> (0 < n_fail u e1 + n_cancel u e1)%nat ->
    n_fwd u (e1 ++ e2) = 0%nat /\ (n_fail u (e1 ++ e2) + n_cancel u (e1 ++ e2) = 1)%nat.
Proof. exact no_forward_after_final. Qed.
Print Assumptions C05_relay_no_forward_after_final.

(* in every reachable state the keys of both dicts are unique, a registered
   name has no backlog, no wildcard backlog exists while a queue is
   registered, and a name that has unregistered has neither backlog nor queue:
   nobody waits for a master that is there, nobody for one that has gone *)
Theorem C05_relay_nobody_waits_for_a_registered_master :
  forall ops s e, run init ops = (s, e) ->
    NoDup (map fst (backlog s)) /\ NoDup (map fst (queues s)) /\
    (forall n, alook n (queues s) <> None -> alook n (backlog s) = None) /\
    (queues s <> [] -> alook star (backlog s) = None) /\
    (forall n, In n (gone s) -> alook n (backlog s) = None /\ alook n (queues s) = None).
Proof. exact reachable_spec. Qed.
Print Assumptions C05_relay_nobody_waits_for_a_registered_master.

(* Register: the complete backlog of the name, then that of the wildcard, go
   to the new queue; nothing of them is left behind; the rest is untouched; the
   name is no longer gone *)
Theorem C05_relay_register_relays_all :
  forall ops s0 e0 n q, run init ops = (s0, e0) ->
    let '(s', e) := step s0 (Register n q) in
    e = (match alook n (backlog s0) with Some l => [OPut q l] | None => [] end)
        ++ (if n =? star then [] else match alook star (backlog s0) with Some l => [OPut q l] | None => [] end)
    /\ backlog s' = without [n; star] (backlog s0)
    /\ alook n (backlog s') = None /\ alook star (backlog s') = None
    /\ (forall k, k <> n -> k <> star -> alook k (backlog s') = alook k (backlog s0))
    /\ inq s' = inq s0 /\ alook n (queues s') = Some q
    /\ gone s' = gdel n (gone s0) /\ clist s' = clist s0.
Proof. exact register_relays_all_hist. Qed.
Print Assumptions C05_relay_register_relays_all.

(* Unregister: exactly the backlog of that name fails (FAILED, 'raptor gone'),
   in order; name and backlog are forgotten and the name is remembered as gone;
   an unknown name adds a warning *)
Theorem C05_relay_unregister_fails_exactly :
  forall ops s0 e0 n, run init ops = (s0, e0) ->
    let '(s', e) := step s0 (Unregister n) in
    e = (match alook n (queues s0) with None => [OWarn n] | Some _ => [] end) ++ map OFail (key_list n (backlog s0))
    /\ backlog s' = without [n] (backlog s0) /\ queues s' = without [n] (queues s0)
    /\ alook n (backlog s') = None /\ alook n (queues s') = None
    /\ (forall k, k <> n -> alook k (backlog s') = alook k (backlog s0))
    /\ inq s' = inq s0 /\ gone s' = gadd n (gone s0) /\ clist s' = clist s0.
Proof. exact unregister_fails_exactly_hist. Qed.
Print Assumptions C05_relay_unregister_fails_exactly.

(* "reaches a final state while its pilot is alive", masters that have gone:
   for every history, if the last registration event of name n is an
   unregistration, nothing waits for n (and n is not registered) ... *)
Theorem C05_relay_no_wait_for_gone_master :
  forall ops n s e, run init ops = (s, e) -> gone_hist n ops false = true ->
    alook n (backlog s) = None /\ alook n (queues s) = None.
Proof. exact no_wait_for_gone_master. Qed.
Print Assumptions C05_relay_no_wait_for_gone_master.

(* ... because the next drain fails what arrives for it: a drain handles under
   name n exactly the raptor tasks for n on the scheduler queue, in order
   (C05_relay_drain_sorts_by_name), and what it has collected for a name that
   has unregistered (the wildcard: while no queue is registered) is failed
   ('raptor gone') -- tasks named by a cancel request are canceled instead --
   and nothing is kept for it (C05_relay_gone_group_fails) *)
Theorem C05_relay_drain_sorts_by_name :
  forall n ts, alook n (collect ts) = match for_name n ts with [] => None | l => Some l end.
Proof. exact drain_sorts_by_name. Qed.
Print Assumptions C05_relay_drain_sorts_by_name.

Theorem C05_relay_gone_group_fails :
  forall qs gn bl cl n us,
    alook n qs = None -> zmem n gn = true -> (is_nil qs || negb (n =? star)) = true ->
    fwd_group qs gn bl cl n us = let '(k, cl', o0) := sift cl us in (bl, cl', o0 ++ map OFail k).
Proof. exact gone_group_fails. Qed.
Print Assumptions C05_relay_gone_group_fails.

(* what still waits waits for a master that has never registered nor
   unregistered (the wildcard: for any master, while none is registered) ... *)
Theorem C05_relay_waits_only_for_unknown_master :
  forall ops n s e, run init ops = (s, e) -> alook n (backlog s) <> None -> touched n ops = false.
Proof. exact waits_only_for_unknown_master. Qed.
Print Assumptions C05_relay_waits_only_for_unknown_master.

(* ... and for those the statement stays PARTIAL: such a task keeps waiting,
   whatever else arrives, is drained, registers or unregisters, until that very
   name registers (it is relayed) or unregisters (it is failed) or a request
   names it (it is canceled).  That the master named by the application comes
   is the application's part. *)
Theorem C05_relay_waits_until_registered_partial :
  forall ops s s' e n l,
    run s ops = (s', e) -> forallb (leaves_alone n) ops = true -> n <> star ->
    alook n (backlog s) = Some l -> exists l', alook n (backlog s') = Some (l ++ l').
Proof. exact waits_until_registered_again. Qed.
Print Assumptions C05_relay_waits_until_registered_partial.

(* the clauses evaluated on the traces of the real code hold of the model's
   trace of every history *)
Theorem C05_relay_clauses_hold_in_model :
  forall ops, forallb (fun b => b) (relay_row ops (trace init ops)) = true.
Proof. exact clauses_hold_in_model. Qed.
Print Assumptions C05_relay_clauses_hold_in_model.

(* non-vacuity: wildcard tasks wait, the first master gets them, a second
   master and a re-registration get nothing; a named task for a master that
   never comes waits; seen tasks and workers are scheduled here; after master 2
   unregistered a task for it is failed by the next drain *)
Example C05_relay_nonvacuous :
  let t u n := mkT u (Some n) false false in
  run init [Arrive [t 1 0; t 2 0; t 3 5; mkT 4 (Some 1) true false; mkT 5 (Some 1) false true]; Drain;
            Register 1 1; Register 2 2; Register 1 3; Arrive [t 6 0; t 7 0; t 8 0]; Drain; Unregister 5;
            Unregister 2; Arrive [t 9 2; t 10 1]; Drain]
  = (mkS [] [(1, 3)] [] [] [5; 2],
     [OSched [4; 5]; OPut 1 [1; 2]; OPut1 3 6; OPut1 2 7; OPut1 3 8; OWarn 5; OFail 3; OFail 9; OPut 3 [10]]).
Proof. vm_compute. reflexivity. Qed.
End RelaySide.
