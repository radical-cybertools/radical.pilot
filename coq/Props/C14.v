(* C14 -- pilot states move forward (part a: client side, RP.States) and end
   for the right reason (part b: Agent_0's termination cause, RP.AgentCause;
   part c, module LaunchSide: a failed launch, RP.PilotLaunch).
   Proofs here cite the group's lemmas or compute on the model; what needs an
   induction stands in the group. *)
From Coq Require Import ZArith List.
From RP Require Import Gen.StatesTables States.Model States.Proofs States.Inst.
From RP Require Import AgentCause.Model AgentCause.Proofs.
From RP Require PilotLaunch.Model PilotLaunch.Proofs PilotLaunch.Oracle.
Import ListNotations.
Open Scope Z_scope.

Notation ppchain := (pchain pstate_beq P_DONE P_FAILED P_CANCELED pvalue).

(* as C06_tables_wf, for the pilot state tables *)
Theorem C14_tables_wf : wf pstate_beq P_DONE P_FAILED P_CANCELED pvalue pinv ptop.
Proof. exact p_wf. Qed.
Print Assumptions C14_tables_wf.

(* For every sequence of notifications and every known pilot: the states
   its callbacks see form a chain in which every step either repeats the
   current state or leaves a non-final state for the next state of the model
   or FAILED/CANCELED; Pilot.state is the end of that chain. *)
Theorem C14_observed_progression :
  forall (ns : list (Z * pstate)) (t : tasks) (p : Z) (cur : pstate),
    lookup p t = Some cur ->
    ppchain cur (proj p (snd (fst (p_run t ns)))) /\
    lookup p (fst (fst (p_run t ns))) =
      Some (last_of cur (proj p (snd (fst (p_run t ns))))).
Proof. exact (pilot_history_chain _ _ _ _ _ _ _ p_wf). Qed.
Print Assumptions C14_observed_progression.

(* a step never goes back, and never leaves a final state *)
Theorem C14_never_back :
  forall p s : pstate,
    pstep_ok pstate_beq P_DONE P_FAILED P_CANCELED pvalue p s -> pvalue p <= pvalue s.
Proof. exact (pstep_le _ _ _ _ _ _ _ p_wf). Qed.
Print Assumptions C14_never_back.

Theorem C14_final_never_left :
  forall p s : pstate,
    pstep_ok pstate_beq P_DONE P_FAILED P_CANCELED pvalue p s -> p_is_final p = true -> s = p.
Proof. exact (pstep_final _ _ _ _ _). Qed.
Print Assumptions C14_final_never_left.

(* a notification for an unknown pilot runs no callback and registers nothing *)
Theorem C14_unknown_ignored :
  forall (ns : list (Z * pstate)) (t : tasks) (p : Z),
    lookup p t = None ->
    proj p (snd (fst (p_run t ns))) = [] /\ lookup p (fst (fst (p_run t ns))) = None.
Proof. exact (pilot_unknown_ignored _ _ _ _ _ _ _ p_wf). Qed.
Print Assumptions C14_unknown_ignored.

(* as C06_oracle_sound *)
Theorem C14_oracle_sound :
  forall (ns : list pstate) (p : pstate),
    pchainb pstate_beq P_DONE P_FAILED P_CANCELED pvalue p ns = true <-> ppchain p ns.
Proof. exact (pchainb_spec _ _ _ _ _ _ _ p_wf). Qed.
Print Assumptions C14_oracle_sound.

Example C14_nonvacuous :
  p_run [(1, P_NEW)] [(1, P_PMGR_ACTIVE_PENDING); (7, P_DONE); (1, P_PMGR_ACTIVE_PENDING);
                      (1, P_DONE); (1, P_PMGR_ACTIVE); (1, P_FAILED)]
  = ([(1, P_DONE)],
     [(1, P_PMGR_LAUNCHING_PENDING); (1, P_PMGR_LAUNCHING); (1, P_PMGR_ACTIVE_PENDING);
      (1, P_PMGR_ACTIVE_PENDING); (1, P_PMGR_ACTIVE); (1, P_DONE)],
     [ValueError]).
Proof. vm_compute. reflexivity. Qed.

(* ---------------- part b: the final state tells why the pilot ended ---------------- *)

(* For every sequence of lifetime checks, cancel requests and terminate
   commands handled by the agent, the state written at shutdown is the
   declarative reading `spec_final` (AgentCause/Model.v). *)
Theorem C14_final_state_spec : forall es : list aev, agent_final es = spec_final es.
Proof. exact agent_final_spec. Qed.
Print Assumptions C14_final_state_spec.

(* ran until its requested run time (then stop()/terminate in any number): DONE *)
Theorem C14_timeout_done : forall a b : list aev,
  forallb (fun e => match e with Lifetime true true | CancelPilots true => false | _ => true end) b = true ->
  agent_final (a ++ Lifetime true true :: b) = F_DONE.
Proof.
  intros a b H. rewrite agent_final_spec. unfold spec_final.
  rewrite last_setter_app. simpl. rewrite (last_setter_no _ _ H). reflexivity.
Qed.
Print Assumptions C14_timeout_done.

(* canceled by request; whatever stop()/terminate follows: CANCELED *)
Theorem C14_cancel_canceled : forall a b : list aev,
  forallb (fun e => match e with Lifetime true true | CancelPilots true => false | _ => true end) b = true ->
  agent_final (a ++ CancelPilots true :: b) = F_CANCELED.
Proof.
  intros a b H. rewrite agent_final_spec. unfold spec_final.
  rewrite last_setter_app. simpl. rewrite (last_setter_no _ _ H). reflexivity.
Qed.
Print Assumptions C14_cancel_canceled.

(* neither run time reached, nor canceled, nor told to terminate: FAILED *)
Theorem C14_otherwise_failed : forall es : list aev,
  forallb (fun e => negb (is_terminating e)) es = true -> agent_final es = F_FAILED.
Proof. intros es H. unfold agent_final, arun. rewrite (fold_idle es H). reflexivity. Qed.
Print Assumptions C14_otherwise_failed.

Example C14_cause_nonvacuous :
  agent_final [Lifetime true false; CancelPilots false; Lifetime true true; Terminate] = F_DONE /\
  agent_final [CancelPilots true; Terminate] = F_CANCELED /\
  agent_final [Lifetime false true; CancelPilots false] = F_FAILED.
Proof. vm_compute. auto. Qed.

(* part c: the launching component of the pilot manager.  A bulk of pilots is
   sorted into buckets by (resource, access schema) and every bucket is launched
   on its own; the pilots of a bucket whose launch raises are advanced FAILED.
   (`proj` is PilotLaunch.Model.proj from here on, States.Model.proj above.) *)
Module LaunchSide.
Import PilotLaunch.Model PilotLaunch.Proofs PilotLaunch.Oracle.

(* For every bulk (pilot uids distinct), every set of cancel requests seen
   before and every choice of buckets whose launch fails: a pilot of the bulk
   is told exactly CANCELED (a cancel request was seen), or PMGR_LAUNCHING and
   then PMGR_ACTIVE_PENDING or FAILED -- decided by ITS OWN bucket alone. *)
Theorem C14_launch_per_pilot :
  forall (cancelled : list Z) (fails : Z -> Z -> bool) (ps : list lp) (p : lp),
    NoDup (uids ps) -> In p ps ->
    proj (lp_uid p) (work cancelled fails ps) =
      if zmem (lp_uid p) cancelled then [LCanceled]
      else [LLaunching; bucket_state fails (lp_res p) (lp_sch p)].
Proof. exact work_per_pilot. Qed.
Print Assumptions C14_launch_per_pilot.

(* a pilot is told FAILED by the launcher iff the launch of ITS bucket failed *)
Theorem C14_launch_failed_iff_own_bucket :
  forall (cancelled : list Z) (fails : Z -> Z -> bool) (ps : list lp) (p : lp),
    NoDup (uids ps) -> In p ps ->
    (In LFailed (proj (lp_uid p) (work cancelled fails ps)) <->
     zmem (lp_uid p) cancelled = false /\ fails (lp_res p) (lp_sch p) = true).
Proof.
  intros cancelled fails ps p Hnd Hin. rewrite (work_per_pilot _ _ _ _ Hnd Hin). unfold bucket_state.
  destruct (zmem (lp_uid p) cancelled), (fails (lp_res p) (lp_sch p)); simpl; intuition congruence.
Qed.
Print Assumptions C14_launch_failed_iff_own_bucket.

(* the failure of another bucket of the bulk changes nothing for a pilot *)
Theorem C14_launch_independent_of_other_buckets :
  forall (cancelled : list Z) (f1 f2 : Z -> Z -> bool) (ps : list lp) (p : lp),
    NoDup (uids ps) -> In p ps -> f1 (lp_res p) (lp_sch p) = f2 (lp_res p) (lp_sch p) ->
    proj (lp_uid p) (work cancelled f1 ps) = proj (lp_uid p) (work cancelled f2 ps).
Proof.
  intros cancelled f1 f2 ps p Hnd Hin E. rewrite !(work_per_pilot _ _ _ _ Hnd Hin). unfold bucket_state.
  rewrite E. reflexivity.
Qed.
Print Assumptions C14_launch_independent_of_other_buckets.

Example C14_launch_nonvacuous :
  let ps := [mkLP 1 10 0; mkLP 2 11 0; mkLP 3 10 1; mkLP 4 10 0; mkLP 5 11 0] in
  work [4] (fails_of [(11, 0)]) ps =
    [([4], LCanceled); ([1; 2; 3; 5], LLaunching);
     ([1], LActivePending); ([3], LActivePending); ([2; 5], LFailed)]
  /\ NoDup (uids ps).
Proof. split; [vm_compute; reflexivity|]. repeat constructor; simpl; intuition discriminate. Qed.
End LaunchSide.

