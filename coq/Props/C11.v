(* C11 -- staging directives move the named data to the named place.
   Proofs here cite the lemmas of RP.Staging.Proofs or compute on the model
   (short forms, URL cases); what needs an induction stands there.
   The model is RP.Staging.Model (expand_description,
   complete_url, the Local staging backend and the four stager components). *)
From Coq Require Import ZArith List Bool String Ascii Permutation.
From RP Require Import Staging.Model Staging.Proofs.
Import ListNotations.
Open Scope string_scope.
Open Scope list_scope.

(* ---- expansion of directives (Task.__init__ -> expand_description) ---- *)

(* expanding an already expanded list changes nothing (sources being non-empty;
   a short form such as "> b" expands to an empty source, which the dict branch
   of the code rejects on the second call) *)
Theorem C11_expand_idempotent :
  forall (l : list sdin) (l' : list sd),
    expand l = inr l' -> forallb (fun d => nonempty (s_src d)) l' = true ->
    expand (map as_dict l') = inr l'.
Proof. exact (fun l l' _ H => expand_as_dict l' H). Qed.
Print Assumptions C11_expand_idempotent.

(* meaning of the short forms, for any texts a, b free of '<' and '>':
   "a > b", "a >> b", "b < a", "b << a" all mean: transfer a to b.
   expand1 tries ">>", ">", "<<", "<" in this order, so a "<" form also has to
   be free of ">" *)
Theorem C11_short_form_gt :
  forall a b, plain a = true -> plain b = true ->
    expand1 (SStr (a +++ ">" +++ b)) = inr {| s_src := strip a; s_tgt := strip b; s_act := Transfer |}.
Proof.
  intros a b Ha Hb. destruct (andb_prop _ _ Ha) as [Ga _], (andb_prop _ _ Hb) as [Gb _]. unfold expand1.
  rewrite (contains_single ">"%char a b Ga Gb), (contains_app ">"%char "" a b Ga), (py_split2_app ">"%char "" a b Ga Gb). reflexivity.
Qed.
Print Assumptions C11_short_form_gt.

Theorem C11_short_form_gtgt :
  forall a b, plain a = true -> plain b = true ->
    expand1 (SStr (a +++ ">>" +++ b)) = inr {| s_src := strip a; s_tgt := strip b; s_act := Transfer |}.
Proof.
  intros a b Ha Hb. destruct (andb_prop _ _ Ha) as [Ga _], (andb_prop _ _ Hb) as [Gb _]. unfold expand1.
  rewrite (contains_app ">"%char ">" a b Ga), (py_split2_app ">"%char ">" a b Ga Gb). reflexivity.
Qed.
Print Assumptions C11_short_form_gtgt.

Theorem C11_short_form_lt :
  forall a b, plain a = true -> plain b = true ->
    expand1 (SStr (b +++ "<" +++ a)) = inr {| s_src := strip a; s_tgt := strip b; s_act := Transfer |}.
Proof.
  intros a b Ha Hb. destruct (andb_prop _ _ Ha) as [Ga La], (andb_prop _ _ Hb) as [Gb Lb]. unfold expand1.
  pose proof (nochar_mid ">"%char "<"%char b a eq_refl Gb Ga "<" eq_refl) as Hn.
  rewrite (contains_nochar ">"%char ">" _ Hn), (contains_nochar ">"%char "" _ Hn), (contains_single "<"%char b a Lb La).
  rewrite (contains_app "<"%char "" b a Lb), (py_split2_app "<"%char "" b a Lb La). reflexivity.
Qed.
Print Assumptions C11_short_form_lt.

Theorem C11_short_form_ltlt :
  forall a b, plain a = true -> plain b = true ->
    expand1 (SStr (b +++ "<<" +++ a)) = inr {| s_src := strip a; s_tgt := strip b; s_act := Transfer |}.
Proof.
  intros a b Ha Hb. destruct (andb_prop _ _ Ha) as [Ga La], (andb_prop _ _ Hb) as [Gb Lb]. unfold expand1.
  pose proof (nochar_mid ">"%char "<"%char b a eq_refl Gb Ga "<<" eq_refl) as Hn.
  rewrite (contains_nochar ">"%char ">" _ Hn), (contains_nochar ">"%char "" _ Hn).
  rewrite (contains_app "<"%char "<" b a Lb), (py_split2_app "<"%char "<" b a Lb La). reflexivity.
Qed.
Print Assumptions C11_short_form_ltlt.

(* no operator: the target is the base name of the source's URL path *)
Theorem C11_short_form_plain :
  forall a, plain a = true ->
    expand1 (SStr a) = inr {| s_src := strip a; s_tgt := strip (url_basename a); s_act := Transfer |}.
Proof.
  intros a Ha. destruct (andb_prop _ _ Ha) as [Ga La]. unfold expand1.
  rewrite (contains_nochar ">"%char ">" _ Ga), (contains_nochar ">"%char "" _ Ga).
  rewrite (contains_nochar "<"%char "<" _ La), (contains_nochar "<"%char "" _ La). reflexivity.
Qed.
Print Assumptions C11_short_form_plain.

(* ---- URL resolution (complete_url) ---- *)

(* schema:///path, schema known to the context: context[schema] ++ "/" ++ path *)
Theorem C11_url_sandbox :
  forall ctx sch base p,
    nochar ":"%char sch = true -> nonempty sch = true -> String.eqb sch "file" = false ->
    assoc sch ctx = Some base ->
    exists r, complete_url ctx (sch +++ ":///" +++ p) = inr r /\
              r_comps r = p_comps (u_path base) ++ comps_of p /\ r_schema r = u_schema base /\ r_empty r = false.
Proof.
  intros ctx sch base p Hc Hn Hf Ha. unfold complete_url.
  change (sch +++ ":///" +++ p) with (sch +++ "://" +++ (String slash p)).
  rewrite (parse_url_schema sch (String slash p) Hc).
  change (split_at "/" (String slash p)) with (Some (EmptyString, p)).
  cbn [u_schema u_host u_path]. rewrite Hn. rewrite Ha. cbn [nonempty String.eqb negb]. rewrite Hf.
  eexists. split; [reflexivity|]. cbn [r_comps r_schema r_empty parse_path p_comps]. auto.
Qed.
Print Assumptions C11_url_sandbox.

(* relative path: the stager's `pwd` entry ++ "/" ++ path *)
Theorem C11_url_relative :
  forall ctx raw base,
    contains "://" raw = false -> pre "/" raw = false -> nonempty raw = true ->
    assoc "pwd" ctx = Some base ->
    exists r, complete_url ctx raw = inr r /\
              r_comps r = p_comps (u_path base) ++ comps_of raw /\ r_schema r = u_schema base /\ r_empty r = false.
Proof.
  intros ctx raw base Hc Hp Hn Ha. unfold complete_url. rewrite (parse_url_plain raw Hc).
  cbn [u_schema u_host u_path nonempty String.eqb negb]. rewrite Hp. rewrite Ha.
  cbn [String.eqb Ascii.eqb Bool.eqb andb].
  eexists. split; [reflexivity|]. cbn [r_comps r_schema r_empty parse_path p_comps]. auto.
Qed.
Print Assumptions C11_url_relative.

(* absolute path: left as it is (no context has a 'file' entry) *)
Theorem C11_url_absolute :
  forall ctx raw,
    contains "://" raw = false -> pre "/" raw = true -> assoc "file" ctx = None ->
    exists r, complete_url ctx raw = inr r /\ r_comps r = comps_of raw /\ r_schema r = "file".
Proof.
  intros ctx raw Hc Hp Ha. unfold complete_url. rewrite (parse_url_plain raw Hc).
  cbn [u_schema u_host u_path nonempty String.eqb negb]. rewrite Hp. rewrite Ha.
  eexists. split; [reflexivity|]. cbn [rloc_of r_comps r_schema p_comps parse_path]. auto.
Qed.
Print Assumptions C11_url_absolute.

(* a host part in an expanded schema is an error (ValueError) *)
Theorem C11_url_host_rejected :
  forall ctx sch base h p,
    nochar ":"%char sch = true -> nonempty sch = true -> nochar "/"%char h = true -> nonempty h = true ->
    assoc sch ctx = Some base ->
    complete_url ctx (sch +++ "://" +++ h +++ "/" +++ p) = inl EValue.
Proof.
  intros ctx sch base h p Hc Hn Hs Hh Ha. unfold complete_url.
  rewrite (parse_url_schema sch (h +++ "/" +++ p) Hc).
  rewrite (split_at_app "/"%char "" h p Hs).
  cbn [u_schema u_host u_path]. rewrite Hn, Ha, Hh. reflexivity.
Qed.
Print Assumptions C11_url_host_rejected.

(* which sandbox each schema and each stager's `pwd` stands for: client-side
   input: sources relative to the client sandbox, targets to the task sandbox;
   client-side output the other way round; agent side: always the task sandbox,
   and no client:// there *)
Theorem C11_relative_defaults :
  forall sb,
    assoc "pwd" (tmgr_in_src sb) = Some (parse_url (sb_client sb)) /\
    assoc "pwd" (tmgr_in_tgt sb) = Some (parse_url (sb_task sb)) /\
    assoc "pwd" (tmgr_out_src sb) = Some (parse_url (sb_task sb)) /\
    assoc "pwd" (tmgr_out_tgt sb) = Some (parse_url (sb_client sb)) /\
    assoc "pwd" (agent_ctx sb) = Some (as_file (sb_task sb)) /\
    assoc "client" (agent_ctx sb) = None.
Proof. exact relative_defaults. Qed.
Print Assumptions C11_relative_defaults.

Theorem C11_sandbox_schemas :
  forall sb pwd,
    assoc "client" (tmgr_ctx sb pwd) = Some (parse_url (sb_client sb)) /\
    assoc "task" (tmgr_ctx sb pwd) = Some (parse_url (sb_task sb)) /\
    assoc "pilot" (tmgr_ctx sb pwd) = Some (parse_url (sb_pilot sb)) /\
    assoc "session" (tmgr_ctx sb pwd) = Some (parse_url (sb_session sb)) /\
    assoc "resource" (tmgr_ctx sb pwd) = Some (parse_url (sb_resource sb)) /\
    assoc "endpoint" (tmgr_ctx sb pwd) = Some (parse_url (sb_endpoint sb)) /\
    assoc "task" (agent_ctx sb) = Some (as_file (sb_task sb)) /\
    assoc "pilot" (agent_ctx sb) = Some (as_file (sb_pilot sb)) /\
    assoc "session" (agent_ctx sb) = Some (as_file (sb_session sb)) /\
    assoc "resource" (agent_ctx sb) = Some (as_file (sb_resource sb)) /\
    assoc "endpoint" (agent_ctx sb) = Some (as_file (sb_endpoint sb)) /\
    assoc "file" (tmgr_ctx sb pwd) = None /\ assoc "file" (agent_ctx sb) = None.
Proof. intros sb pwd. repeat split; reflexivity. Qed.
Print Assumptions C11_sandbox_schemas.

(* ---- one directive: every action of the Local backend ---- *)

(* transfer / copy / link / move that succeeds: the written path is the target
   (or target/basename(source) if the target is a directory), it holds the
   content the source had when the directive ran, no other file changed --
   except the source of a move *)
Theorem C11_action_staged :
  forall a s g fs fs' e,
    handle_sd a s g fs = Ok fs' e ->
    exists c, file_at (r_comps s) fs = Some c /\ file_at e fs' = Some c /\
              (e = r_comps g \/ e = r_comps g ++ [last (r_comps s) EmptyString]) /\
              (forall q, q <> e -> (is_move a = true -> q <> r_comps s) -> file_at q fs' = file_at q fs).
Proof. exact handle_sd_spec. Qed.
Print Assumptions C11_action_staged.

(* a directive that cannot be carried out destroys nothing (it may have
   created directories) *)
Theorem C11_failed_action_keeps_files :
  forall a s g fs fs', handle_sd a s g fs = Fail fs' -> forall q, file_at q fs' = file_at q fs.
Proof. intros a s g fs fs' H. pose proof (handle_sd_res a s g fs) as R. rewrite H in R. exact R. Qed.
Print Assumptions C11_failed_action_keeps_files.

(* the agent stagers resolve source and target in the agent context and then
   do exactly that *)
Theorem C11_agent_input_directive :
  forall t d fs fs' e,
    agent_in_step t d fs = Ok fs' e -> action_eqb (s_act d) Tarball = false ->
    exists s g, complete_url (agent_ctx (t_sb t)) (s_src d) = inr s /\
                complete_url (agent_ctx (t_sb t)) (agent_fix_tgt (s_src d) (s_tgt d) fs) = inr g /\
                op_spec (is_move (s_act d)) s g fs fs' e.
Proof. exact agent_in_step_spec. Qed.
Print Assumptions C11_agent_input_directive.

Theorem C11_agent_output_directive :
  forall t d fs fs' e,
    agent_out_step t d fs = Ok fs' e ->
    exists s g, complete_url (agent_ctx (t_sb t)) (s_src d) = inr s /\
                complete_url (agent_ctx (t_sb t)) (agent_fix_tgt (s_src d) (s_tgt d) fs) = inr g /\
                op_spec (is_move (s_act d)) s g fs fs' e.
Proof. exact agent_out_step_spec. Qed.
Print Assumptions C11_agent_output_directive.

(* ---- directive lists of any length ---- *)

(* input_staged (agent side; copy and link directives -- moves and tarballs are
   covered per directive above and by the correspondence): when the stager
   succeeds on a list with pairwise different targets (special case of the
   last-writer theorems below, which need no such hypothesis), every directive was
   carried out and every target still holds what was written to it *)
Theorem C11_input_staged_partial :
  forall t l fs,
    forallb keeps l = true -> files_only (agent_in_step t) l fs = true ->
    h_ok (agent_si_steps t l fs []) = true ->
    NoDup (map fst (h_log (agent_si_steps t l fs []))) ->
    List.length (h_log (agent_si_steps t l fs [])) = List.length l /\
    Forall (fun ec => file_at (fst ec) (h_fs (agent_si_steps t l fs [])) = Some (snd ec))
           (h_log (agent_si_steps t l fs [])).
Proof.
  intros t l fs Hk Hfo Hok Hnd. destruct (agent_input_last_writer t l fs Hk Hfo Hok) as [Hlen H].
  exact (conj Hlen (last_writer_persist _ _ _ H Hnd)).
Qed.
Print Assumptions C11_input_staged_partial.

Theorem C11_output_staged_partial :
  forall t l fs,
    forallb keeps l = true -> files_only (agent_out_step t) l fs = true ->
    h_ok (agent_so_steps t l fs []) = true ->
    NoDup (map fst (h_log (agent_so_steps t l fs []))) ->
    List.length (h_log (agent_so_steps t l fs [])) = List.length l /\
    Forall (fun ec => file_at (fst ec) (h_fs (agent_so_steps t l fs [])) = Some (snd ec))
           (h_log (agent_so_steps t l fs [])).
Proof.
  intros t l fs Hk Hfo Hok Hnd. destruct (agent_output_last_writer t l fs Hk Hfo Hok) as [Hlen H].
  exact (conj Hlen (last_writer_persist _ _ _ H Hnd)).
Qed.
Print Assumptions C11_output_staged_partial.

(* the same for the client-side TRANSFER loop (input and output), lists
   without a tarball and without a MOVE *)
Theorem C11_transfer_staged_partial :
  forall tar l fs,
    no_tar l = true -> files_only_rs l fs = true -> h_ok (copy_all tar l fs []) = true ->
    NoDup (map fst (h_log (copy_all tar l fs []))) ->
    List.length (h_log (copy_all tar l fs [])) = List.length l /\
    Forall (fun ec => file_at (fst ec) (h_fs (copy_all tar l fs [])) = Some (snd ec)) (h_log (copy_all tar l fs [])).
Proof.
  intros tar l fs Hk Hfo Hok Hnd. destruct (copy_all_last_writer tar l fs Hk Hfo Hok) as [Hlen H].
  exact (conj Hlen (last_writer_persist _ _ _ H Hnd)).
Qed.
Print Assumptions C11_transfer_staged_partial.

(* ---- overwrites: the last writer of a path determines its content ----
   No hypothesis on the targets (they may collide, the path may hold a file
   before): when the stager succeeds on a list of copy/link/transfer directives,
   every directive was carried out and every path holds what the LAST directive
   writing it put there (the content its source had when it ran, by
   C11_action_staged / C11_agent_*_directive); paths nobody wrote keep their
   content. *)
Theorem C11_input_last_writer :
  forall t l fs,
    forallb keeps l = true -> files_only (agent_in_step t) l fs = true ->
    h_ok (agent_si_steps t l fs []) = true ->
    List.length (h_log (agent_si_steps t l fs [])) = List.length l /\
    forall q, file_at q (h_fs (agent_si_steps t l fs [])) =
              match last_write q (h_log (agent_si_steps t l fs [])) with Some c => Some c | None => file_at q fs end.
Proof. exact agent_input_last_writer. Qed.
Print Assumptions C11_input_last_writer.

Theorem C11_output_last_writer :
  forall t l fs,
    forallb keeps l = true -> files_only (agent_out_step t) l fs = true ->
    h_ok (agent_so_steps t l fs []) = true ->
    List.length (h_log (agent_so_steps t l fs [])) = List.length l /\
    forall q, file_at q (h_fs (agent_so_steps t l fs [])) =
              match last_write q (h_log (agent_so_steps t l fs [])) with Some c => Some c | None => file_at q fs end.
Proof. exact agent_output_last_writer. Qed.
Print Assumptions C11_output_last_writer.

Theorem C11_transfer_last_writer :
  forall tar l fs,
    no_tar l = true -> files_only_rs l fs = true -> h_ok (copy_all tar l fs []) = true ->
    List.length (h_log (copy_all tar l fs [])) = List.length l /\
    forall q, file_at q (h_fs (copy_all tar l fs [])) =
              match last_write q (h_log (copy_all tar l fs [])) with Some c => Some c | None => file_at q fs end.
Proof. exact copy_all_last_writer. Qed.
Print Assumptions C11_transfer_last_writer.

(* non-vacuity of the above: two tasks, one after the other, copy different
   data to the same pilot:///shared/params.dat, a third directive replaces a
   file that existed before *)
Example C11_overwrite_nonvacuous :
  let '(_, fs', fin) := run_bulks
    [ [ {| ti_uid := "t0"; ti_sb := ex_sb "t0";
           ti_in := [ SDict (Some "client:///a.dat") (Some "pilot:///shared/params.dat") (Some Transfer) false ];
           ti_out := []; ti_soe := false; ti_outcome := DONE; ti_exec := []; ti_ops := [] |} ];
      [ {| ti_uid := "t1"; ti_sb := ex_sb "t1";
           ti_in := [ SDict (Some "client:///b.dat") (Some "pilot:///shared/params.dat") (Some Transfer) false;
                      SStr "a.dat > pilot:///sh.dat" ];
           ti_out := []; ti_soe := false; ti_outcome := DONE; ti_exec := []; ti_ops := [] |} ] ] ex_fs in
  ( file_at ["R"; "rsb"; "s1"; "p0"; "shared"; "params.dat"] fs',
    file_at ["R"; "rsb"; "s1"; "p0"; "sh.dat"] fs',
    map (fun t => (t_uid t, last (t_pub t) DONE)) fin )
  = ( Some (Plain 2), Some (Plain 1), [ ("t0", DONE); ("t1", DONE) ] ).
Proof. vm_compute. reflexivity. Qed.

(* ---- every directive creates the missing parents of its target when it runs ----
   The state the directive finds is arbitrary: whatever earlier directives or
   the payload moved away, removed or never created.  If the source is a file,
   nothing but directories -- present or MISSING -- lies on the way to the
   target and the target is free, then transfer, copy, link and move are carried
   out and the target holds the content of the source. *)
Theorem C11_staged_on_demand :
  forall a s g c fs,
    In a [Transfer; Copy; Link; Move] -> ready_file s g c fs ->
    exists fs', handle_sd a s g fs = Ok fs' (r_comps g) /\ file_at (r_comps g) fs' = Some c.
Proof. exact stage_on_demand. Qed.
Print Assumptions C11_staged_on_demand.

(* the same for a directory source (transfer / copy: cp -r, move: shutil.move):
   every file below the source is below the target afterwards, with its content *)
Theorem C11_directory_staged_on_demand :
  forall a s g fs,
    In a [Transfer; Copy; Move] -> ready_dir s g fs ->
    exists fs', handle_sd a s g fs = OkDir fs' (r_comps g) /\
                forall rel c, file_at (r_comps s ++ rel) fs = Some c -> file_at (r_comps g ++ rel) fs' = Some c.
Proof. exact dir_on_demand. Qed.
Print Assumptions C11_directory_staged_on_demand.

(* whenever a directive reports a directory result, the source was a directory
   when it ran and the whole tree is at the target (or in it, for a directory target) *)
Theorem C11_directory_action_staged :
  forall a s g fs fs' e,
    handle_sd a s g fs = OkDir fs' e ->
    exists fs1, mkdir_p (dirname_of g) fs = Some fs1 /\ is_dir (r_comps s) fs1 = true /\
                (e = r_comps g \/ e = r_comps g ++ [last (r_comps s) EmptyString]) /\
                forall rel c, file_at (r_comps s ++ rel) fs1 = Some c -> file_at (e ++ rel) fs' = Some c.
Proof. exact handle_sd_dir_spec. Qed.
Print Assumptions C11_directory_action_staged.

(* sequences of any length through one stager (the client's loop, copy_all): if
   every directive finds its source (with content c_i) and a free target when ITS
   turn comes, the whole sequence succeeds and each target holds the content of
   its source right after its directive -- no assumption on what the earlier
   directives did to the directories *)
Theorem C11_sequence_staged_on_demand :
  forall tar (l : list (rsd * content)) fs,
    ready_seq l fs -> h_ok (copy_all tar (map fst l) fs []) = true /\ staged_seq l fs.
Proof. exact seq_on_demand. Qed.
Print Assumptions C11_sequence_staged_on_demand.

(* the same for one directive of the agent stagers (the output stager also
   refuses a source that is not `file`, the input stager checks the target only) *)
Theorem C11_agent_output_on_demand :
  forall t d s g c fs,
    complete_url (agent_ctx (t_sb t)) (s_src d) = inr s ->
    complete_url (agent_ctx (t_sb t)) (agent_fix_tgt (s_src d) (s_tgt d) fs) = inr g ->
    r_schema s = "file" -> r_schema g = "file" -> In (s_act d) staged_actions -> ready_file s g c fs ->
    exists fs', agent_out_step t d fs = Ok fs' (r_comps g) /\ file_at (r_comps g) fs' = Some c.
Proof.
  intros t d s g c fs Hs Hg Hss Hsg Ha Hr. unfold agent_out_step. rewrite Hs, Hg, Hss, Hsg.
  exact (stage_on_demand _ _ _ _ _ Ha Hr).
Qed.
Print Assumptions C11_agent_output_on_demand.

Theorem C11_agent_input_on_demand :
  forall t d s g c fs,
    complete_url (agent_ctx (t_sb t)) (s_src d) = inr s ->
    complete_url (agent_ctx (t_sb t)) (agent_fix_tgt (s_src d) (s_tgt d) fs) = inr g ->
    r_schema g = "file" -> In (s_act d) staged_actions -> ready_file s g c fs ->
    exists fs', agent_in_step t d fs = Ok fs' (r_comps g) /\ file_at (r_comps g) fs' = Some c.
Proof. exact agent_in_on_demand. Qed.
Print Assumptions C11_agent_input_on_demand.

(* non-vacuity: two tasks, one after the other, through the same stagers:
   the first stages into pilot:///collect; the second moves that directory into
   its sandbox, stages into pilot:///collect again, its payload then removes
   the directory, and a third task stages into it once more *)
Example C11_on_demand_nonvacuous :
  let '(_, fs', fin) := run_bulks
    [ [ {| ti_uid := "t0"; ti_sb := ex_sb "t0"; ti_in := [];
           ti_out := [ SDict (Some "o.dat") (Some "pilot:///collect/o0.dat") (Some Copy) false ];
           ti_soe := false; ti_outcome := DONE; ti_exec := [ (["o.dat"], 5%Z) ]; ti_ops := [] |} ];
      [ {| ti_uid := "t1"; ti_sb := ex_sb "t1"; ti_in := [];
           ti_out := [ SDict (Some "pilot:///collect") (Some "task:///collected") (Some Move) false;
                       SDict (Some "o.dat") (Some "pilot:///collect/o1.dat") (Some Copy) false ];
           ti_soe := false; ti_outcome := DONE; ti_exec := [ (["o.dat"], 6%Z) ]; ti_ops := [] |} ];
      [ {| ti_uid := "t2"; ti_sb := ex_sb "t2"; ti_in := [];
           ti_out := [ SStr "o.dat > pilot:///collect/o2.dat" ];
           ti_soe := false; ti_outcome := DONE; ti_exec := [ (["o.dat"], 7%Z) ];
           ti_ops := [ XRm ["R"; "rsb"; "s1"; "p0"; "collect"] ] |} ] ] ex_fs in
  ( file_at ["R"; "rsb"; "s1"; "p0"; "t1"; "collected"; "o0.dat"] fs',
    file_at ["R"; "rsb"; "s1"; "p0"; "collect"; "o0.dat"] fs',
    file_at ["R"; "rsb"; "s1"; "p0"; "collect"; "o1.dat"] fs',
    file_at ["R"; "rsb"; "s1"; "p0"; "collect"; "o2.dat"] fs',
    map (fun t => (t_uid t, last (t_pub t) DONE)) fin )
  = ( Some (Plain 5), None, None, Some (Plain 7), [ ("t0", DONE); ("t1", DONE); ("t2", DONE) ] ).
Proof. vm_compute. reflexivity. Qed.

(* ---- the order given ----
   a list of directives is carried out in the order given: running l1 ++ l2 is
   running l1 and then l2 in the state l1 left, so a directive sees the effects
   of ALL earlier directives of its list *)
Theorem C11_order_given :
  forall step l1 l2 fs lg,
    steps step (l1 ++ l2) fs lg =
    if h_ok (steps step l1 fs lg)
    then steps step l2 (h_fs (steps step l1 fs lg)) (h_log (steps step l1 fs lg))
    else steps step l1 fs lg.
Proof. exact steps_app. Qed.
Print Assumptions C11_order_given.

(* TARBALL included: the directive unpacks the task's tarball where it stands
   in the list; right after it every member holds its content *)
Theorem C11_tarball_unpacked_in_place :
  forall t d fs fs' e,
    agent_in_step t d fs = Ok fs' e -> action_eqb (s_act d) Tarball = true ->
    exists m, file_at (sandbox_path t ++ [tar_name t]) fs = Some (Tar m) /\
              (NoDup (map fst m) -> forall p z, In (p, z) m -> file_at p fs' = Some (Plain z)).
Proof. exact tarball_in_place. Qed.
Print Assumptions C11_tarball_unpacked_in_place.

(* ... so that a later transfer / copy / link / move of a member, ready in the
   state the TARBALL directive left, is carried out: the two-directive list
   succeeds and the follower's target holds the member's content *)
Theorem C11_tarball_then_use :
  forall t d d2 s g z fs fs1 e m,
    agent_in_step t d fs = Ok fs1 e -> action_eqb (s_act d) Tarball = true ->
    file_at (sandbox_path t ++ [tar_name t]) fs = Some (Tar m) -> NoDup (map fst m) -> In (r_comps s, z) m ->
    complete_url (agent_ctx (t_sb t)) (s_src d2) = inr s ->
    complete_url (agent_ctx (t_sb t)) (agent_fix_tgt (s_src d2) (s_tgt d2) fs1) = inr g ->
    r_schema g = "file" -> In (s_act d2) staged_actions ->
    (file_at (r_comps s) fs1 = Some (Plain z) -> ready_file s g (Plain z) fs1) ->
    exists fs2, h_ok (steps (agent_in_step t) [d; d2] fs []) = true /\
                h_fs (steps (agent_in_step t) [d; d2] fs []) = fs2 /\
                file_at (r_comps g) fs2 = Some (Plain z).
Proof. exact tarball_then_use. Qed.
Print Assumptions C11_tarball_then_use.

(* non-vacuity: TARBALL a client file into the sandbox, LINK it, COPY it to the
   pilot sandbox, MOVE the link on -- one input list, in that order *)
Example C11_chain_nonvacuous :
  let '(_, fs', fin) := run_case
    [ {| ti_uid := "t0"; ti_sb := ex_sb "t0";
         ti_in := [ SDict (Some "client:///a.dat") (Some "task:///in/cfg.dat") (Some Tarball) false;
                    SDict (Some "task:///in/cfg.dat") (Some "task:///cfg.lnk") (Some Link) false;
                    SDict (Some "task:///in/cfg.dat") (Some "pilot:///shared/cfg.dat") (Some Copy) false;
                    SDict (Some "cfg.lnk") (Some "session:///kept.dat") (Some Move) false ];
         ti_out := []; ti_soe := false; ti_outcome := DONE; ti_exec := []; ti_ops := [] |} ] ex_fs in
  ( file_at ["R"; "rsb"; "s1"; "p0"; "t0"; "in"; "cfg.dat"] fs',
    file_at ["R"; "rsb"; "s1"; "p0"; "shared"; "cfg.dat"] fs',
    file_at ["R"; "rsb"; "s1"; "kept.dat"] fs',
    file_at ["R"; "rsb"; "s1"; "p0"; "t0"; "cfg.lnk"] fs',
    map (fun t => last (t_pub t) DONE) fin )
  = ( Some (Plain 1), Some (Plain 1), Some (Plain 1), None, [ DONE ] ).
Proof. vm_compute. reflexivity. Qed.

(* ---- content: staging preserves it ----
   A file is its content (the harness identifies a content id with the exact
   bytes: size and every byte).  Every task the agent input stager hands on
   (AGENT_SCHEDULING_PENDING) was staged successfully in some state fsx, and in
   the state its staging left every path holds what the LAST directive writing
   it put there -- the content its source had when that directive ran
   (C11_action_staged) -- and every other file is untouched.  Lists of
   copy/link directives on files, of any length; MOVE, TARBALL and directory
   trees are covered per directive (C11_action_staged,
   C11_tarball_unpacked_in_place + C11_tarball_members, C11_directory_action_staged)
   and in sequence by C11_order_given / C11_sequence_staged_on_demand. *)
Theorem C11_passed_input_has_content :
  forall l fs,
    let '(_, pushed, _) := handle_loop agent_si_handle (fun _ => [AGENT_SCHEDULING_PENDING]) l fs in
    Forall (fun t' => exists t0 fsx,
              In t0 l /\ t' = advance t0 AGENT_SCHEDULING_PENDING /\ h_ok (agent_si_handle t0 fsx) = true /\
              let ds := filter (has_action [Link; Copy; Move; Tarball]) (t_in t0) in
              (forallb keeps ds = true -> files_only (agent_in_step t0) ds fsx = true ->
               List.length (h_log (agent_si_handle t0 fsx)) = List.length ds /\
               forall q, file_at q (h_fs (agent_si_handle t0 fsx)) =
                         match last_write q (h_log (agent_si_handle t0 fsx)) with
                         | Some c => Some c
                         | None => file_at q fsx
                         end)) pushed.
Proof.
  intros l fs.
  pose proof (handle_loop_sound agent_si_handle (fun _ => [AGENT_SCHEDULING_PENDING]) l fs) as H.
  destruct (handle_loop agent_si_handle (fun _ => [AGENT_SCHEDULING_PENDING]) l fs) as [[fs' pushed] failed].
  eapply Forall_impl; [|exact (proj2 (proj2 H))]. intros t' [t0 [fsx [Hin [Ht' Hok]]]].
  exists t0, fsx. split; [exact Hin|]. split; [exact Ht'|]. split; [exact Hok|].
  intros ds Hk Hfo. exact (agent_input_last_writer t0 ds fsx Hk Hfo Hok).
Qed.
Print Assumptions C11_passed_input_has_content.

(* the client packs the sources of ALL TARBALL directives of the task: each has
   its member in the tarball, named by its resolved target and carrying the
   content of its resolved source (the agent then unpacks every member:
   C11_tarball_unpacked_in_place) *)
Theorem C11_tarball_members :
  forall sctx tctx l have fs na m,
    tar_filter sctx tctx l have fs = Some (na, m) ->
    forall d, In d l -> action_eqb (s_act d) Tarball = true ->
    exists s g z, complete_url sctx (s_src d) = inr s /\ complete_url tctx (s_tgt d) = inr g /\
                  file_at (r_comps s) fs = Some (Plain z) /\ In (r_comps g, z) m.
Proof. exact tar_filter_members. Qed.
Print Assumptions C11_tarball_members.

(* ---- failed tasks ---- *)

(* output directives of tasks that did not end DONE and did not ask for
   stage_on_error are not carried out: the agent output stager leaves the file
   system alone and hands every such task on *)
Theorem C11_failed_task_no_output_agent :
  forall l fs, forallb not_staged_out l = true ->
    w_fs (aso_work l fs) = fs /\ w_final (aso_work l fs) = [] /\
    List.length (w_pushed (aso_work l fs)) = List.length l.
Proof.
  intros l fs H. unfold aso_work.
  (* publishing a state that is not final changes neither target_state nor stage_on_error *)
  assert (Hs : forall t, not_staged_out t = true ->
               negb (is_done (t_target (advance t AGENT_STAGING_OUTPUT))) && negb (t_soe (advance t AGENT_STAGING_OUTPUT))
               = true) by (intros t Ht; exact Ht).
  rewrite (filter_map_const _ _ _ false l H) by (intros t Ht; rewrite (Hs t Ht); reflexivity).
  rewrite (filter_map_const _ _ _ true l H) by (intros t Ht; rewrite (Hs t Ht); reflexivity).
  cbn [handle_loop w_fs w_final w_pushed]. rewrite app_nil_r, !map_length. auto.
Qed.
Print Assumptions C11_failed_task_no_output_agent.

(* ... and the client output stager transfers nothing and makes each of them
   final in its target state -- stage_on_error or not *)
Theorem C11_failed_task_no_output_client :
  forall l fs, forallb (fun t => negb (is_done (t_target t))) l = true ->
    w_fs (tso_work l fs) = fs /\
    map (fun t => last (t_pub t) DONE) (w_final (tso_work l fs)) = map t_target l.
Proof.
  intros l fs H. unfold tso_work.
  rewrite (filter_map_const _ _ _ false l H) by (intros t Ht; cbn [advance t_target]; rewrite Ht; reflexivity).
  rewrite (filter_map_const _ _ _ true l H) by (intros t Ht; cbn [advance t_target]; rewrite Ht; reflexivity).
  cbn [handle_loop w_fs w_final]. split; [reflexivity|]. rewrite !app_nil_r, !map_map.
  apply map_ext. intro t. unfold advance at 1. cbn [t_pub]. apply last_last.
Qed.
Print Assumptions C11_failed_task_no_output_client.

(* a directive that cannot be carried out fails that task only: in the
   per-task loop shared by the stagers every task of the bulk is handled exactly
   once; the ones whose staging failed are published FAILED and handed on to
   nobody, all others are advanced normally *)
Theorem C11_bad_directive_fails_that_task_only :
  forall handle okst l fs,
    let '(_, pushed, failed) := handle_loop handle okst l fs in
    Permutation (map t_uid l) (map t_uid (pushed ++ failed)) /\
    Forall (fun t => last (t_pub t) DONE = FAILED /\ t_target t = FAILED) failed /\
    Forall (fun t => exists t0, In t0 l /\ t = fold_left advance (okst t0) t0) pushed.
Proof.
  intros handle okst l fs. pose proof (handle_loop_sound handle okst l fs) as H.
  destruct (handle_loop handle okst l fs) as [[fs' pushed] failed]. destruct H as [Hp [Hf Hpu]].
  split; [exact Hp|]. split; [exact Hf|]. eapply Forall_impl; [|exact Hpu].
  intros t [t0 [_ [Hin [Ht _]]]]. exists t0. auto.
Qed.
Print Assumptions C11_bad_directive_fails_that_task_only.

(* ---- non-vacuity: a bulk of two tasks through all four stagers ---- *)
Definition ex_case : list task_in :=
  [ {| ti_uid := "t0"; ti_sb := ex_sb "t0";
       ti_in := [ SStr "a.dat > in/a.dat";
                  SDict (Some "pilot:///sh.dat") (Some "sh.lnk") (Some Link) false;
                  SDict (Some "client:///b.dat") (Some "task:///deep/b.dat") (Some Tarball) false ];
       ti_out := [ SStr "client:///res/o.dat < o.dat";
                   SDict (Some "o.dat") (Some "pilot:///keep/") (Some Copy) false ];
       ti_soe := false; ti_outcome := DONE; ti_exec := [ (["o.dat"], 7%Z) ]; ti_ops := [] |};
    {| ti_uid := "t1"; ti_sb := ex_sb "t1";
       ti_in := [ SStr "nope.dat" ]; ti_out := []; ti_soe := false; ti_outcome := DONE; ti_exec := []; ti_ops := [] |};
    {| ti_uid := "t2"; ti_sb := ex_sb "t2";
       ti_in := []; ti_out := [ SStr "o.dat" ]; ti_soe := false; ti_outcome := FAILED; ti_exec := [ (["o.dat"], 8%Z) ]; ti_ops := [] |} ].

Example C11_nonvacuous :
  let '(_, fs', fin) := run_case ex_case ex_fs in
  ( file_at ["R"; "rsb"; "s1"; "p0"; "t0"; "in"; "a.dat"] fs',
    file_at ["R"; "rsb"; "s1"; "p0"; "t0"; "sh.lnk"] fs',
    file_at ["R"; "rsb"; "s1"; "p0"; "t0"; "deep"; "b.dat"] fs',
    file_at ["R"; "client"; "res"; "o.dat"] fs',
    file_at ["R"; "rsb"; "s1"; "p0"; "keep"; "o.dat"] fs',
    file_at ["R"; "client"; "o.dat"] fs',
    map (fun t => (t_uid t, last (t_pub t) DONE)) fin )
  = ( Some (Plain 1), Some (Plain 3), Some (Plain 2), Some (Plain 7), Some (Plain 7), None,
      [ ("t1", FAILED); ("t2", FAILED); ("t0", DONE) ] ).
Proof. vm_compute. reflexivity. Qed.

(* ---- recorded finding: a TARBALL directive with an explicitly empty target.
   Every other action stages an empty target as <task sandbox>/<basename>; the
   tarball path packs the file under the sandbox directory's own name and the
   task fails in the agent although its source exists. *)
Definition ex_tar_empty : list task_in :=
  [ {| ti_uid := "t0"; ti_sb := ex_sb "t0";
       ti_in := [ SDict (Some "a.dat") (Some "") (Some Tarball) false ];
       ti_out := []; ti_soe := false; ti_outcome := DONE; ti_exec := []; ti_ops := [] |} ].

Theorem C11_tarball_empty_target_refuted :
  exists tis fs0, file_at ["R"; "client"; "a.dat"] fs0 = Some (Plain 1) /\
    let '(_, fs', fin) := run_case tis fs0 in
    map (fun t => last (t_pub t) DONE) fin = [FAILED] /\
    file_at ["R"; "rsb"; "s1"; "p0"; "t0"; "a.dat"] fs' = None.
Proof. exists ex_tar_empty, ex_fs. vm_compute. repeat split; reflexivity. Qed.
Print Assumptions C11_tarball_empty_target_refuted.

(* the same directive with any other action is staged *)
Theorem C11_empty_target_staged_partial :
  forall a, In a [Transfer; Copy; Link; Move] ->
    let '(_, fs', fin) := run_case
      [ {| ti_uid := "t0"; ti_sb := ex_sb "t0";
           ti_in := [ SDict (Some (if client_side_b a then "a.dat" else "pilot:///sh.dat")) (Some "") (Some a) false ];
           ti_out := []; ti_soe := false; ti_outcome := DONE; ti_exec := []; ti_ops := [] |} ] ex_fs in
    map (fun t => last (t_pub t) DONE) fin = [DONE] /\
    file_at (["R"; "rsb"; "s1"; "p0"; "t0"] ++ [if client_side_b a then "a.dat" else "sh.dat"]) fs'
      = Some (Plain (if client_side_b a then 1 else 3)).
Proof. intros a [<-|[<-|[<-|[<-|[]]]]]; vm_compute; split; reflexivity. Qed.
Print Assumptions C11_empty_target_staged_partial.
