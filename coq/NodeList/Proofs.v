(* NodeList -- proofs about the model of the resource-manager initialisation:
   what each resource manager hands back (`stage_facts`), what
   _init_from_scratch holds before and after _filter_nodes (`allocated`,
   `filtered`), and from these the clauses of NodeList.Oracle, first as
   propositions and then as the booleans the harness evaluates.  Stated for
   init_from_scratch; Props/C18.v reaches rm_construct through construct_scratch. *)
From Coq Require Import ZArith List Bool String Lia ZifyBool Permutation.
From RP Require Import Common.Eqb Common.ListFacts NodeList.Model NodeList.Oracle.
Import ListNotations.

Inductive subl {A} : list A -> list A -> Prop :=
| subl_nil  : subl [] []
| subl_skip : forall x l1 l2, subl l1 l2 -> subl l1 (x :: l2)
| subl_keep : forall x l1 l2, subl l1 l2 -> subl (x :: l1) (x :: l2).

Lemma subl_refl {A} (l : list A) : subl l l.
Proof. induction l; constructor; assumption. Qed.

Lemma subl_nil_l {A} (l : list A) : subl [] l.
Proof. induction l; constructor; assumption. Qed.

Lemma subl_In {A} (l1 l2 : list A) : subl l1 l2 -> forall x, In x l1 -> In x l2.
Proof.
  induction 1 as [|y l1 l2 Hs IH|y l1 l2 Hs IH]; intros z Hz.
  - assumption.
  - right; apply IH; assumption.
  - destruct Hz as [->|Hz]; [left; reflexivity | right; apply IH; assumption].
Qed.

Lemma subl_NoDup {A} (l1 l2 : list A) : subl l1 l2 -> NoDup l2 -> NoDup l1.
Proof.
  induction 1 as [|y l1 l2 Hs IH|y l1 l2 Hs IH]; intros Hnd.
  - constructor.
  - inversion Hnd; subst; apply IH; assumption.
  - inversion Hnd as [|? ? Hni Hnd']; subst. constructor.
    + intro Hin; apply Hni; eapply subl_In; eassumption.
    + apply IH; assumption.
Qed.

Lemma subl_map {A B} (f : A -> B) (l1 l2 : list A) : subl l1 l2 -> subl (map f l1) (map f l2).
Proof. induction 1; simpl; constructor; assumption. Qed.

Lemma subl_trans {A} (l1 l2 l3 : list A) : subl l1 l2 -> subl l2 l3 -> subl l1 l3.
Proof.
  intros H12 H23; revert l1 H12.
  induction H23 as [|y l2 l3 Hs IH|y l2 l3 Hs IH]; intros l1 H12.
  - assumption.
  - constructor; apply IH; assumption.
  - inversion H12; subst.
    + constructor; apply IH; assumption.
    + apply subl_keep; apply IH; assumption.
Qed.

Lemma subl_firstn {A} (k : nat) (l : list A) : subl (firstn k l) l.
Proof.
  revert k; induction l as [|x l IH]; intros [|k]; simpl.
  - constructor.
  - constructor.
  - apply subl_nil_l.
  - apply subl_keep. apply IH.
Qed.

Lemma subl_filter {A} (f : A -> bool) (l : list A) : subl (filter f l) l.
Proof. induction l as [|x l IH]; simpl; [constructor|]. destruct (f x); constructor; assumption. Qed.

Lemma subl_app_l {A} (l1 l2 : list A) : subl l1 (l1 ++ l2).
Proof. induction l1; simpl; [apply subl_nil_l | constructor; assumption]. Qed.

Lemma subl_length {A} (l1 l2 : list A) : subl l1 l2 -> (List.length l1 <= List.length l2)%nat.
Proof. induction 1; simpl; lia. Qed.

Lemma memZ_In x l : memZ x l = true <-> In x l.
Proof.
  induction l as [|y l IH]; simpl; [split; [discriminate | tauto]|].
  rewrite orb_true_iff, IH, Z.eqb_eq. split; intros [H|H]; auto.
Qed.

Lemma memS_In x l : memS x l = true <-> In x l.
Proof.
  induction l as [|y l IH]; simpl; [split; [discriminate | tauto]|].
  rewrite orb_true_iff, IH, String.eqb_eq. split; intros [H|H]; auto.
Qed.

Lemma nodupZ_NoDup l : nodupZ l = true <-> NoDup l.
Proof.
  induction l as [|x l IH]; simpl; [split; constructor|].
  rewrite NoDup_cons_iff, <- IH, <- memZ_In, andb_true_iff, negb_true_iff, not_true_iff_false.
  reflexivity.
Qed.

Lemma nodupS_NoDup l : nodupS l = true <-> NoDup l.
Proof.
  induction l as [|x l IH]; simpl; [split; constructor|].
  rewrite NoDup_cons_iff, <- IH, <- memS_In, andb_true_iff, negb_true_iff, not_true_iff_false.
  reflexivity.
Qed.

Lemma enum_from_snd {A} (l : list A) i : map snd (enum_from i l) = l.
Proof. revert i; induction l as [|x l IH]; intro i; simpl; [reflexivity | rewrite IH; reflexivity]. Qed.

Lemma enum_from_ge {A} (l : list A) i j : In j (map fst (enum_from i l)) -> i <= j.
Proof.
  revert i; induction l as [|x l IH]; intros i H; simpl in H; [contradiction|].
  destruct H as [<-|H]; [lia|]. apply IH in H. lia.
Qed.

Lemma enum_from_NoDup {A} (l : list A) i : NoDup (map fst (enum_from i l)).
Proof.
  revert i; induction l as [|x l IH]; intro i; simpl; constructor.
  - intro H. apply enum_from_ge in H. lia.
  - apply IH.
Qed.

Lemma enum_forallb {A} (f : Z * A -> bool) (l : list A) i :
  forallb f (enum_from i l) = true <->
  (forall k x, nth_error l k = Some x -> f (i + Z.of_nat k, x) = true).
Proof.
  revert i; induction l as [|y l IH]; intro i; simpl.
  - split; [intros _ [|k] x H; discriminate | reflexivity].
  - rewrite andb_true_iff, IH. split.
    + intros [H0 Hr] [|k] x Hk; simpl in Hk.
      * injection Hk as <-. replace (i + Z.of_nat 0) with i by lia. assumption.
      * replace (i + Z.of_nat (S k)) with (i + 1 + Z.of_nat k) by lia. apply Hr; assumption.
    + intro H. split.
      * specialize (H 0%nat y eq_refl). replace (i + Z.of_nat 0) with i in H by lia. assumption.
      * intros k x Hk. specialize (H (S k) x Hk).
        replace (i + Z.of_nat (S k)) with (i + 1 + Z.of_nat k) in H by lia. assumption.
Qed.

Definition keys_ok (nodes : list (string * Z)) (allowed : list string) : Prop :=
  NoDup (map fst nodes) /\ incl (map fst nodes) allowed.

Definition uniform (k : Z) (nodes : list (string * Z)) : Prop :=
  forall p, In p nodes -> snd p = k.

Lemma keys_ok_nil allowed : keys_ok [] allowed.
Proof. split; [constructor | intros x []]. Qed.

Lemma keys_ok_incl nodes a b : keys_ok nodes a -> incl a b -> keys_ok nodes b.
Proof. intros [H1 H2] H. split; [assumption | eapply incl_tran; eassumption]. Qed.

Lemma keys_ok_subl nodes' nodes a : subl nodes' nodes -> keys_ok nodes a -> keys_ok nodes' a.
Proof.
  intros Hs [H1 H2]. apply (subl_map fst) in Hs.
  split; [eapply subl_NoDup; eassumption | intros x Hx; apply H2; eapply subl_In; eassumption].
Qed.

Lemma named_keys_ok (k : Z) names allowed :
  NoDup names -> incl names allowed -> keys_ok (map (fun n : string => (n, k)) names) allowed.
Proof. unfold keys_ok. rewrite map_map, map_id. split; assumption. Qed.

Lemma named_uniform (k : Z) names : uniform k (map (fun n : string => (n, k)) names).
Proof. intros p Hp. apply in_map_iff in Hp as [n [<- _]]. reflexivity. Qed.

Lemma count_add_keys n d :
  map fst (count_add n d) = if memS n (map fst d) then map fst d else map fst d ++ [n].
Proof.
  induction d as [|[m c] d IH]; simpl; [reflexivity|].
  destruct (String.eqb n m) eqn:E; simpl; [reflexivity|].
  rewrite IH. destruct (memS n (map fst d)); reflexivity.
Qed.

Lemma count_lines_keys ls d allowed :
  keys_ok d allowed -> incl ls allowed -> keys_ok (fold_left (fun d n => count_add n d) ls d) allowed.
Proof.
  intros Hd Hls. apply (fold_left_inv _ (fun d => keys_ok d allowed) ls); [|exact Hd].
  intros x n Hn [Hx Hi]. unfold keys_ok. rewrite count_add_keys.
  destruct (memS n (map fst x)) eqn:E; [split; assumption|]. split.
  - apply NoDup_app_iff. repeat split; [assumption | constructor; [intros [] | constructor] |].
    intros y Hy [<-|[]]. apply memS_In in Hy. congruence.
  - apply incl_app; [assumption|]. intros y [<-|[]]. apply Hls, Hn.
Qed.

Lemma map_fst_retag {A B C} (g : A * B -> C) (l : list (A * B)) :
  map fst (map (fun p => (fst p, g p)) l) = map fst l.
Proof. rewrite map_map. apply map_ext. reflexivity. Qed.

Lemma parse_nodefile_keys nf cpn smt : keys_ok (parse_nodefile nf cpn smt) (nf_lines nf).
Proof.
  unfold parse_nodefile. destruct nf as [| |ls]; try apply keys_ok_nil. cbn [nf_lines].
  destruct (existsb has_space ls); [apply keys_ok_nil|].
  unfold keys_ok. rewrite (map_fst_retag (fun p => snd p * _)).
  destruct (cpn =? 0); [|rewrite (map_fst_retag (fun _ => cpn))];
    apply (count_lines_keys ls [] ls (keys_ok_nil ls) (incl_refl ls)).
Qed.

Lemma parse_nodefile_uniform nf cpn smt :
  cpn <> 0 -> uniform (cpn * (if smt =? 0 then 1 else smt)) (parse_nodefile nf cpn smt).
Proof.
  intros Hc p. unfold parse_nodefile. destruct nf as [| |ls]; simpl; try contradiction.
  destruct (existsb has_space ls); [contradiction|].
  destruct (cpn =? 0) eqn:E; [lia|].
  intro Hin. apply in_map_iff in Hin as [q [<- Hq]]. simpl.
  apply in_map_iff in Hq as [q' [<- _]]. reflexivity.
Qed.

Lemma get_cpn_uniform nodes c : get_cores_per_node nodes = inr c -> uniform c nodes.
Proof.
  destruct nodes as [|[n0 c0] rest]; simpl; [discriminate|].
  destruct (forallb (fun p => snd p =? c0) rest) eqn:E; [|discriminate].
  intros H; injection H as <-. intros p [<-|Hin]; [reflexivity|].
  rewrite forallb_forall in E. apply E in Hin. lia.
Qed.

Lemma ins_sorted_perm x l : Permutation (ins_sorted x l) (x :: l).
Proof.
  induction l as [|y l IH]; simpl; [apply Permutation_refl|].
  destruct (String.ltb y x); [|apply Permutation_refl].
  eapply Permutation_trans; [apply perm_skip; exact IH | apply perm_swap].
Qed.

Lemma sort_perm l : Permutation (fold_right ins_sorted [] l) l.
Proof.
  induction l as [|x l IH]; simpl; [constructor|].
  eapply Permutation_trans; [apply ins_sorted_perm | apply perm_skip; exact IH].
Qed.

Lemma sorted_set_ok l : NoDup (sorted_set l) /\ incl (sorted_set l) l.
Proof.
  unfold sorted_set. split.
  - eapply Permutation_NoDup; [apply Permutation_sym, sort_perm | apply NoDup_nodup].
  - intros x Hx. eapply Permutation_in in Hx; [|apply sort_perm].
    apply nodup_In in Hx. assumption.
Qed.

Lemma latest_In best fs : In (latest best fs) (best :: fs).
Proof.
  revert best; induction fs as [|f t IH]; intro best; simpl; [left; reflexivity|].
  destruct (snd (fst best) <? snd (fst f)).
  - destruct (IH f) as [H|H]; [right; left; exact H | right; right; exact H].
  - destruct (IH best) as [H|H]; [left; exact H | right; right; exact H].
Qed.

(* the local `fallback` of pbspro_init; cobalt_init does the same where its node file is set *)
Definition pbs_fallback (nf : nodefile) (gpn rn cpn : Z) : err + stage :=
  match nf with
  | NFUnset => inl RuntimeError
  | _ => if cpn =? 0 then inl RuntimeError
         else inr (mkStage cpn gpn rn (parse_nodefile nf cpn 1))
  end.

Lemma pbs_fallback_inv nf cpn gpn rn st :
  pbs_fallback nf gpn rn cpn = inr st -> cpn <> 0 /\ st = mkStage cpn gpn rn (parse_nodefile nf cpn 1).
Proof.
  unfold pbs_fallback. destruct nf; [discriminate| |]; (destruct (cpn =? 0) eqn:E; [discriminate|]);
    intro H; injection H as <-; (split; [lia | reflexivity]).
Qed.

Lemma torque_init_inv nf cpn gpn rn st :
  torque_init nf cpn gpn rn = inr st ->
  exists k, st = mkStage k gpn rn (parse_nodefile nf 0 1)
            /\ (cpn = 0 -> get_cores_per_node (parse_nodefile nf 0 1) = inr k).
Proof.
  unfold torque_init. intro H.
  destruct (cpn =? 0) eqn:E.
  - destruct (get_cores_per_node _) as [|k] eqn:Eg; [destruct nf; discriminate|].
    exists k. split; [destruct nf; congruence | reflexivity].
  - exists cpn. split; [destruct nf; congruence | lia].
Qed.

Lemma lsf_init_inv nf cpn gpn rn tpc st :
  lsf_init nf cpn gpn rn tpc = inr st ->
  exists k flt,
    flt = filter (fun p => negb (contains "login" (fst p)) && negb (contains "batch" (fst p))
                           && negb (tpc =? snd p)) (parse_nodefile nf 0 tpc)
    /\ st = mkStage k gpn rn flt /\ get_cores_per_node flt = inr k.
Proof.
  unfold lsf_init. intro H.
  destruct (get_cores_per_node _) as [|k] eqn:Eg; [destruct nf; discriminate|].
  exists k. eexists. split; [reflexivity|]. split; [|exact Eg].
  destruct (cpn =? 0); [|destruct (cpn =? k) eqn:Ek; [replace k with cpn at 1 by lia|]];
    destruct nf; congruence.
Qed.

Record stage_facts (c : cfg) (e : rmenv) (st : stage) : Prop := {
  sg_rn   : is_fork e = false \/ c_nodes c <> 0 -> s_req_nodes st = c_nodes c;
  sg_keys : is_fork e = false -> input_distinct e = true -> keys_ok (s_nodes st) (env_names e);
  (* unless a node file with one line per slot decides next to a configured size *)
  sg_size : size_from_file c e = false -> uniform (s_cpn st) (s_nodes st);
  sg_lsf  : is_lsf e = true -> forall p, In p (s_nodes st) ->
              contains "login" (fst p) = false /\ contains "batch" (fst p) = false }.

Lemma nodefile_stage_facts c e nf cpn st :
  is_lsf e = false -> incl (nf_lines nf) (env_names e) ->
  pbs_fallback nf (c_gpn c) (c_nodes c) cpn = inr st -> stage_facts c e st.
Proof.
  intros Hl Hi H. apply pbs_fallback_inv in H as [Hc ->].
  constructor; cbn [s_req_nodes s_nodes s_cpn]; intros.
  - reflexivity.
  - eapply keys_ok_incl; [apply parse_nodefile_keys | assumption].
  - intros p Hp. rewrite (parse_nodefile_uniform _ _ 1 Hc p Hp). cbn. lia.
  - congruence.
Qed.

Lemma rm_init_facts c e st : rm_init c e = inr st -> stage_facts c e st.
Proof.
  destruct e as [nl jnl cpus gon jg sg ord|jobid q nf|nf|det|nf pn|nf|files]; cbn [rm_init]; intro H.
  - (* Slurm *)
    unfold slurm_init in H. destruct (first_some nl jnl) as [names|] eqn:En; [|discriminate].
    destruct (if c_cpn c =? 0 then _ else _) as [|k]; [discriminate|]. injection H as <-.
    constructor; cbn; rewrite ?En; intros; try discriminate.
    + reflexivity.
    + apply named_keys_ok; [apply nodupS_NoDup; assumption | apply incl_refl].
    + apply named_uniform.
  - (* PBSPro: the vnodes of qstat, or the node file *)
    pose proof (fun cpn => nodefile_stage_facts c (EPBSPro jobid q nf) nf cpn st
                             eq_refl (incl_appr _ (incl_refl _))) as Hfb.
    unfold pbspro_init in H. destruct (pbs_vnodes jobid q) as [[er sw]|[vnodes ncpus]] eqn:Ev.
    { destruct sw; [exact (Hfb _ H) | discriminate]. }
    destruct vnodes as [|v vs]; [exact (Hfb _ H)|]. injection H as <-.
    change ((v, ncpus) :: map (fun n : string => (n, ncpus)) vs)
      with (map (fun n : string => (n, ncpus)) (v :: vs)).
    constructor; cbn [is_fork is_lsf size_from_file s_req_nodes s_nodes s_cpn]; intros; try discriminate.
    + reflexivity.
    + unfold pbs_vnodes in Ev. destruct (negb jobid); [discriminate|].
      destruct q as [| |chunks]; try discriminate.
      destruct (existsb _ _); [discriminate|].
      destruct (map (fun s => snd (fst s)) (List.concat chunks)) as [|c0 rest]; [discriminate|].
      destruct (forallb _ rest); [|discriminate]. injection Ev as Ev _.
      destruct (sorted_set_ok (map (fun s => fst (fst s)) (List.concat chunks))) as [S1 S2].
      rewrite Ev in S1, S2. apply named_keys_ok; [assumption | apply incl_appl; assumption].
    + apply named_uniform.
  - (* LSF *)
    apply lsf_init_inv in H as (k & flt & Ef & -> & Hk).
    constructor; cbn; [intros _ | intros _ _ | intros _ | intros _ p Hp].
    + reflexivity.
    + rewrite Ef. eapply keys_ok_subl; [apply subl_filter | apply parse_nodefile_keys].
    + apply get_cpn_uniform. assumption.
    + rewrite Ef in Hp. apply filter_In in Hp as [_ Hp]. lia.
  - (* Fork *)
    unfold fork_init in H. destruct (negb _); [discriminate|].
    destruct (if c_nodes c =? 0 then _ else _) as [|rn'] eqn:Ern; [discriminate|]. injection H as <-.
    constructor; cbn; try discriminate.
    + intros [Hf|Hn]; [discriminate|]. destruct (c_nodes c =? 0) eqn:E0; [lia | congruence].
    + intros _ p Hp. apply repeat_spec in Hp. subst p. reflexivity.
  - (* Cobalt: the node file, or the partition name *)
    unfold cobalt_init in H. destruct (c_cpn c =? 0) eqn:E0; [discriminate|].
    destruct nf as [| |ls].
    2, 3: eapply (nodefile_stage_facts c _ _ (c_cpn c));
      [reflexivity | apply incl_appl, incl_refl | unfold pbs_fallback; rewrite E0; exact H].
    destruct pn as [names|]; [|discriminate]. injection H as <-.
    constructor; cbn; intros; try discriminate.
    + reflexivity.
    + apply named_keys_ok; [apply nodupS_NoDup; assumption | apply incl_refl].
    + apply named_uniform.
  - (* Torque *)
    apply torque_init_inv in H as (k & -> & Hk).
    constructor; cbn; intros; try discriminate.
    + reflexivity.
    + apply parse_nodefile_keys.
    + apply get_cpn_uniform, Hk. lia.
  - (* CCM: Torque on the newest node file *)
    unfold ccm_init in H. destruct (filter _ files) as [|f t] eqn:Ef; [discriminate|].
    apply torque_init_inv in H as (k & -> & Hk).
    constructor; cbn [is_fork is_lsf size_from_file s_req_nodes s_nodes s_cpn]; intros; try discriminate.
    + reflexivity.
    + eapply keys_ok_incl; [apply parse_nodefile_keys|]. intros x Hx. cbn in Hx |- *.
      apply in_concat. exists (snd (latest f t)). split; [|assumption].
      apply in_map, (filter_In (fun f => prefix "nodelist" (fst (fst f)))).
      rewrite Ef. apply latest_In.
    + apply get_cpn_uniform, Hk. lia.
Qed.

Lemma get_node_list_names nodes gpn lfs mem :
  map n_name (get_node_list nodes gpn lfs mem) = map fst nodes.
Proof.
  unfold get_node_list. rewrite map_map. cbn [n_name].
  rewrite <- (enum_from_snd nodes 0) at 2. rewrite map_map. reflexivity.
Qed.

Lemma get_node_list_indices nodes gpn lfs mem :
  NoDup (map n_index (get_node_list nodes gpn lfs mem)).
Proof.
  unfold get_node_list. rewrite map_map. cbn [n_index]. apply enum_from_NoDup.
Qed.

Lemma block_node_same bc bg n n' :
  block_node bc bg n = inr n' -> n_name n' = n_name n /\ n_index n' = n_index n.
Proof.
  unfold block_node. destruct (block_all bc (n_cores n)); [discriminate|].
  destruct (block_all bg (n_gpus n)); [discriminate|]. intro H; injection H as <-. split; reflexivity.
Qed.

Lemma block_nodes_maps bc bg l l' :
  block_nodes bc bg l = inr l' ->
  map n_name l' = map n_name l /\ map n_index l' = map n_index l.
Proof.
  revert l'; induction l as [|n t IH]; intros l' H; simpl in H.
  - injection H as <-. split; reflexivity.
  - destruct (block_node bc bg n) as [|n'] eqn:En; [discriminate|].
    destruct (block_nodes bc bg t) as [|t']; [discriminate|]. injection H as <-.
    destruct (IH t' eq_refl) as [I1 I2]. apply block_node_same in En as [E1 E2].
    simpl. rewrite I1, I2, E1, E2. split; reflexivity.
Qed.

Lemma set_nth_length {A} j (v : A) l : List.length (set_nth j v l) = List.length l.
Proof. revert j; induction l as [|x l IH]; intros [|j]; simpl; try reflexivity. rewrite IH. reflexivity. Qed.

Lemma set_nth_spec {A} j (v : A) l k :
  (j < List.length l)%nat ->
  nth_error (set_nth j v l) k = if Nat.eqb k j then Some v else nth_error l k.
Proof.
  revert j k; induction l as [|x l IH]; intros j k Hj; simpl in Hj; [lia|].
  destruct j as [|j]; destruct k as [|k]; simpl; try reflexivity.
  apply IH. lia.
Qed.

(* an index within the list: no wrap-around, no IndexError *)
Lemma py_set_in_range {A} i (v : A) l :
  0 <= i < zlen l -> py_set i v l = Some (set_nth (Z.to_nat i) v l).
Proof.
  intro H. unfold py_set. destruct (i <? 0) eqn:E0; [lia|].
  cbv zeta. rewrite E0. destruct (zlen l <=? i) eqn:E1; [lia | reflexivity].
Qed.

Lemma block_all_spec idxs : forall l l',
  (forall i, In i idxs -> 0 <= i) -> block_all idxs l = inr l' ->
  List.length l' = List.length l /\
  (forall k x, nth_error l' k = Some x ->
     if memZ (Z.of_nat k) idxs then x = Down else nth_error l k = Some x).
Proof.
  induction idxs as [|i t IH]; intros l l' Hnn H; simpl in H.
  - injection H as <-. split; [reflexivity | intros k x Hk; exact Hk].
  - destruct (zlen l <=? i) eqn:Eg; [discriminate|].
    assert (Hi : 0 <= i < zlen l) by (specialize (Hnn i (or_introl eq_refl)); lia).
    rewrite (py_set_in_range _ _ _ Hi) in H.
    assert (Hj : (Z.to_nat i < List.length l)%nat) by (unfold zlen in Hi; lia).
    destruct (IH _ l' (fun j Hj' => Hnn j (or_intror Hj')) H) as [L1 L2].
    split; [rewrite L1; apply set_nth_length|].
    intros k x Hk. specialize (L2 k x Hk). rewrite (set_nth_spec _ _ _ _ Hj) in L2. simpl.
    destruct (memZ (Z.of_nat k) t); [rewrite orb_true_r; assumption|]. rewrite orb_false_r.
    destruct (Nat.eqb k (Z.to_nat i)) eqn:Ek.
    + replace (Z.of_nat k =? i) with true by lia. congruence.
    + replace (Z.of_nat k =? i) with false by lia. assumption.
Qed.

Lemma block_all_fresh idxs m l' :
  (forall i, In i idxs -> 0 <= i) -> block_all idxs (repeat Free m) = inr l' ->
  List.length l' = m /\ pattern_ok idxs l' = true.
Proof.
  intros Hnn H. destruct (block_all_spec idxs _ l' Hnn H) as [L1 L2].
  split; [rewrite L1; apply repeat_length|].
  unfold pattern_ok. apply enum_forallb. intros k x Hk. simpl. specialize (L2 k x Hk).
  destruct (memZ (Z.of_nat k) idxs); [subst x; reflexivity|].
  apply nth_error_In, repeat_spec in L2. subst x. reflexivity.
Qed.

(* what is known about one offered node: it stems from a node tuple of the
   RM, has that many core slots and gpn gpu slots, blocked ones Down *)
Lemma block_node_sized bc bg nodes gpn lfs mem n n' :
  (forall i, In i bc -> 0 <= i) -> (forall i, In i bg -> 0 <= i) ->
  In n (get_node_list nodes gpn lfs mem) -> block_node bc bg n = inr n' ->
  exists p, In p nodes
    /\ zlen (n_cores n') = Z.max 0 (snd p) /\ zlen (n_gpus n') = Z.max 0 gpn
    /\ pattern_ok bc (n_cores n') = true /\ pattern_ok bg (n_gpus n') = true.
Proof.
  intros Hc Hg Hin Hb. unfold get_node_list in Hin. apply in_map_iff in Hin as [[i p] [<- Hip]].
  pose proof (in_map snd _ _ Hip) as Hp. rewrite enum_from_snd in Hp.
  unfold block_node in Hb. cbn [n_cores n_gpus n_name n_index n_lfs n_mem fst snd] in Hb.
  destruct (block_all bc (repeat Free (Z.to_nat (snd p)))) as [|cs] eqn:Ec; [discriminate|].
  destruct (block_all bg (repeat Free (Z.to_nat gpn))) as [|gs] eqn:Eg; [discriminate|].
  injection Hb as <-.
  destruct (block_all_fresh bc _ cs Hc Ec) as [C1 C2].
  destruct (block_all_fresh bg _ gs Hg Eg) as [G1 G2].
  exists p. cbn [n_cores n_gpus]. unfold zlen. rewrite C1, G1. repeat split; try assumption; lia.
Qed.

Lemma block_nodes_In bc bg l l' n' :
  block_nodes bc bg l = inr l' -> In n' l' -> exists n, In n l /\ block_node bc bg n = inr n'.
Proof.
  revert l'; induction l as [|n t IH]; intros l' H Hin; simpl in H.
  - injection H as <-. destruct Hin.
  - destruct (block_node bc bg n) as [|m] eqn:En; [discriminate|].
    destruct (block_nodes bc bg t) as [|t']; [discriminate|]. injection H as <-.
    destruct Hin as [<-|Hin].
    + exists n. split; [left; reflexivity | assumption].
    + destruct (IH t' eq_refl Hin) as [n0 [H1 H2]]. exists n0. split; [right; assumption | assumption].
Qed.

Lemma block_nodes_nil l : block_nodes [] [] l = inr l.
Proof.
  induction l as [|n t IH]; simpl; [reflexivity|]. rewrite IH.
  destruct n; reflexivity.
Qed.

(* what _init_from_scratch has when it calls _filter_nodes: the whole allocation *)
Record allocated (c : cfg) (e : rmenv) (st : stage) (r0 : rminfo) : Prop := {
  al_init    : rm_init c e = inr st;
  al_blocked : block_nodes (c_bcores c) (c_bgpus c)
                 (get_node_list (s_nodes st) (s_gpn st) (c_lfs c) (c_mem c)) = inr (r_nodes r0);
  al_cpn     : r_cpn r0 = s_cpn st - zlen (c_bcores c);
  al_gpn     : r_gpn r0 = s_gpn st - zlen (c_bgpus c);
  al_rn      : s_req_nodes st <> 0 -> r_req_nodes r0 = s_req_nodes st }.

(* the branch of _init_from_scratch for "nothing blocked" is the general one *)
Lemma block_nothing bc bg cpn gpn nl :
  (if is_nil bc && is_nil bg then inr (cpn, gpn, nl)
   else match block_nodes bc bg nl with
        | inl er => inl er
        | inr nl' => inr (cpn - zlen bc, gpn - zlen bg, nl')
        end)
  = match block_nodes bc bg nl with
    | inl er => inl er
    | inr nl' => inr (cpn - zlen bc, gpn - zlen bg, nl')
    end.
Proof.
  destruct bc, bg; try reflexivity. rewrite block_nodes_nil. cbn. rewrite !Z.sub_0_r. reflexivity.
Qed.

Lemma pre_filter_spec c e r0 : pre_filter c e = inr r0 -> exists st, allocated c e st r0.
Proof.
  unfold pre_filter. intro Ep.
  destruct (rm_init c e) as [er|st] eqn:Est; [discriminate|].
  cbv zeta in Ep. rewrite block_nothing in Ep.
  destruct (block_nodes _ _ _) as [er|nl'] eqn:Hb; [discriminate|].
  destruct (derive_requested _ _ _ _ _) as [er|rn] eqn:Er; [discriminate|].
  destruct (zlen nl' <? rn); [discriminate|]. injection Ep as <-.
  exists st. constructor; cbn [r_nodes r_req_nodes r_cpn r_gpn]; try reflexivity; try assumption.
  intro Hne. unfold derive_requested in Er.
  destruct (s_req_nodes st =? 0) eqn:E0; [lia|]. injection Er as <-. reflexivity.
Qed.

Lemma allocated_names c e st r0 :
  allocated c e st r0 -> map n_name (r_nodes r0) = map fst (s_nodes st).
Proof.
  intro A. destruct (block_nodes_maps _ _ _ _ (al_blocked _ _ _ _ A)) as [H1 _].
  rewrite H1. apply get_node_list_names.
Qed.

Lemma allocated_indices c e st r0 : allocated c e st r0 -> NoDup (map n_index (r_nodes r0)).
Proof.
  intro A. destruct (block_nodes_maps _ _ _ _ (al_blocked _ _ _ _ A)) as [_ H2].
  rewrite H2. apply get_node_list_indices.
Qed.

Lemma subl_probe acc k l : subl (probe acc k l) l.
Proof.
  revert k; induction l as [|n t IH]; intro k; simpl; [constructor|].
  destruct (nth k acc AccOk); constructor; apply IH.
Qed.

(* the k last nodes go to the reserved list, last first *)
Lemma pop_n_eq k : forall nl res,
  pop_n k nl res =
  if (k <=? List.length nl)%nat
  then Some (firstn (List.length nl - k) nl, res ++ rev (skipn (List.length nl - k) nl))
  else None.
Proof.
  induction k as [|k IH]; intros nl res.
  - cbn [pop_n Nat.leb]. rewrite Nat.sub_0_r, firstn_all, skipn_all, app_nil_r. reflexivity.
  - destruct nl as [|x t]; [reflexivity|]. cbn [pop_n].
    assert (Hne : x :: t <> []) by discriminate. destruct (exists_last Hne) as (a & z & ->).
    rewrite removelast_last, last_last, IH, app_length, Nat.add_1_r. cbn [List.length Nat.leb Nat.sub].
    destruct (k <=? List.length a)%nat eqn:E; [|reflexivity]. apply Nat.leb_le in E.
    rewrite firstn_app, skipn_app. replace (List.length a - k - List.length a)%nat with 0%nat by lia.
    cbn [firstn skipn]. rewrite app_nil_r, rev_unit, <- app_assoc. reflexivity.
Qed.

Lemma py_to_subl {A} k (l : list A) : subl (py_to k l) l.
Proof. unfold py_to. destruct (k <? 0); apply subl_firstn. Qed.

Lemma zlen_firstn_le {A} k (l : list A) : 0 <= k -> zlen (firstn (Z.to_nat k) l) <= k.
Proof. intro H. unfold zlen. rewrite firstn_length. lia. Qed.

(* L: the usable nodes cut to the requested number, before the agent and
   service nodes are popped off its end *)
Record filtered (c : cfg) (acc : list access) (r0 r : rminfo) (L : list node) : Prop := {
  f_acc      : subl L (accessible (r_backup r0) acc (r_nodes r0));
  f_len      : 0 <= r_req_nodes r0 ->
               zlen L = Z.min (r_req_nodes r0) (zlen (accessible (r_backup r0) acc (r_nodes r0)));
  f_split    : L = r_nodes r ++ rev (r_services r) ++ rev (r_agents r);
  f_agents   : List.length (r_agents r) = count_agents (c_agents c);
  f_services : List.length (r_services r) = (if c_services c then 1 else 0)%nat;
  f_nonempty : r_nodes r <> [];
  f_rn       : r_req_nodes r = r_req_nodes r0;
  f_rc       : r_req_cores r = r_req_cores r0;
  f_np       : r_nparts r = r_nparts r0;
  f_cpn      : r_cpn r = r_cpn r0;
  f_gpn      : r_gpn r = r_gpn r0 }.

Lemma accessible_subl backup acc nl : subl (accessible backup acc nl) nl.
Proof. unfold accessible. destruct (backup =? 0); [apply subl_refl | apply subl_probe]. Qed.

(* the first stage of filter_nodes, spelled out there, is `accessible` *)
Lemma filter_nodes_accessible acc r0 :
  (if r_backup r0 =? 0 then inr (r_nodes r0)
   else match probe acc 0 (r_nodes r0) with
        | [] => inl RuntimeError
        | ok => inr ok
        end)
  = if negb (r_backup r0 =? 0) && is_nil (accessible (r_backup r0) acc (r_nodes r0))
    then inl RuntimeError else inr (accessible (r_backup r0) acc (r_nodes r0)).
Proof.
  unfold accessible. destruct (r_backup r0 =? 0); [reflexivity|].
  destruct (probe acc 0 (r_nodes r0)); reflexivity.
Qed.

Lemma truncated_len {A} rn (nl : list A) :
  0 <= rn -> zlen (if rn <? zlen nl then py_to rn nl else nl) = Z.min rn (zlen nl).
Proof.
  intro Hrn. destruct (rn <? zlen nl) eqn:E; [|lia].
  unfold py_to. destruct (rn <? 0) eqn:E0; [lia|]. unfold zlen in *. rewrite firstn_length. lia.
Qed.

(* _filter_nodes carves its result out of L, or fails: exactly when L has no
   node left to offer once the agent and service nodes are taken *)
Lemma filter_nodes_cases c acc r0 :
  let av := accessible (r_backup r0) acc (r_nodes r0) in
  let L := if r_req_nodes r0 <? zlen av then py_to (r_req_nodes r0) av else av in
  match filter_nodes c acc r0 with
  | inr r => filtered c acc r0 r L
  | inl _ => (List.length L <= count_agents (c_agents c) + (if c_services c then 1 else 0))%nat
  end.
Proof.
  intros av L. unfold filter_nodes. rewrite filter_nodes_accessible. fold av.
  destruct (negb _ && is_nil av) eqn:E0.
  { apply andb_true_iff in E0 as [_ E0]. subst L. destruct av; [|discriminate].
    unfold py_to. rewrite !firstn_nil. destruct (_ <? _); cbn; lia. }
  fold L. set (na := count_agents (c_agents c)). set (ns := if c_services c then 1%nat else 0%nat).
  rewrite pop_n_eq.
  destruct (na <=? List.length L)%nat eqn:Ea; [apply Nat.leb_le in Ea | apply Nat.leb_gt in Ea; lia].
  rewrite pop_n_eq, firstn_length_le by lia. cbn [app].
  destruct (ns <=? List.length L - na)%nat eqn:Es; [apply Nat.leb_le in Es | apply Nat.leb_gt in Es; lia].
  set (nl2 := firstn (List.length L - na) L).
  assert (L2 : List.length nl2 = (List.length L - na)%nat) by (apply firstn_length_le; lia).
  destruct (firstn (List.length L - na - ns) nl2) as [|x nl3] eqn:E3; cbn [is_nil].
  { apply (f_equal (@List.length _)) in E3. rewrite firstn_length_le in E3 by lia. cbn in E3. lia. }
  rewrite <- E3.
  constructor; cbn [r_nodes r_agents r_services r_req_nodes r_req_cores r_nparts r_cpn r_gpn]; try reflexivity.
  - unfold L. destruct (_ <? _); [apply py_to_subl | apply subl_refl].
  - apply truncated_len.
  - rewrite !rev_involutive, app_assoc, firstn_skipn. apply eq_sym, firstn_skipn.
  - rewrite rev_length, skipn_length. lia.
  - rewrite rev_length, skipn_length. lia.
  - rewrite E3. discriminate.
Qed.

Lemma filter_nodes_spec c acc r0 r :
  filter_nodes c acc r0 = inr r -> exists L, filtered c acc r0 r L.
Proof. intro H. pose proof (filter_nodes_cases c acc r0) as V. rewrite H in V. eexists. exact V. Qed.

Lemma filter_nodes_enough c acc r0 :
  0 <= r_req_nodes r0 ->
  needed c <= Z.min (r_req_nodes r0) (zlen (accessible (r_backup r0) acc (r_nodes r0))) ->
  exists r, filter_nodes c acc r0 = inr r.
Proof.
  intros Hrn Hen. pose proof (filter_nodes_cases c acc r0) as V. cbv zeta in V.
  destruct (filter_nodes c acc r0) as [er|r]; [exfalso | exists r; reflexivity].
  rewrite <- (truncated_len _ _ Hrn) in Hen. unfold needed, zlen in *. destruct (c_services c); lia.
Qed.

Lemma init_decompose c e acc r :
  init_from_scratch c e acc = inr r ->
  exists st r0 L, allocated c e st r0 /\ filtered c acc r0 r L.
Proof.
  unfold init_from_scratch. intro H.
  destruct (pre_filter c e) as [|r0] eqn:Ep; [discriminate|].
  apply pre_filter_spec in Ep as [st A]. apply filter_nodes_spec in H as [L F].
  exists st, r0, L. split; assumption.
Qed.

Lemma all_nodes_perm r L :
  L = r_nodes r ++ rev (r_services r) ++ rev (r_agents r) -> Permutation (all_nodes r) L.
Proof.
  intros ->. unfold all_nodes. apply Permutation_app_head.
  eapply Permutation_trans; [apply Permutation_app_comm|].
  apply Permutation_app; apply Permutation_rev.
Qed.

Lemma perm_subl_map {A B} (f : A -> B) (l L big : list A) :
  Permutation l L -> subl L big -> NoDup (map f big) ->
  NoDup (map f l) /\ incl (map f l) (map f big).
Proof.
  intros Hp Hs Hnd. apply (Permutation_map f) in Hp. apply (subl_map f) in Hs. split.
  - eapply Permutation_NoDup; [apply Permutation_sym; exact Hp|]. eapply subl_NoDup; eassumption.
  - intros x Hx. eapply subl_In; [exact Hs|]. eapply Permutation_in; eassumption.
Qed.

Lemma all_nodes_from c acc r0 r L :
  filtered c acc r0 r L -> Permutation (all_nodes r) L /\ subl L (r_nodes r0).
Proof.
  intro F. split; [apply all_nodes_perm, (f_split _ _ _ _ _ F)|].
  eapply subl_trans; [apply (f_acc _ _ _ _ _ F) | apply accessible_subl].
Qed.

Theorem one_entry_per_node c e acc r :
  init_from_scratch c e acc = inr r -> is_fork e = false -> input_distinct e = true ->
  NoDup (map n_name (all_nodes r))
  /\ incl (map n_name (all_nodes r)) (env_names e)
  /\ (is_lsf e = true -> forall n, In n (map n_name (all_nodes r)) ->
        contains "login" n = false /\ contains "batch" n = false).
Proof.
  intros H Hf Hd. apply init_decompose in H as (st & r0 & L & A & F).
  pose proof (allocated_names _ _ _ _ A) as Hn.
  pose proof (rm_init_facts c e st (al_init _ _ _ _ A)) as G.
  destruct (sg_keys _ _ _ G Hf Hd) as [N1 N2]. rewrite <- Hn in N1, N2.
  destruct (all_nodes_from _ _ _ _ _ F) as [P S].
  destruct (perm_subl_map n_name _ _ _ P S N1) as [A1 A2].
  split; [assumption|]. split.
  - intros x Hx. apply N2, A2. assumption.
  - intros Hl n Hin. apply A2 in Hin. rewrite Hn in Hin. apply in_map_iff in Hin as [p [<- Hp]].
    exact (sg_lsf _ _ _ G Hl p Hp).
Qed.

Theorem indices_unique c e acc r :
  init_from_scratch c e acc = inr r -> NoDup (map n_index (all_nodes r)).
Proof.
  intro H. apply init_decompose in H as (st & r0 & L & A & F).
  destruct (all_nodes_from _ _ _ _ _ F) as [P S].
  apply (perm_subl_map n_index _ _ _ P S (allocated_indices _ _ _ _ A)).
Qed.

Theorem sizes_configured c e acc r n :
  init_from_scratch c e acc = inr r ->
  (forall i, In i (c_bcores c) -> 0 <= i) -> (forall i, In i (c_bgpus c) -> 0 <= i) ->
  In n (all_nodes r) ->
  pattern_ok (c_bcores c) (n_cores n) = true /\ pattern_ok (c_bgpus c) (n_gpus n) = true
  /\ zlen (n_gpus n) = Z.max 0 (r_gpn r + zlen (c_bgpus c))
  /\ (size_from_file c e = false -> zlen (n_cores n) = Z.max 0 (r_cpn r + zlen (c_bcores c))).
Proof.
  intros H Hc Hg Hin. apply init_decompose in H as (st & r0 & L & A & F).
  assert (Hn : In n (r_nodes r0)).
  { destruct (all_nodes_from _ _ _ _ _ F) as [P S].
    eapply subl_In; [exact S|]. eapply Permutation_in; eassumption. }
  destruct (block_nodes_In _ _ _ _ _ (al_blocked _ _ _ _ A) Hn) as [n0 [H0 Hb]].
  destruct (block_node_sized _ _ _ _ _ _ _ _ Hc Hg H0 Hb) as [p [P1 [P3 [P4 [P5 P6]]]]].
  rewrite (f_cpn _ _ _ _ _ F), (f_gpn _ _ _ _ _ F), (al_cpn _ _ _ _ A), (al_gpn _ _ _ _ A).
  repeat split; try assumption.
  - rewrite P4. f_equal. lia.
  - intro Hs. rewrite P3, (sg_size _ _ _ (rm_init_facts c e st (al_init _ _ _ _ A)) Hs p P1).
    f_equal. lia.
Qed.

Theorem agents_excluded c e acc r :
  init_from_scratch c e acc = inr r ->
  List.length (r_agents r) = count_agents (c_agents c)
  /\ List.length (r_services r) = (if c_services c then 1 else 0)%nat
  /\ (forall n, In n (r_nodes r) -> ~ In (n_index n) (map n_index (r_agents r ++ r_services r)))
  /\ (forall n, In n (r_agents r) -> ~ In (n_index n) (map n_index (r_services r))).
Proof.
  intro H. pose proof (indices_unique _ _ _ _ H) as Hnd.
  apply init_decompose in H as (st & r0 & L & A & F). destruct F.
  unfold all_nodes in Hnd. rewrite map_app in Hnd. apply NoDup_app_iff in Hnd as (_ & Hnd & Hd1).
  rewrite map_app in Hnd. apply NoDup_app_iff in Hnd as (_ & _ & Hd2).
  repeat split; try assumption.
  - intros n Hn. apply Hd1, in_map, Hn.
  - intros n Hn. apply Hd2, in_map, Hn.
Qed.

Theorem not_empty c e acc r : init_from_scratch c e acc = inr r -> r_nodes r <> [].
Proof. intro H. apply init_decompose in H as (st & r0 & L & A & F). apply (f_nonempty _ _ _ _ _ F). Qed.

Theorem not_longer_than_requested c e acc r :
  init_from_scratch c e acc = inr r -> 0 <= r_req_nodes r ->
  zlen (r_nodes r) + zlen (r_agents r) + zlen (r_services r) <= r_req_nodes r.
Proof.
  intros H Hrn. apply init_decompose in H as (st & r0 & L & A & F). destruct F.
  rewrite f_rn0 in *. specialize (f_len0 Hrn). rewrite f_split0 in f_len0. unfold zlen in *.
  rewrite !app_length, !rev_length in f_len0. lia.
Qed.

Theorem requested_as_configured c e acc r :
  init_from_scratch c e acc = inr r -> is_fork e = false -> c_nodes c <> 0 ->
  r_req_nodes r = c_nodes c.
Proof.
  intros H _ Hc. (* Fork keeps a given node count too *)
  apply init_decompose in H as (st & r0 & L & A & F).
  pose proof (sg_rn _ _ _ (rm_init_facts c e st (al_init _ _ _ _ A)) (or_intror Hc)) as Hs.
  rewrite (f_rn _ _ _ _ _ F), (al_rn _ _ _ _ A); [assumption | rewrite Hs; assumption].
Qed.

(* the usable nodes are offered up to the requested number, and start-up
   fails only when they do not suffice *)
Theorem offers_accessible c e acc r0 r :
  pre_filter c e = inr r0 -> init_from_scratch c e acc = inr r ->
  (forall n, In n (all_nodes r) -> In n (accessible (r_backup r0) acc (r_nodes r0)))
  /\ (0 <= r_req_nodes r ->
      zlen (all_nodes r) = Z.min (r_req_nodes r) (zlen (accessible (r_backup r0) acc (r_nodes r0)))).
Proof.
  intros Hp H. unfold init_from_scratch in H. rewrite Hp in H.
  apply filter_nodes_spec in H as [L F]. destruct F.
  pose proof (all_nodes_perm r L f_split0) as Hperm. split.
  - intros n Hn. eapply subl_In; [exact f_acc0|]. eapply Permutation_in; eassumption.
  - intro Hrn. rewrite f_rn0 in *. rewrite <- (f_len0 Hrn). unfold zlen.
    rewrite (Permutation_length Hperm). reflexivity.
Qed.

Theorem startup_fails_only_if_short c e acc r0 :
  pre_filter c e = inr r0 -> scalars_ok r0 = true -> 0 <= r_req_nodes r0 ->
  needed c <= Z.min (r_req_nodes r0) (zlen (accessible (r_backup r0) acc (r_nodes r0))) ->
  exists r, rm_construct c e acc = inr r.
Proof.
  intros Hp Hs Hrn Hen.
  destruct (filter_nodes_enough c acc r0 Hrn Hen) as [r Hr]. exists r.
  unfold rm_construct, init_from_scratch. rewrite Hp, Hr.
  apply filter_nodes_spec in Hr as [L F]. destruct F.
  unfold scalars_ok in Hs. apply andb_true_iff in Hs as [Hs H3]. apply andb_true_iff in Hs as [H1 H2].
  assert (Hn : needed c >= 1).
  { unfold needed. destruct (c_services c); lia. }
  unfold verify. rewrite f_rn0, f_rc0, f_cpn0, f_np0, H1, H2, H3.
  replace (r_req_nodes r0 =? 0) with false by (symmetry; apply Z.eqb_neq; lia).
  destruct (r_nodes r); [contradiction | reflexivity].
Qed.

Lemma opt_map_slots l : opt_map value_slot (map slot_value l) = Some l.
Proof. induction l as [|s l IH]; simpl; [reflexivity|]. rewrite IH. destruct s; reflexivity. Qed.

Lemma value_node_value n : value_node (node_value n) = Some n.
Proof.
  unfold value_node, node_value. simpl. rewrite !opt_map_slots. destruct n; reflexivity.
Qed.

Lemma opt_map_nodes l : opt_map value_node (map node_value l) = Some l.
Proof.
  induction l as [|n l IH]; [reflexivity|].
  cbn [map opt_map]. rewrite value_node_value, IH. reflexivity.
Qed.

(* the round trip of the record; registry_round_trip below is that of the
   constructor's result, verification included *)
Theorem from_dict_as_dict r : from_dict (as_dict r) = Some r.
Proof.
  unfold from_dict, as_dict, get_int, get_nodes. simpl. rewrite !opt_map_nodes.
  destruct r; reflexivity.
Qed.

Theorem registry_round_trip c e acc r :
  rm_construct c e acc = inr r -> rm_from_registry (as_dict r) = inr r.
Proof.
  unfold rm_construct, rm_from_registry. intro H.
  destruct (init_from_scratch c e acc) as [|r0]; [discriminate|].
  destruct (verify r0) eqn:Ev; [|discriminate]. injection H as ->.
  rewrite from_dict_as_dict, Ev. reflexivity.
Qed.

Lemma construct_scratch c e acc r :
  rm_construct c e acc = inr r -> init_from_scratch c e acc = inr r.
Proof.
  unfold rm_construct. destruct (init_from_scratch c e acc) as [|r0]; [discriminate|].
  destruct (verify r0); [|discriminate]. intro H; injection H as ->. reflexivity.
Qed.

Lemma slot_eqb_refl s : slot_eqb s s = true.
Proof. destruct s; reflexivity. Qed.

Lemma node_eqb_refl n : node_eqb n n = true.
Proof.
  unfold node_eqb. rewrite String.eqb_refl, !Z.eqb_refl, !(eqb_list_refl _ slot_eqb_refl). reflexivity.
Qed.

Lemma rminfo_eqb_refl r : rminfo_eqb r r = true.
Proof.
  unfold rminfo_eqb. rewrite !Z.eqb_refl, !(eqb_list_refl _ node_eqb_refl). reflexivity.
Qed.

Lemma forallb_nonneg l : forallb (fun i => 0 <=? i) l = true -> forall i, In i l -> 0 <= i.
Proof. intros H i Hi. rewrite forallb_forall in H. apply H in Hi. apply Z.leb_le. assumption. Qed.

Theorem oracle_ok_names c e acc r : rm_construct c e acc = inr r -> ok_names e r = true.
Proof.
  intro H. apply construct_scratch in H. unfold ok_names.
  destruct (is_fork e) eqn:Ef; [reflexivity|]. destruct (input_distinct e) eqn:Ed; [|reflexivity].
  destruct (one_entry_per_node _ _ _ _ H Ef Ed) as [N1 [N2 N3]]. simpl.
  apply andb_true_iff; split; [apply andb_true_iff; split|].
  - apply nodupS_NoDup. assumption.
  - apply forallb_forall. intros n Hn. apply memS_In. apply N2. assumption.
  - destruct (is_lsf e) eqn:El; [|reflexivity]. simpl.
    apply forallb_forall. intros n Hn. destruct (N3 eq_refl n Hn) as [L1 L2]. rewrite L1, L2. reflexivity.
Qed.

Theorem oracle_ok_indices c e acc r : rm_construct c e acc = inr r -> ok_indices r = true.
Proof.
  intro H. apply construct_scratch in H. apply nodupZ_NoDup. eapply indices_unique; eassumption.
Qed.

Theorem oracle_ok_sizes c e acc r : rm_construct c e acc = inr r -> ok_sizes c e r = true.
Proof.
  intro H. apply construct_scratch in H. unfold ok_sizes.
  destruct (blocked_wf c) eqn:Ew; [|reflexivity]. simpl.
  unfold blocked_wf in Ew. apply andb_true_iff in Ew as [Ew Hg]. apply andb_true_iff in Ew as [_ Hc].
  apply forallb_forall. intros n Hn.
  destruct (sizes_configured _ _ _ _ n H (forallb_nonneg _ Hc) (forallb_nonneg _ Hg) Hn)
    as [S1 [S2 [S3 S4]]].
  rewrite S1, S2. simpl. apply andb_true_iff; split; [apply Z.eqb_eq; assumption|].
  destruct (size_from_file c e); [reflexivity|]. simpl. apply Z.eqb_eq. apply S4. reflexivity.
Qed.

Theorem oracle_ok_reserved c e acc r : rm_construct c e acc = inr r -> ok_reserved c r = true.
Proof.
  intro H. apply construct_scratch in H.
  destruct (agents_excluded _ _ _ _ H) as [A1 [A2 [A3 A4]]]. unfold ok_reserved.
  repeat (apply andb_true_iff; split).
  - apply Nat.eqb_eq. assumption.
  - apply Nat.eqb_eq. assumption.
  - apply forallb_forall. intros n Hn. apply negb_true_iff, not_true_iff_false.
    rewrite memZ_In. apply A3, Hn.
  - apply forallb_forall. intros n Hn. apply negb_true_iff, not_true_iff_false.
    rewrite memZ_In. apply A4, Hn.
Qed.

Theorem oracle_ok_nonempty c e acc r : rm_construct c e acc = inr r -> ok_nonempty r = true.
Proof.
  intro H. apply construct_scratch in H. apply not_empty in H. unfold ok_nonempty.
  destruct (r_nodes r); [contradiction | reflexivity].
Qed.

Theorem oracle_ok_bound c e acc r :
  rm_construct c e acc = inr r -> (r_req_nodes r <? 0) || ok_bound r = true.
Proof.
  intro H. apply construct_scratch in H. destruct (r_req_nodes r <? 0) eqn:E; [reflexivity|].
  apply Z.ltb_ge in E. simpl. unfold ok_bound. apply Z.leb_le.
  pose proof (not_longer_than_requested _ _ _ _ H E). unfold zlen in *. lia.
Qed.

Theorem oracle_ok_same c e acc r :
  rm_construct c e acc = inr r -> ok_same r (Some (rm_from_registry (as_dict r))) = true.
Proof.
  intro H. rewrite (registry_round_trip _ _ _ _ H). simpl. apply rminfo_eqb_refl.
Qed.

Lemma same_node_refl n : same_node n n = true.
Proof. unfold same_node. rewrite Z.eqb_refl, String.eqb_refl. reflexivity. Qed.

Theorem oracle_ok_accessible c e acc : ok_accessible c e acc (rm_construct c e acc) = true.
Proof.
  unfold ok_accessible. destruct (pre_filter c e) as [|r0] eqn:Ep; [reflexivity|].
  destruct (rm_construct c e acc) as [er|r] eqn:Ec.
  - apply negb_true_iff. destruct (scalars_ok r0) eqn:Es; [|reflexivity].
    destruct (0 <=? r_req_nodes r0) eqn:Er; [|reflexivity].
    destruct (needed c <=? _) eqn:En; [|reflexivity]. exfalso.
    apply Z.leb_le in Er. apply Z.leb_le in En.
    destruct (startup_fails_only_if_short c e acc r0 Ep Es Er En) as [r Hr]. congruence.
  - pose proof (construct_scratch _ _ _ _ Ec) as Hi.
    destruct (offers_accessible _ _ _ _ _ Ep Hi) as [A1 A2].
    repeat (apply andb_true_iff; split).
    + apply forallb_forall. intros n Hn. apply existsb_exists. exists n.
      split; [apply A1; assumption | apply same_node_refl].
    + apply nodupZ_NoDup. eapply indices_unique; eassumption.
    + destruct (r_req_nodes r <? 0) eqn:E; [reflexivity|]. apply Z.ltb_ge in E.
      simpl. apply Z.eqb_eq. apply A2. assumption.
Qed.

Lemma init_in_env pe s : snd (init_in pe s) = pe.
Proof. reflexivity. Qed.

(* an initialisation leaves the environment as it found it, so a sequence is initialised element by element *)
Lemma seq_independent l : forall pe,
  run_seq pe l =
  map (fun ps => rm_construct (with_smt_env (fst ps) (st_cfg (snd ps))) (st_env (snd ps)) (st_acc (snd ps)))
      (combine (given_envs pe l) (map snd l)).
Proof.
  induction l as [|[u s] t IH]; intro pe; simpl; [reflexivity|].
  rewrite IH. reflexivity.
Qed.

(* the last result of a sequence is the initialisation in the environment the user gave last *)
Lemma run_seq_last u s : forall l pe,
  nth (List.length l) (run_seq pe (l ++ [(u, s)])) (inl OtherError)
  = fst (init_in (apply_user u (last (given_envs pe l) pe)) s).
Proof.
  induction l as [|[u0 s0] t IH]; intro pe; [reflexivity|].
  cbn [List.length app run_seq nth]. rewrite init_in_env, IH.
  cbn [given_envs]. rewrite last_cons. reflexivity.
Qed.
