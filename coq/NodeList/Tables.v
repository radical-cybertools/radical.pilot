(* NodeList -- the table-like parts of agent/resource_manager/base.py
   (regenerated into Gen/RMInfoTables.v on every run) agree with what the
   model assumes: defaults used by RMInfo(from_dict), schema keys written by
   as_dict, the factory entries of the seven modelled resource managers. *)
From Coq Require Import ZArith List Bool String.
From RP Require Import Common.Eqb Gen.RMInfoTables NodeList.Model NodeList.Oracle.
Import ListNotations.

Fixpoint assocZ (k : string) (l : list (string * Z)) : option Z :=
  match l with [] => None | (k', v) :: t => if String.eqb k k' then Some v else assocZ k t end.
Fixpoint assocS {B} (k : string) (l : list (string * B)) : option B :=
  match l with [] => None | (k', v) :: t => if String.eqb k k' then Some v else assocS k t end.

(* the RMInfo that RMInfo() gives according to the SOURCE's _defaults *)
Definition source_default_info : option rminfo :=
  let i k := assocZ k rminfo_default_ints in
  let l k := match assocS k rminfo_default_empty with
             | Some "list"%string => Some (@nil node) | _ => None end in
  match i "requested_nodes"%string, i "requested_cores"%string, i "requested_gpus"%string,
        i "backup_nodes"%string, i "cores_per_node"%string, i "gpus_per_node"%string,
        i "threads_per_core"%string with
  | Some rn, Some rc, Some rg, Some bk, Some cpn, Some gpn, Some tpc =>
    match i "lfs_per_node"%string, i "mem_per_node"%string, i "n_partitions"%string,
          l "node_list"%string, l "backup_list"%string, l "agent_node_list"%string,
          l "service_node_list"%string with
    | Some lf, Some me, Some np, Some nl, Some bl, Some al, Some sl =>
        Some (mkInfo rn rc rg bk cpn gpn tpc lf me np nl bl al sl)
    | _, _, _, _, _, _, _ => None
    end
  | _, _, _, _, _, _, _ => None
  end.

Definition a_record : rminfo := mkInfo 1 1 0 0 1 0 1 0 0 1 [] [] [] [].

Definition modelled_factory : list (string * (string * string)) :=
  [("SLURM", ("Slurm", "slurm")); ("PBSPRO", ("PBSPro", "pbspro")); ("LSF", ("LSF", "lsf"));
   ("FORK", ("Fork", "fork")); ("COBALT", ("Cobalt", "cobalt")); ("TORQUE", ("Torque", "torque"));
   ("CCM", ("CCM", "ccm"))]%string.

Definition tables_wf : bool :=
  (* defaults: RMInfo(from_dict) of the model fills absent keys as the source does *)
  eqb_option rminfo_eqb (from_dict []) source_default_info
  (* every key as_dict writes is a schema key (verify() rejects others) *)
  && forallb (fun kv => memS (fst kv) rminfo_schema_keys) (as_dict a_record)
  (* the factory creates the seven modelled classes under their names *)
  && forallb (fun e => match assocS (fst e) rm_factory with
                       | Some (cls, mod_) => String.eqb cls (fst (snd e)) && String.eqb mod_ (snd (snd e))
                       | None => false end) modelled_factory.

Lemma tables_wf_ok : tables_wf = true.
Proof. vm_compute. reflexivity. Qed.
