(* C10 / Quote: sh_quote followed by bash's word parsing is the identity on
   every byte string without $, backtick and NUL -- unbounded, by induction. *)
From Coq Require Import ZArith List Bool Lia.
From RP Require Import Quote.Model.
Import ListNotations.
Open Scope Z_scope.

Lemma bytes_eqb_eq a : forall b, bytes_eqb a b = true <-> a = b.
Proof.
  induction a as [|x a IH]; intros [|y b]; simpl; split; intro H; try reflexivity; try discriminate.
  - apply andb_true_iff in H as [H1 H2]. apply Z.eqb_eq in H1. apply IH in H2. congruence.
  - injection H as -> ->. rewrite Z.eqb_refl. now apply IH.
Qed.

Lemma bytes_eqb_refl a : bytes_eqb a a = true.
Proof. now apply bytes_eqb_eq. Qed.

Definition esc1 (c : Z) : bytes :=
  if c =? c_bs then [c_bs; c_bs] else if c =? c_dq then [c_bs; c_dq] else [c].

Lemma sh_escape_cons c d : sh_escape (c :: d) = esc1 c ++ sh_escape d.
Proof.
  unfold sh_escape, replace1, esc1. simpl flat_map at 2.
  rewrite flat_map_app. f_equal.
  destruct (Z.eqb_spec c c_bs) as [->|Hbs]; [reflexivity|].
  simpl. rewrite app_nil_r. reflexivity.
Qed.

Lemma sh_escape_nil : sh_escape [] = [].
Proof. reflexivity. Qed.

Lemma bw_dq_body e d : safe d = true -> forall s cur acc,
  bw_run e (sh_escape d ++ c_dq :: s) (MQ, Some cur, acc) = bw_run e s (MU, Some (rev d ++ cur), acc).
Proof.
  induction d as [|c d IH]; intros Hs s cur acc.
  - reflexivity.
  - simpl in Hs. apply andb_true_iff in Hs as [Hc Hd].
    rewrite sh_escape_cons. unfold esc1.
    unfold safe_byte in Hc. apply negb_true_iff in Hc.
    apply orb_false_iff in Hc as [Hc H0]. apply orb_false_iff in Hc as [Hdol Hbt].
    replace (rev (c :: d) ++ cur) with (rev d ++ c :: cur) by (simpl; now rewrite <- app_assoc).
    destruct (Z.eqb_spec c c_bs) as [->|Hbs].
    + simpl app. cbn [bw_run step_char step_base]. cbn. apply (IH Hd).
    + destruct (Z.eqb_spec c c_dq) as [->|Hdq].
      * simpl app. cbn [bw_run step_char step_base]. cbn. apply (IH Hd).
      * simpl app. cbn [bw_run step_char step_base].
        apply Z.eqb_neq in Hbs, Hdq. rewrite Hdq, Hbs, Hdol, Hbt, H0. cbn [orb]; unfold push; cbn iota.
        apply (IH Hd).
Qed.

(* from the unquoted state the text p adds w to the word in progress, whatever follows; even an
   empty w opens a word: that is how "" becomes an argument *)
Definition eats (e : envmap) (p w : bytes) : Prop := forall s cur acc,
  bw_run e (p ++ s) (MU, cur, acc) = bw_run e s (MU, pushes w cur, acc).

Lemma eats_app e p1 w1 p2 w2 : eats e p1 w1 -> eats e p2 w2 -> eats e (p1 ++ p2) (w1 ++ w2).
Proof.
  intros H1 H2 s cur acc. rewrite <- app_assoc, H1, H2. unfold pushes. now rewrite rev_app_distr, app_assoc.
Qed.

Lemma eats_last e p w acc : eats e p w -> bw_run e p (MU, None, acc) = Some (rev acc ++ [w]).
Proof. intro H. rewrite <- (app_nil_r p), H. simpl. now rewrite app_nil_r, rev_involutive. Qed.

Lemma bw_blank e s cur acc : bw_run e ([c_sp] ++ s) (MU, cur, acc) = bw_run e s (MU, None, flush cur acc).
Proof. reflexivity. Qed.

Lemma eats_word e p w s acc : eats e p w ->
  bw_run e (p ++ [c_sp] ++ s) (MU, None, acc) = bw_run e s (MU, None, w :: acc).
Proof. intro H. rewrite H, bw_blank. cbn [flush pushes]. now rewrite app_nil_r, rev_involutive. Qed.

Lemma bw_quote e a : safe a = true -> eats e (sh_quote a) a.
Proof.
  intros Hs s cur acc. destruct a as [|c a].
  - reflexivity.
  - unfold sh_quote. set (d := c :: a) in *.
    change ((c_dq :: sh_escape d ++ [c_dq]) ++ s) with (c_dq :: (sh_escape d ++ [c_dq]) ++ s).
    rewrite <- app_assoc. cbn [bw_run step_char step_base]. cbn [is_blank].
    change (c_dq =? c_sp) with false. change (c_dq =? c_tab) with false. cbn [orb].
    rewrite Z.eqb_refl. unfold pushes. cbn [rev app].
    apply (bw_dq_body e d Hs).
Qed.

(* the smallest plain character is '%': blanks, the double quote, '$' and python's whitespace lie below *)
Lemma plain_not_special c : is_plain c = true ->
  is_blank c = false /\ (c =? c_dq) = false /\ (c =? c_dol) = false /\ is_pyspace c = false.
Proof. unfold is_plain, is_ident_char, is_alpha_, is_digit, is_blank, is_pyspace, c_sp, c_tab, c_dq, c_dol. lia. Qed.

Lemma bw_plain e w : plain_word w = true -> eats e w w.
Proof.
  destruct w as [|c w]; [discriminate|]. unfold plain_word, eats. revert c.
  induction w as [|c' w IH]; intros c Hp s cur acc; simpl in Hp; apply andb_true_iff in Hp as [Hc Hw];
    destruct (plain_not_special c Hc) as (Hb & Hq & Hd & _);
    rewrite <- app_comm_cons; cbn [bw_run step_char step_base]; rewrite Hb, Hq, Hd, Hc.
  - reflexivity.
  - rewrite (IH c' Hw). unfold pushes, push. simpl. now rewrite <- !app_assoc.
Qed.

Lemma bw_args e args : forallb safe args = true -> forall acc,
  bw_run e (join [c_sp] (map sh_quote args)) (MU, None, acc) = Some (rev acc ++ args).
Proof.
  induction args as [|a args IH]; intros Hs acc; [simpl; now rewrite app_nil_r|].
  simpl in Hs. apply andb_true_iff in Hs as [Ha Hr].
  destruct args as [|b args].
  - simpl. apply eats_last, bw_quote, Ha.
  - change (join [c_sp] (map sh_quote (a :: b :: args)))
      with (sh_quote a ++ [c_sp] ++ join [c_sp] (map sh_quote (b :: args))).
    rewrite (eats_word e _ a _ _ (bw_quote e a Ha)), (IH Hr). simpl. now rewrite <- app_assoc.
Qed.

(* x does not end in python whitespace: rstrip leaves it alone *)
Definition black (x : bytes) : Prop := exists y c, x = y ++ [c] /\ is_pyspace c = false.

Lemma black_app x y : black y -> black (x ++ y).
Proof. intros (z & c & -> & H). exists (x ++ z), c. now rewrite app_assoc. Qed.

Lemma rstrip_black x : black x -> rstrip x = x.
Proof.
  intros (y & c & -> & H). unfold rstrip. rewrite rev_app_distr. simpl. rewrite H. simpl. now rewrite rev_involutive.
Qed.

Lemma rstrip_black_sp x : black x -> rstrip (x ++ [c_sp]) = x.
Proof.
  intro H. unfold rstrip. rewrite rev_app_distr. change (rev [c_sp] ++ rev x) with (c_sp :: rev x).
  cbn [dropwhile]. change (is_pyspace c_sp) with true. cbn iota. exact (rstrip_black x H).
Qed.

Lemma black_quote a : black (sh_quote a).
Proof.
  destruct a as [|c a]; [exists [c_dq], c_dq; now split|].
  exists (c_dq :: sh_escape (c :: a)), c_dq. now split.
Qed.

Lemma black_plain w : plain_word w = true -> black w.
Proof.
  intro H. destruct w as [|c0 w]; [discriminate|]. unfold plain_word in H.
  destruct (exists_last (l := c0 :: w) ltac:(discriminate)) as (x & c & E).
  exists x, c. split; [exact E|]. apply plain_not_special.
  rewrite forallb_forall in H. apply H. rewrite E. apply in_or_app. right. now left.
Qed.

Lemma black_args args : args <> [] -> black (join [c_sp] (map sh_quote args)).
Proof.
  induction args as [|a args IH]; intro Hne; [congruence|].
  destruct args as [|b args]; [apply black_quote|].
  change (join [c_sp] (map sh_quote (a :: b :: args)))
    with (sh_quote a ++ [c_sp] ++ join [c_sp] (map sh_quote (b :: args))).
  apply black_app, black_app, IH. discriminate.
Qed.

(* the command line written by LaunchMethod.get_exec, read by bash, is the
   described command word followed by exactly the described arguments *)
Theorem argv_roundtrip_lemma e exe args :
  plain_word exe = true -> forallb safe args = true ->
  bash_words e (get_exec exe args) = Some (exe :: args).
Proof.
  intros He Hs. unfold bash_words, get_exec.
  destruct args as [|a args].
  - simpl arg_string. rewrite app_nil_r. rewrite (rstrip_black_sp exe (black_plain exe He)).
    apply (eats_last e exe exe []), bw_plain, He.
  - unfold arg_string. rewrite rstrip_black by (apply black_app, black_app, black_args; discriminate).
    rewrite (eats_word e _ exe _ _ (bw_plain e exe He)), (bw_args e (a :: args) Hs). reflexivity.
Qed.

(* a value written with sh_quote is read back unchanged *)
Theorem quoted_word_roundtrip e v : safe v = true -> bash_word e (sh_quote v) = Some v.
Proof.
  intro Hs. unfold bash_word, bash_words. now rewrite (eats_last e _ v [] (bw_quote e v Hs)).
Qed.

Lemma ident_plain k : is_ident k = true -> plain_word k = true.
Proof.
  destruct k as [|c k]; [discriminate|]. unfold is_ident, plain_word. intro H.
  apply andb_true_iff in H as [Hc Hk]. simpl. apply andb_true_iff. split.
  - unfold is_plain, is_ident_char. now rewrite Hc.
  - rewrite forallb_forall in *. intros x Hx. unfold is_plain. now rewrite (Hk x Hx).
Qed.

(* a literal between plain double quotes (the way _get_rp_env writes ids and
   addresses: no escaping at all) is read back unchanged when it has no
   double quote, backslash, $, backtick or NUL *)
Definition literal_byte (c : Z) : bool := safe_byte c && negb (c =? c_dq) && negb (c =? c_bs).
Definition literal (v : bytes) : bool := match v with [] => false | _ => forallb literal_byte v end.

Lemma literal_escape v : forallb literal_byte v = true -> sh_escape v = v /\ safe v = true.
Proof.
  induction v as [|c v IH]; intro H; [split; reflexivity|].
  simpl in H. apply andb_true_iff in H as [Hc Hv]. destruct (IH Hv) as [E S].
  unfold literal_byte in Hc. apply andb_true_iff in Hc as [Hc Hbs]. apply andb_true_iff in Hc as [Hs Hdq].
  apply negb_true_iff in Hbs, Hdq. split.
  - rewrite sh_escape_cons, E. unfold esc1. now rewrite Hbs, Hdq.
  - simpl. now rewrite Hs, S.
Qed.

Theorem literal_roundtrip e v : literal v = true -> bash_word e (c_dq :: v ++ [c_dq]) = Some v.
Proof.
  intro H. destruct v as [|c v]; [discriminate|]. unfold literal in H.
  destruct (literal_escape (c :: v) H) as [E S].
  rewrite <- (quoted_word_roundtrip e (c :: v) S). unfold sh_quote. now rewrite E.
Qed.
