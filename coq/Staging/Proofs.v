(* Lemmas about the staging model, and the vocabulary in which Props/C11.v
   states the property: plain (a short form's texts), op_spec (what a file
   operation that succeeded did), keeps / files_only / no_tar / files_only_rs
   (the runs the list theorems speak of), ready_file / ready_dir / ready_seq /
   staged_seq (the states in which a directive is certain to be carried out),
   not_staged_out, and the example tree ex_sb / ex_fs.  In order: strings and
   URLs; the file system; one file operation (res_ok is the statement, its
   readings are handle_sd_spec and handle_sd_dir_spec); logs and the last-writer
   theorems of the two directive loops; the per-task loop; directives that make
   their own parents; tarballs. *)
From Coq Require Import ZArith List Bool String Ascii Permutation.
From RP Require Import Staging.Model.
Import ListNotations.
Open Scope list_scope.

Fixpoint nochar (c : ascii) (s : string) : bool :=
  match s with
  | EmptyString => true
  | String x s' => negb (Ascii.eqb c x) && nochar c s'
  end.

Lemma nochar_app c a b : nochar c (a +++ b) = nochar c a && nochar c b.
Proof. induction a as [|x a IH]; simpl; [reflexivity|]. rewrite IH, andb_assoc. reflexivity. Qed.

Lemma nochar_cons c x s : nochar c (String x s) = true -> Ascii.eqb c x = false /\ nochar c s = true.
Proof. cbn [nochar]. intro H. apply andb_prop in H as [H1 H2]. apply negb_true_iff in H1. auto. Qed.

Lemma pre_app s b : pre s (s +++ b) = true.
Proof. induction s as [|x s IH]; simpl; [reflexivity|]. rewrite Ascii.eqb_refl. exact IH. Qed.

Lemma drop_app s b : drop (String.length s) (s +++ b) = b.
Proof. induction s as [|x s IH]; simpl; [reflexivity|exact IH]. Qed.

Lemma app_assoc_s a b c : (a +++ b) +++ c = a +++ (b +++ c).
Proof. induction a as [|x a IH]; simpl; [reflexivity|]. rewrite IH. reflexivity. Qed.

Lemma app_nil_s a : a +++ "" = a.
Proof. induction a as [|x a IH]; simpl; [reflexivity|]. rewrite IH. reflexivity. Qed.

Lemma split_at_eq sep s :
  split_at sep s =
  if pre sep s then Some (EmptyString, drop (String.length sep) s)
  else match s with
       | EmptyString => None
       | String c s' => match split_at sep s' with Some (a, b) => Some (String c a, b) | None => None end
       end.
Proof. destruct s; reflexivity. Qed.

(* a separator starting with c does not start inside a c-free prefix: the
   search goes on behind it *)
Lemma split_at_prefix c sep a s : nochar c a = true ->
  split_at (String c sep) (a +++ s) =
  match split_at (String c sep) s with Some (x, y) => Some (a +++ x, y) | None => None end.
Proof.
  induction a as [|x a IH]; intro H; cbn [append].
  - destruct (split_at (String c sep) s) as [[? ?]|]; reflexivity.
  - apply nochar_cons in H as [H1 H2]. rewrite (split_at_eq _ (String x _)). cbn [pre]. rewrite H1, (IH H2).
    destruct (split_at (String c sep) s) as [[? ?]|]; reflexivity.
Qed.

Lemma split_at_nochar c sep s : nochar c s = true -> split_at (String c sep) s = None.
Proof. intro H. rewrite <- (app_nil_s s), (split_at_prefix c sep s "" H). reflexivity. Qed.

Lemma split_at_app c sep a b :
  nochar c a = true -> split_at (String c sep) (a +++ String c sep +++ b) = Some (a, b).
Proof. intro H. rewrite (split_at_prefix c sep a _ H), split_at_eq, pre_app, drop_app, app_nil_s. reflexivity. Qed.

Local Notation gt := (">"%char).
Local Notation lt := ("<"%char).
Definition plain (s : string) : bool := nochar gt s && nochar lt s.

Lemma contains_nochar c sep s : nochar c s = true -> contains (String c sep) s = false.
Proof. intro H. unfold contains. rewrite (split_at_nochar _ _ _ H). reflexivity. Qed.

Lemma contains_app c sep a b :
  nochar c a = true -> contains (String c sep) (a +++ String c sep +++ b) = true.
Proof. intro Ha. unfold contains. rewrite (split_at_app _ _ _ _ Ha). reflexivity. Qed.

Lemma contains_single c a b :
  nochar c a = true -> nochar c b = true ->
  contains (String c (String c "")) (a +++ String c "" +++ b) = false.
Proof.
  intros Ha Hb. unfold contains. rewrite (split_at_prefix c _ a _ Ha). cbn [append].
  rewrite split_at_eq, (split_at_nochar c _ b Hb). cbn [pre]. rewrite Ascii.eqb_refl.
  destruct b as [|y b]; [reflexivity|]. apply nochar_cons in Hb as [Hb _]. cbn [pre andb]. rewrite Hb. reflexivity.
Qed.

Lemma py_split2_app c sep a b :
  nochar c a = true -> nochar c b = true ->
  py_split2 (String c sep) (a +++ String c sep +++ b) = inr (a, b).
Proof.
  intros Ha Hb. unfold py_split2. rewrite (split_at_app _ _ _ _ Ha).
  rewrite (contains_nochar _ _ _ Hb). reflexivity.
Qed.

Lemma nochar_mid c d a b : Ascii.eqb c d = false ->
  nochar c a = true -> nochar c b = true -> forall sep, nochar c sep = true ->
  nochar c (a +++ sep +++ b) = true.
Proof. intros _ Ha Hb sep Hs. rewrite !nochar_app, Ha, Hs, Hb. reflexivity. Qed.

(* two ">": ValueError, unless the text also holds a ">>" (b empty, or c
   beginning with ">"): expand1 tries that form first *)
Lemma short_two_gt a b c : plain a = true -> plain b = true ->
  expand1 (SStr (a +++ ">" +++ b +++ ">" +++ c)) = inl EValue \/
  contains ">>" (a +++ ">" +++ b +++ ">" +++ c) = true.
Proof.
  intros Ha Hb. destruct (andb_prop _ _ Ha) as [Ga _], (andb_prop _ _ Hb) as [Gb _].
  destruct (contains ">>" (a +++ ">" +++ b +++ ">" +++ c)) eqn:E; [right; reflexivity|left].
  unfold expand1. rewrite E, (contains_app gt "" a (b +++ ">" +++ c) Ga).
  unfold sum_map, py_split2. rewrite (split_at_app gt "" a (b +++ ">" +++ c) Ga), (contains_app gt "" b c Gb).
  reflexivity.
Qed.

Lemma expand1_as_dict d : nonempty (s_src d) = true -> expand1 (as_dict d) = inr d.
Proof. intro H. destruct d as [s t a]. simpl in *. rewrite H. reflexivity. Qed.

Lemma expand_as_dict l :
  forallb (fun d => nonempty (s_src d)) l = true -> expand (map as_dict l) = inr l.
Proof.
  induction l as [|d l IH]; intro H; [reflexivity|].
  cbn [forallb] in H. apply andb_true_iff in H as [H1 H2].
  cbn [map expand]. rewrite (expand1_as_dict d H1). rewrite (IH H2). reflexivity.
Qed.

Local Notation colon := (":"%char).

Lemma parse_url_schema sch rest :
  nochar colon sch = true ->
  parse_url (sch +++ "://" +++ rest) =
  match split_at "/" rest with
  | Some (h, p) => {| u_schema := sch; u_host := h; u_path := parse_path (String slash p) |}
  | None => {| u_schema := sch; u_host := rest; u_path := parse_path EmptyString |}
  end.
Proof. intro H. unfold parse_url. rewrite (split_at_app colon "//" sch rest H). reflexivity. Qed.

Lemma parse_url_plain raw :
  contains "://" raw = false -> parse_url raw = {| u_schema := ""; u_host := ""; u_path := parse_path raw |}.
Proof. unfold contains, parse_url. destruct (split_at "://" raw) as [[? ?]|]; [discriminate|reflexivity]. Qed.

Lemma comps_of_slash p : comps_of (String slash p) = comps_of p.
Proof. reflexivity. Qed.

Lemma path_eqb_eq a b : path_eqb a b = true <-> a = b.
Proof.
  revert b; induction a as [|x a IH]; intros [|y b]; simpl; split; intro H; try reflexivity; try discriminate.
  - apply andb_true_iff in H as [H1 H2]. apply String.eqb_eq in H1. apply IH in H2. congruence.
  - injection H as -> ->. rewrite String.eqb_refl. apply IH. reflexivity.
Qed.

Lemma path_eqb_refl a : path_eqb a a = true.
Proof. apply path_eqb_eq. reflexivity. Qed.

Lemma path_eqb_neq a b : a <> b -> path_eqb a b = false.
Proof. intro H. destruct (path_eqb a b) eqn:E; [apply path_eqb_eq in E; contradiction|reflexivity]. Qed.

Lemma path_eq_dec (a b : path) : {a = b} + {a <> b}.
Proof. exact (list_eq_dec string_dec a b). Qed.

Lemma lookup_set_eq p n fs : lookup p (set p n fs) = Some n.
Proof. unfold set. simpl. rewrite path_eqb_refl. reflexivity. Qed.

Lemma lookup_set_neq p q n fs : q <> p -> lookup q (set p n fs) = lookup q fs.
Proof. intro H. unfold set. simpl. rewrite (path_eqb_neq _ _ H). reflexivity. Qed.

Lemma lookup_del_eq p fs : lookup p (del p fs) = None.
Proof.
  induction fs as [|[q n] fs IH]; simpl; [reflexivity|].
  destruct (path_eqb p q) eqn:E; simpl; [exact IH|]. rewrite E. exact IH.
Qed.

Lemma lookup_del_neq p q fs : q <> p -> lookup q (del p fs) = lookup q fs.
Proof.
  intro H. induction fs as [|[r n] fs IH]; simpl; [reflexivity|].
  destruct (path_eqb p r) eqn:E; simpl.
  - apply path_eqb_eq in E. subst r. rewrite (path_eqb_neq _ _ H). exact IH.
  - destruct (path_eqb q r); [reflexivity|exact IH].
Qed.

Lemma file_at_set_eq p c fs : file_at p (set p (F c) fs) = Some c.
Proof. unfold file_at. rewrite lookup_set_eq. reflexivity. Qed.

Lemma file_at_set_neq p q n fs : q <> p -> file_at q (set p n fs) = file_at q fs.
Proof. intro H. unfold file_at. rewrite (lookup_set_neq _ _ _ _ H). reflexivity. Qed.

Lemma file_at_del_neq p q fs : q <> p -> file_at q (del p fs) = file_at q fs.
Proof. intro H. unfold file_at. rewrite (lookup_del_neq _ _ _ H). reflexivity. Qed.

Lemma file_at_set_dir p q fs : file_at p fs = None -> file_at q (set p D fs) = file_at q fs.
Proof.
  intro H. destruct (path_eq_dec q p) as [->|Hn]; [|exact (file_at_set_neq _ _ _ _ Hn)].
  rewrite H. unfold file_at. rewrite lookup_set_eq. reflexivity.
Qed.

Lemma is_dir_lookup p fs : p <> [] -> is_dir p fs = match lookup p fs with Some D => true | _ => false end.
Proof. destruct p; [contradiction|reflexivity]. Qed.

Lemma is_dir_found p fs : lookup p fs = Some D -> is_dir p fs = true.
Proof. intro H. destruct p; [reflexivity|]. cbn [is_dir]. rewrite H. reflexivity. Qed.

Lemma exists_at_lookup p fs : p <> [] -> exists_at p fs = match lookup p fs with Some _ => true | None => false end.
Proof. destruct p; [contradiction|reflexivity]. Qed.

Lemma mkdirs_file_at rest : forall pre_ fs fs', mkdirs pre_ rest fs = Some fs' ->
  forall q, file_at q fs' = file_at q fs.
Proof.
  induction rest as [|c rest IH]; intros pre_ fs fs' H q; simpl in H.
  - injection H as <-. reflexivity.
  - destruct (lookup (pre_ ++ [c]) fs) as [[|cc]|] eqn:E.
    + exact (IH _ _ _ H q).
    + destruct rest; [injection H as <-; reflexivity|discriminate].
    + rewrite (IH _ _ _ H q). apply file_at_set_dir. unfold file_at. rewrite E. reflexivity.
Qed.

Lemma mkdir_p_file_at p fs fs' : mkdir_p p fs = Some fs' -> forall q, file_at q fs' = file_at q fs.
Proof. exact (mkdirs_file_at p [] fs fs'). Qed.

Lemma is_prefix_app a b : is_prefix a (a ++ b) = true.
Proof. induction a as [|x a IH]; [reflexivity|]. simpl. rewrite String.eqb_refl. exact IH. Qed.

Lemma is_prefix_refl a : is_prefix a a = true.
Proof. rewrite <- (app_nil_r a) at 2. apply is_prefix_app. Qed.

Lemma is_prefix_app_r p a b : is_prefix p a = true -> is_prefix p (a ++ b) = true.
Proof.
  revert a; induction p as [|x p IH]; intros a H; [reflexivity|].
  destruct a as [|y a]; [discriminate|]. simpl in *.
  apply andb_true_iff in H as [H1 H2]. rewrite H1. exact (IH a H2).
Qed.

Lemma under_not_above gp x : forall q, is_prefix (gp ++ [x]) q = true -> is_prefix q gp = false.
Proof.
  induction gp as [|y gp IH]; intros q H.
  - destruct q as [|z q]; [discriminate|reflexivity].
  - destruct q as [|z q]; [discriminate|]. simpl in *.
    apply andb_true_iff in H as [H1 H2]. apply String.eqb_eq in H1. subst z.
    rewrite String.eqb_refl. exact (IH q H2).
Qed.

Lemma parent_snoc p : p <> [] -> p = parent p ++ [last p ""].
Proof. exact (@app_removelast_last _ p ""). Qed.

Lemma above_parent q p : is_prefix q (parent p) = true -> is_prefix q p = true.
Proof.
  intro H. destruct p as [|x p]; [exact H|]. rewrite (parent_snoc (x :: p)) by discriminate.
  exact (is_prefix_app_r _ _ _ H).
Qed.

Lemma below_not_above p q : p <> [] -> is_prefix p q = true -> is_prefix q (parent p) = false.
Proof. intros Hp H. rewrite (parent_snoc p Hp) in H. exact (under_not_above _ _ _ H). Qed.

Lemma path_eqb_app_l e a b : path_eqb (e ++ a) (e ++ b) = path_eqb a b.
Proof. induction e as [|x e IH]; [reflexivity|]. simpl. rewrite String.eqb_refl. exact IH. Qed.

Lemma prefix_skipn s : forall q, is_prefix s q = true -> q = s ++ skipn (List.length s) q.
Proof.
  induction s as [|x s IH]; intros q H; [reflexivity|].
  destruct q as [|y q]; [discriminate|]. simpl in *.
  apply andb_true_iff in H as [H1 H2]. apply String.eqb_eq in H1. subst y. f_equal. exact (IH q H2).
Qed.

Lemma lookup_rebased s e rel rest fs :
  lookup (e ++ rel) (map (rebase s e) (filter (under s) fs) ++ rest) =
  match lookup (s ++ rel) fs with Some n => Some n | None => lookup (e ++ rel) rest end.
Proof.
  induction fs as [|[q n] fs IH]; [reflexivity|].
  cbn [filter]. unfold under at 1. cbn [fst].
  destruct (is_prefix s q) eqn:E.
  - cbn [map app]. unfold rebase at 1. cbn [fst snd lookup].
    rewrite path_eqb_app_l.
    rewrite (prefix_skipn s q E) at 2. rewrite path_eqb_app_l.
    destruct (path_eqb rel (skipn (List.length s) q)); [reflexivity|exact IH].
  - cbn [lookup]. rewrite path_eqb_neq by (intros <-; rewrite is_prefix_app in E; discriminate). exact IH.
Qed.

Lemma file_at_rebased s e rel rest fs c :
  file_at (s ++ rel) fs = Some c -> file_at (e ++ rel) (map (rebase s e) (filter (under s) fs) ++ rest) = Some c.
Proof.
  unfold file_at. rewrite lookup_rebased. destruct (lookup (s ++ rel) fs) as [[|cc]|]; try discriminate. trivial.
Qed.

(* a directory result: the tree is at e (the target, or target/basename for a
   directory target) and every file below the source is below e with its content *)
Definition tree_spec (s : path) (g : rloc) (fs fs' : fsys) (e : path) : Prop :=
  (e = r_comps g \/ e = r_comps g ++ [last s EmptyString]) /\
  forall rel c, file_at (s ++ rel) fs = Some c -> file_at (e ++ rel) fs' = Some c.

(* case analysis on every guard of the operation in the goal *)
Ltac guards :=
  repeat (match goal with |- context [if ?b then _ else _] => destruct b end; cbn [negb andb orb]).

(* cp -r / shutil.move of a directory: never a file result, a failure leaves
   the file system as it was *)
Definition tree_res (s : path) (g : rloc) (fs : fsys) (r : res) : Prop :=
  match r with Ok _ _ => False | OkDir fs' e => tree_spec s g fs fs' e | Fail fs' => fs' = fs end.

Lemma cp_mv_dir_res s g fs : tree_res s g fs (cp_dir s g fs) /\ tree_res s g fs (mv_dir s g fs).
Proof.
  unfold cp_dir, mv_dir. split; guards; cbn [tree_res]; try reflexivity; (split; [auto|]);
    intros rel c; apply file_at_rebased.
Qed.

(* cp of a file with content c: written to the target, or into it *)
Lemma cp_into_res c b so g fs :
  match cp_into c b so g fs with
  | Ok fs' e => (e = r_comps g \/ e = r_comps g ++ [b]) /\ fs' = set e (F c) fs
  | OkDir _ _ => False
  | Fail fs' => fs' = fs
  end.
Proof. unfold cp_into. guards; auto. Qed.

(* what a result says about the state fs1 the operation proper ran in (the
   parents of the target made) ... *)
Definition res_at (moved : bool) (s g : rloc) (fs1 : fsys) (r : res) : Prop :=
  match r with
  | Ok fs' e => exists c, file_at (r_comps s) fs1 = Some c /\
                  (e = r_comps g \/ e = r_comps g ++ [last (r_comps s) EmptyString]) /\
                  fs' = set e (F c) (if moved then del (r_comps s) fs1 else fs1)
  | OkDir fs' e => is_dir (r_comps s) fs1 = true /\ tree_spec (r_comps s) g fs1 fs' e
  | Fail fs' => fs' = fs1
  end.

Lemma tree_res_at moved s g fs1 r :
  is_dir (r_comps s) fs1 = true -> tree_res (r_comps s) g fs1 r -> res_at moved s g fs1 r.
Proof. destruct r; cbn; tauto. Qed.

(* ... and about the state fs the directive found.  A successful operation:
   the written path holds the content the source had, everything else keeps its
   content (except the source of a move) *)
Definition op_spec (moved : bool) (s g : rloc) (fs fs' : fsys) (e : path) : Prop :=
  exists c, file_at (r_comps s) fs = Some c /\ file_at e fs' = Some c /\
            (e = r_comps g \/ e = r_comps g ++ [last (r_comps s) EmptyString]) /\
            (forall q, q <> e -> (moved = true -> q <> r_comps s) -> file_at q fs' = file_at q fs).

Definition res_ok (moved : bool) (s g : rloc) (fs : fsys) (r : res) : Prop :=
  match r with
  | Ok fs' e => op_spec moved s g fs fs' e
  | OkDir fs' e => exists fs1, mkdir_p (dirname_of g) fs = Some fs1 /\ is_dir (r_comps s) fs1 = true /\
                               tree_spec (r_comps s) g fs1 fs' e
  | Fail fs' => forall q, file_at q fs' = file_at q fs
  end.

(* copy, link and move start alike: the parents of the target are made, which
   changes no file, and an empty source or target is refused *)
Lemma after_parents moved s g fs (k : fsys -> res) :
  (forall fs1, res_at moved s g fs1 (k fs1)) ->
  res_ok moved s g fs
    (if r_empty g then Fail fs else
     match mkdir_p (dirname_of g) fs with
     | None => Fail fs
     | Some fs1 => if r_empty s then Fail fs1 else k fs1
     end).
Proof.
  intro Hk. destruct (r_empty g); [intro q; reflexivity|].
  destruct (mkdir_p (dirname_of g) fs) as [fs1|] eqn:Em; [|intro q; reflexivity].
  pose proof (mkdir_p_file_at _ _ _ Em) as Hf.
  destruct (r_empty s); [exact Hf|]. specialize (Hk fs1).
  destruct (k fs1) as [fs' e|fs' e|fs']; cbn [res_at res_ok] in *.
  - destruct Hk as [c [Hc [He ->]]]. exists c. rewrite <- Hf.
    split; [exact Hc|]. split; [apply file_at_set_eq|]. split; [exact He|].
    intros q Hq Hs. rewrite (file_at_set_neq _ _ _ _ Hq), <- Hf.
    destruct moved; [exact (file_at_del_neq _ _ _ (Hs eq_refl))|reflexivity].
  - exists fs1. tauto.
  - subst fs'. exact Hf.
Qed.

Lemma op_copy_res s g fs : res_ok false s g fs (op_copy s g fs).
Proof.
  apply after_parents. intro fs1. cbv beta.
  destruct (file_at (r_comps s) fs1) as [c|] eqn:Ec.
  - pose proof (cp_into_res c (last (r_comps s) "") (Some (r_comps s)) g fs1) as H.
    destruct (cp_into _ _ _ g fs1); cbn [res_at]; [|contradiction|exact H].
    destruct H as [He ->]. exists c. auto.
  - destruct (is_dir (r_comps s) fs1) eqn:Ed; [|reflexivity]. exact (tree_res_at _ _ _ _ _ Ed (proj1 (cp_mv_dir_res _ _ _))).
Qed.

Lemma op_link_res s g fs : res_ok false s g fs (op_link s g fs).
Proof.
  apply after_parents. intro fs1. cbv beta zeta.
  destruct (file_at (r_comps s) fs1) as [c|] eqn:Ec; [|reflexivity].
  guards; cbn [res_at]; try reflexivity. exists c. auto.
Qed.

Lemma op_move_res s g fs : res_ok true s g fs (op_move s g fs).
Proof.
  apply after_parents. intro fs1. cbv beta zeta.
  destruct (file_at (r_comps s) fs1) as [c|] eqn:Ec.
  - guards; cbn [res_at]; try reflexivity; exists c; auto.
  - destruct (is_dir (r_comps s) fs1) eqn:Ed; [|reflexivity]. exact (tree_res_at _ _ _ _ _ Ed (proj2 (cp_mv_dir_res _ _ _))).
Qed.

Definition is_move (a : action) : bool := action_eqb a Move.

Lemma handle_sd_res a s g fs : res_ok (is_move a) s g fs (handle_sd a s g fs).
Proof.
  destruct a; cbn [handle_sd]; try (intro q; reflexivity).
  - apply op_copy_res.
  - apply op_copy_res.
  - apply op_link_res.
  - apply op_move_res.
Qed.

Lemma handle_sd_spec a s g fs fs' e :
  handle_sd a s g fs = Ok fs' e -> op_spec (is_move a) s g fs fs' e.
Proof. intro H. pose proof (handle_sd_res a s g fs) as R. rewrite H in R. exact R. Qed.

Lemma handle_sd_dir_spec a s g fs fs' e :
  handle_sd a s g fs = OkDir fs' e ->
  exists fs1, mkdir_p (dirname_of g) fs = Some fs1 /\ is_dir (r_comps s) fs1 = true /\
              tree_spec (r_comps s) g fs1 fs' e.
Proof. intro H. pose proof (handle_sd_res a s g fs) as R. rewrite H in R. exact R. Qed.

Definition keeps (d : sd) : bool := negb (action_eqb (s_act d) Move) && negb (action_eqb (s_act d) Tarball).

Lemma keeps_not_move d : keeps d = true -> is_move (s_act d) = false /\ action_eqb (s_act d) Tarball = false.
Proof. unfold keeps, is_move. intro H. apply andb_true_iff in H as [H1 H2]. split; apply negb_true_iff; assumption. Qed.

(* every directive of the run wrote a file (no directory tree was copied or moved) *)
Fixpoint files_only (step : sd -> fsys -> res) (l : list sd) (fs : fsys) : bool :=
  match l with
  | [] => true
  | d :: r => match step d fs with Ok fs' _ => files_only step r fs' | OkDir _ _ => false | Fail _ => true end
  end.

Definition wrote (fs fs' : fsys) (e : path) : Prop :=
  exists c, file_at e fs' = Some c /\ forall q, q <> e -> file_at q fs' = file_at q fs.

Lemma op_spec_wrote s g fs fs' e : op_spec false s g fs fs' e -> wrote fs fs' e.
Proof.
  intros [c [_ [Hc [_ Hf]]]]. exists c. split; [exact Hc|]. intros q Hq. apply Hf; [exact Hq|discriminate].
Qed.

Definition last_writer_wins (lg : wlog) (fs fs' : fsys) : Prop :=
  forall q, file_at q fs' = match last_write q lg with Some c => Some c | None => file_at q fs end.

Lemma last_writer_cons fs fs1 fs' e lg :
  wrote fs fs1 e -> last_writer_wins lg fs1 fs' ->
  last_writer_wins ((e, match file_at e fs1 with Some c => c | None => Plain 0 end) :: lg) fs fs'.
Proof.
  intros [c [Hc Hf]] H q. rewrite (H q). cbn [last_write].
  destruct (last_write q lg); [reflexivity|].
  destruct (path_eq_dec q e) as [->|Hn].
  - rewrite path_eqb_refl, Hc. reflexivity.
  - rewrite (path_eqb_neq _ _ Hn). exact (Hf q Hn).
Qed.

Lemma last_write_notin q lg : ~ In q (map fst lg) -> last_write q lg = None.
Proof.
  induction lg as [|[e c] lg IH]; intro H; [reflexivity|]. cbn [last_write].
  rewrite IH by (intro Hin; apply H; right; exact Hin).
  rewrite path_eqb_neq; [reflexivity|]. intros ->. apply H. left. reflexivity.
Qed.

(* written paths pairwise different: the last write to each is its only one *)
Lemma last_write_nodup lg :
  NoDup (map fst lg) -> Forall (fun ec => last_write (fst ec) lg = Some (snd ec)) lg.
Proof.
  induction lg as [|[e c] lg IH]; intro H; [constructor|]. inversion H as [|x xs Hnotin Hnd]; subst.
  constructor.
  - cbn [fst snd last_write]. rewrite (last_write_notin _ _ Hnotin), path_eqb_refl. reflexivity.
  - eapply Forall_impl; [|exact (IH Hnd)]. intros ec E. cbn [last_write]. rewrite E. reflexivity.
Qed.

(* ... so every written path still holds what was written to it: the step
   from the last-writer theorems of the stagers to their pairwise-different case *)
Lemma last_writer_persist lg fs fs' :
  last_writer_wins lg fs fs' -> NoDup (map fst lg) ->
  Forall (fun ec => file_at (fst ec) fs' = Some (snd ec)) lg.
Proof.
  intros H Hnd. eapply Forall_impl; [|exact (last_write_nodup lg Hnd)].
  intros ec E. rewrite (H (fst ec)), E. reflexivity.
Qed.

Section Steps.
  Variable step : sd -> fsys -> res.

  Lemma steps_acc l : forall fs lg,
    steps step l fs lg =
    {| h_ok := h_ok (steps step l fs []); h_fs := h_fs (steps step l fs []);
       h_log := lg ++ h_log (steps step l fs []) |}.
  Proof.
    induction l as [|d l IH]; intros fs lg; cbn [steps].
    - cbn [h_ok h_fs h_log]. rewrite app_nil_r. reflexivity.
    - destruct (step d fs) as [fs1 e|fs1 e|fs1].
      + destruct (action_eqb (s_act d) Tarball).
        * rewrite (IH fs1 lg). reflexivity.
        * rewrite (IH fs1 (lg ++ _)). rewrite (IH fs1 ([] ++ _)). cbn [h_ok h_fs h_log app].
          rewrite <- app_assoc. reflexivity.
      + rewrite (IH fs1 lg). reflexivity.
      + cbn [h_ok h_fs h_log]. rewrite app_nil_r. reflexivity.
  Qed.

  (* The last-writer theorems of this file are written out in full, as Props/C11.v
     states them.  In the notions above: step_frame concludes `wrote fs fs' e`, and
     the second conjunct of each theorem is `last_writer_wins (h_log r) fs (h_fs r)`
     for the result r of the run. *)
  Hypothesis step_frame : forall d fs fs' e, step d fs = Ok fs' e -> keeps d = true ->
    exists c, file_at e fs' = Some c /\ forall q, q <> e -> file_at q fs' = file_at q fs.

  (* no hypothesis on the targets: they may collide *)
  Lemma steps_last_writer l : forall fs, forallb keeps l = true -> files_only step l fs = true ->
    h_ok (steps step l fs []) = true ->
    List.length (h_log (steps step l fs [])) = List.length l /\
    forall q, file_at q (h_fs (steps step l fs [])) =
              match last_write q (h_log (steps step l fs [])) with
              | Some c => Some c
              | None => file_at q fs
              end.
  Proof.
    induction l as [|d l IH]; intros fs Hk Hfo Hok; [split; [reflexivity|intro q; reflexivity]|].
    cbn [forallb] in Hk. apply andb_true_iff in Hk as [Hk1 Hk2].
    cbn [steps files_only] in *. destruct (step d fs) as [fs1 e|fs1 e|fs1] eqn:Es; [|discriminate|discriminate].
    rewrite (proj2 (keeps_not_move d Hk1)) in *. rewrite steps_acc in *. cbn [h_ok h_fs h_log app] in *.
    destruct (IH fs1 Hk2 Hfo Hok) as [Hlen Hall].
    split; [cbn [List.length]; rewrite Hlen; reflexivity|].
    exact (last_writer_cons _ _ _ _ _ (step_frame _ _ _ _ Es Hk1) Hall).
  Qed.
End Steps.

(* each log entry records the content the resolved source had when its
   directive ran: one step of the log *)
Lemma steps_log_head step d l fs fs1 e :
  step d fs = Ok fs1 e -> action_eqb (s_act d) Tarball = false ->
  h_log (steps step (d :: l) fs []) =
  (e, match file_at e fs1 with Some c => c | None => Plain 0 end) :: h_log (steps step l fs1 []).
Proof.
  intros Es Ht. cbn [steps]. rewrite Es, Ht. rewrite steps_acc. reflexivity.
Qed.

Lemma agent_in_step_spec t d fs fs' e :
  agent_in_step t d fs = Ok fs' e -> action_eqb (s_act d) Tarball = false ->
  exists s g, complete_url (agent_ctx (t_sb t)) (s_src d) = inr s /\
              complete_url (agent_ctx (t_sb t)) (agent_fix_tgt (s_src d) (s_tgt d) fs) = inr g /\
              op_spec (is_move (s_act d)) s g fs fs' e.
Proof.
  unfold agent_in_step. intros H Ht.
  destruct (complete_url (agent_ctx (t_sb t)) (s_src d)) as [|s]; [discriminate|].
  destruct (complete_url (agent_ctx (t_sb t)) (agent_fix_tgt (s_src d) (s_tgt d) fs)) as [|g]; [discriminate|].
  destruct (has_action [Copy; Link; Move] d && negb (r_schema g =? "file")); [discriminate|].
  rewrite Ht in H. exists s, g. split; [reflexivity|]. split; [reflexivity|].
  exact (handle_sd_spec _ _ _ _ _ _ H).
Qed.

Lemma agent_out_step_spec t d fs fs' e :
  agent_out_step t d fs = Ok fs' e ->
  exists s g, complete_url (agent_ctx (t_sb t)) (s_src d) = inr s /\
              complete_url (agent_ctx (t_sb t)) (agent_fix_tgt (s_src d) (s_tgt d) fs) = inr g /\
              op_spec (is_move (s_act d)) s g fs fs' e.
Proof.
  unfold agent_out_step. intros H.
  destruct (complete_url (agent_ctx (t_sb t)) (s_src d)) as [|s]; [discriminate|].
  destruct (complete_url (agent_ctx (t_sb t)) (agent_fix_tgt (s_src d) (s_tgt d) fs)) as [|g]; [discriminate|].
  destruct (negb (r_schema s =? "file")); [discriminate|].
  destruct (negb (r_schema g =? "file")); [discriminate|].
  exists s, g. split; [reflexivity|]. split; [reflexivity|].
  exact (handle_sd_spec _ _ _ _ _ _ H).
Qed.

Lemma agent_in_frame t d fs fs' e : agent_in_step t d fs = Ok fs' e -> keeps d = true -> wrote fs fs' e.
Proof.
  intros H Hk. destruct (keeps_not_move d Hk) as [Hm Ht].
  destruct (agent_in_step_spec _ _ _ _ _ H Ht) as [s [g [_ [_ Hop]]]].
  rewrite Hm in Hop. exact (op_spec_wrote _ _ _ _ _ Hop).
Qed.

Lemma agent_out_frame t d fs fs' e : agent_out_step t d fs = Ok fs' e -> keeps d = true -> wrote fs fs' e.
Proof.
  intros H Hk. destruct (keeps_not_move d Hk) as [Hm _].
  destruct (agent_out_step_spec _ _ _ _ _ H) as [s [g [_ [_ Hop]]]].
  rewrite Hm in Hop. exact (op_spec_wrote _ _ _ _ _ Hop).
Qed.

(* the loops of the two agent stagers over an arbitrary directive list, as the
   C11 statements name them; the stagers themselves (agent_si_handle,
   agent_so_handle) run them on the filtered list of the task *)
Definition agent_si_steps t := steps (agent_in_step t).
Definition agent_so_steps t := steps (agent_out_step t).

Lemma agent_input_last_writer t l fs :
  forallb keeps l = true -> files_only (agent_in_step t) l fs = true -> h_ok (agent_si_steps t l fs []) = true ->
  List.length (h_log (agent_si_steps t l fs [])) = List.length l /\
  forall q, file_at q (h_fs (agent_si_steps t l fs [])) =
            match last_write q (h_log (agent_si_steps t l fs [])) with Some c => Some c | None => file_at q fs end.
Proof. exact (steps_last_writer (agent_in_step t) (agent_in_frame t) l fs). Qed.

Lemma agent_output_last_writer t l fs :
  forallb keeps l = true -> files_only (agent_out_step t) l fs = true -> h_ok (agent_so_steps t l fs []) = true ->
  List.length (h_log (agent_so_steps t l fs [])) = List.length l /\
  forall q, file_at q (h_fs (agent_so_steps t l fs [])) =
            match last_write q (h_log (agent_so_steps t l fs [])) with Some c => Some c | None => file_at q fs end.
Proof. exact (steps_last_writer (agent_out_step t) (agent_out_frame t) l fs). Qed.

(* the lists of the client-side copy loop that the last-writer theorem covers:
   no tarball entry and, in spite of the name, no MOVE either (the client only
   resolves TRANSFER directives, but copy_all takes any action) *)
Fixpoint no_tar (l : list rsd) : bool :=
  match l with [] => true | RSd a _ _ :: r => negb (is_move a) && no_tar r | RTar _ :: _ => false end.

Fixpoint files_only_rs (l : list rsd) (fs : fsys) : bool :=
  match l with
  | RSd a s g :: r =>
      match handle_sd a s g fs with Ok fs' _ => files_only_rs r fs' | OkDir _ _ => false | Fail _ => true end
  | _ => true
  end.

Lemma copy_all_acc tar l : forall fs lg,
  copy_all tar l fs lg =
  {| h_ok := h_ok (copy_all tar l fs []); h_fs := h_fs (copy_all tar l fs []);
     h_log := lg ++ h_log (copy_all tar l fs []) |}.
Proof.
  induction l as [|[a s g|g] l IH]; intros fs lg; cbn [copy_all].
  - rewrite app_nil_r. reflexivity.
  - destruct (handle_sd a s g fs) as [fs1 e|fs1 e|fs1].
    + rewrite (IH fs1 (lg ++ _)). rewrite (IH fs1 ([] ++ _)). cbn [h_ok h_fs h_log app].
      rewrite <- app_assoc. reflexivity.
    + rewrite (IH fs1 lg). reflexivity.
    + rewrite app_nil_r. reflexivity.
  - destruct (r_empty g); [rewrite app_nil_r; reflexivity|].
    destruct (mkdir_p (dirname_of g) fs); [|rewrite app_nil_r; reflexivity].
    destruct (cp_into (Tar tar) "TMPTAR" None g f) as [fs1 e|fs1 e|fs1].
    + rewrite (IH fs1 lg). reflexivity.
    + rewrite (IH fs1 lg). reflexivity.
    + rewrite app_nil_r. reflexivity.
Qed.

Lemma steps_app step l1 : forall l2 fs lg,
  steps step (l1 ++ l2) fs lg =
  if h_ok (steps step l1 fs lg)
  then steps step l2 (h_fs (steps step l1 fs lg)) (h_log (steps step l1 fs lg))
  else steps step l1 fs lg.
Proof.
  induction l1 as [|d l1 IH]; intros l2 fs lg; [reflexivity|].
  cbn [app steps]. destruct (step d fs) as [fs1 e|fs1 e|fs1]; [apply IH|apply IH|reflexivity].
Qed.

Lemma copy_all_last_writer tar l : forall fs, no_tar l = true -> files_only_rs l fs = true ->
  h_ok (copy_all tar l fs []) = true ->
  List.length (h_log (copy_all tar l fs [])) = List.length l /\
  forall q, file_at q (h_fs (copy_all tar l fs [])) =
            match last_write q (h_log (copy_all tar l fs [])) with Some c => Some c | None => file_at q fs end.
Proof.
  induction l as [|[a s g|g] l IH]; intros fs Hk Hfo Hok; [split; [reflexivity|intro q; reflexivity]| |discriminate].
  cbn [no_tar] in Hk. apply andb_true_iff in Hk as [Hk1 Hk2]. apply negb_true_iff in Hk1.
  cbn [copy_all files_only_rs] in *.
  destruct (handle_sd a s g fs) as [fs1 e|fs1 e|fs1] eqn:Es; [|discriminate|discriminate].
  rewrite copy_all_acc in *. cbn [h_ok h_fs h_log app] in *.
  apply handle_sd_spec in Es. rewrite Hk1 in Es.
  destruct (IH fs1 Hk2 Hfo Hok) as [Hlen Hall].
  split; [cbn [List.length]; rewrite Hlen; reflexivity|].
  exact (last_writer_cons _ _ _ _ _ (op_spec_wrote _ _ _ _ _ Es) Hall).
Qed.

Lemma filter_map_const {A B} (f : A -> B) (Q : A -> bool) (P : B -> bool) b l :
  forallb Q l = true -> (forall x, Q x = true -> P (f x) = b) -> filter P (map f l) = if b then map f l else [].
Proof.
  intros H HP. induction l as [|x l IH]; [destruct b; reflexivity|]. cbn [forallb] in H. apply andb_prop in H as [Hx Hl].
  cbn [map filter]. rewrite (HP x Hx), (IH Hl). destruct b; reflexivity.
Qed.

Definition not_staged_out (t : task) : bool := negb (is_done (t_target t)) && negb (t_soe t).

Lemma advance_target_keep t s : s <> FAILED -> s <> CANCELED -> t_target (advance t s) = t_target t.
Proof. intros H1 H2. destruct s; try reflexivity; contradiction. Qed.

(* the per-task loop of the stagers: every task is handled exactly once, a task
   whose staging fails is published FAILED and handed on to nobody, the loop
   goes on with the remaining tasks, and each task handed on is one whose
   staging succeeds in SOME state fsx (the proof takes the state the loop had
   reached; the statement does not say which) *)
Lemma handle_loop_sound handle okst l : forall fs,
  let '(_, pushed, failed) := handle_loop handle okst l fs in
  Permutation (map t_uid l) (map t_uid (pushed ++ failed)) /\
  Forall (fun t => last (t_pub t) DONE = FAILED /\ t_target t = FAILED) failed /\
  Forall (fun t' => exists t0 fsx, In t0 l /\ t' = fold_left advance (okst t0) t0 /\ h_ok (handle t0 fsx) = true)
         pushed.
Proof.
  assert (Huid : forall ss t, t_uid (fold_left advance ss t) = t_uid t)
    by (induction ss as [|s ss IH]; intro t; [reflexivity|]; simpl; rewrite IH; reflexivity).
  induction l as [|t l IH]; intro fs.
  - simpl. repeat split; constructor.
  - cbn [handle_loop]. specialize (IH (h_fs (handle t fs))).
    destruct (handle_loop handle okst l (h_fs (handle t fs))) as [[fs' pushed] failed].
    destruct IH as [Hp [Hf Hpu]].
    assert (Hpu' : Forall (fun t' => exists t0 fsx, In t0 (t :: l) /\ t' = fold_left advance (okst t0) t0 /\
                                                    h_ok (handle t0 fsx) = true) pushed).
    { eapply Forall_impl; [|exact Hpu]. intros a [t0 [fsx [Hin Ha]]]. exists t0, fsx. split; [right; exact Hin|exact Ha]. }
    destruct (h_ok (handle t fs)) eqn:E.
    + split; [cbn [map app]; rewrite Huid; constructor; exact Hp|].
      split; [exact Hf|]. constructor; [|exact Hpu']. exists t, fs. split; [left; reflexivity|]. split; [reflexivity|exact E].
    + split.
      * cbn [map]. rewrite map_app. cbn [map]. cbn [advance t_uid].
        rewrite map_app in Hp. apply Permutation_cons_app. exact Hp.
      * split; [|exact Hpu']. constructor; [|exact Hf].
        unfold advance. cbn [t_pub t_target]. rewrite last_last. split; reflexivity.
Qed.

(* the documented defaults for relative paths, per stager *)
Lemma relative_defaults sb :
  assoc "pwd" (tmgr_in_src sb) = Some (parse_url (sb_client sb)) /\
  assoc "pwd" (tmgr_in_tgt sb) = Some (parse_url (sb_task sb)) /\
  assoc "pwd" (tmgr_out_src sb) = Some (parse_url (sb_task sb)) /\
  assoc "pwd" (tmgr_out_tgt sb) = Some (parse_url (sb_client sb)) /\
  assoc "pwd" (agent_ctx sb) = Some (as_file (sb_task sb)) /\
  assoc "client" (agent_ctx sb) = None.
Proof. repeat split; reflexivity. Qed.

(* pre_ is the part of the path already walked: a directory *)
Lemma mkdirs_ok rest : forall pre_ fs, is_dir pre_ fs = true ->
  (forall p, is_prefix p (pre_ ++ rest) = true -> file_at p fs = None) ->
  exists fs', mkdirs pre_ rest fs = Some fs' /\ is_dir (pre_ ++ rest) fs' = true /\
              (forall q, is_prefix q (pre_ ++ rest) = false -> lookup q fs' = lookup q fs).
Proof.
  induction rest as [|c rest IH]; intros pre_ fs Hd H.
  - exists fs. rewrite app_nil_r. auto.
  - assert (Eapp : pre_ ++ c :: rest = (pre_ ++ [c]) ++ rest) by (rewrite <- app_assoc; reflexivity).
    rewrite Eapp in *. pose proof (H _ (is_prefix_app _ _)) as Hfile. unfold file_at in Hfile.
    cbn [mkdirs]. destruct (lookup (pre_ ++ [c]) fs) as [[|cc]|] eqn:E; [|discriminate|].
    + exact (IH _ fs (is_dir_found _ _ E) H).
    + destruct (IH (pre_ ++ [c]) (set (pre_ ++ [c]) D fs)) as [fs' [Hm [Hd' Hq]]].
      * apply is_dir_found, lookup_set_eq.
      * intros p Hp. rewrite file_at_set_dir; [exact (H p Hp)|]. unfold file_at. rewrite E. reflexivity.
      * exists fs'. split; [exact Hm|]. split; [exact Hd'|].
        intros q Hqq. rewrite (Hq q Hqq). apply lookup_set_neq. intros ->. rewrite is_prefix_app in Hqq. discriminate.
Qed.

Lemma mkdir_p_ok p fs : (forall q, is_prefix q p = true -> file_at q fs = None) ->
  exists fs', mkdir_p p fs = Some fs' /\ is_dir p fs' = true /\
              forall q, is_prefix q p = false -> lookup q fs' = lookup q fs.
Proof. exact (mkdirs_ok p [] fs eq_refl). Qed.

Lemma parents_on_demand g fs :
  r_trail g = false -> r_comps g <> [] -> lookup (r_comps g) fs = None ->
  (forall p, is_prefix p (r_comps g) = true -> file_at p fs = None) ->
  exists fs1, mkdir_p (dirname_of g) fs = Some fs1 /\ is_dir (parent (r_comps g)) fs1 = true /\
              is_dir (r_comps g) fs1 = false /\ exists_at (r_comps g) fs1 = false /\
              forall q, is_prefix q (parent (r_comps g)) = false -> lookup q fs1 = lookup q fs.
Proof.
  intros Ht Hn Hfree Hw. unfold dirname_of. rewrite Ht.
  destruct (mkdir_p_ok (parent (r_comps g)) fs) as [fs1 [Em [Hpar Hq]]];
    [intros q Hq; exact (Hw q (above_parent _ _ Hq))|].
  exists fs1. rewrite (is_dir_lookup _ _ Hn), (exists_at_lookup _ _ Hn).
  rewrite (Hq _ (below_not_above _ _ Hn (is_prefix_refl _))), Hfree. auto.
Qed.

(* the state a directive needs: its source is a file, nothing but directories
   (present or MISSING) on the way to its target, the target itself is free *)
Record ready_file (s g : rloc) (c : content) (fs : fsys) : Prop := {
  rf_s : r_empty s = false;
  rf_g : r_empty g = false;
  rf_trail : r_trail g = false;
  rf_src : file_at (r_comps s) fs = Some c;
  rf_nonroot : r_comps g <> [];
  rf_free : lookup (r_comps g) fs = None;
  rf_way : forall p, is_prefix p (r_comps g) = true -> file_at p fs = None;
  rf_other : r_comps s <> r_comps g
}.

(* THE statement: whatever happened to the directories above the target
   before -- moved away, removed, never there -- the directive is carried out *)
Lemma stage_on_demand a s g c fs :
  In a [Transfer; Copy; Link; Move] -> ready_file s g c fs ->
  exists fs', handle_sd a s g fs = Ok fs' (r_comps g) /\ file_at (r_comps g) fs' = Some c.
Proof.
  intros Ha [Hs Hg Ht Hsrc Hnr Hfree Hway Hoth].
  destruct (parents_on_demand g fs Ht Hnr Hfree Hway) as [fs1 [Em [Hpar [Hnd [Hne _]]]]].
  assert (Hs1 : file_at (r_comps s) fs1 = Some c) by (rewrite (mkdir_p_file_at _ _ _ Em); exact Hsrc).
  assert (Hcopy : op_copy s g fs = Ok (set (r_comps g) (F c) fs1) (r_comps g)).
  { unfold op_copy. rewrite Hg, Em, Hs, Hs1. unfold cp_into. rewrite Hnd, Ht. cbn [andb negb].
    rewrite Hnd, Hpar, (path_eqb_neq _ _ Hoth). reflexivity. }
  destruct Ha as [<-|[<-|[<-|[<-|[]]]]]; cbn [handle_sd]; eexists; (split; [|apply file_at_set_eq]).
  - exact Hcopy.
  - exact Hcopy.
  - unfold op_link. rewrite Hg, Em, Hs, Hs1, Ht, Hne, Hpar. reflexivity.
  - unfold op_move. rewrite Hg, Em, Hs, Hs1, Hnd, Ht, Hpar. reflexivity.
Qed.

(* the state a directory directive needs: the source is a directory, nothing
   at or below the target, nothing but directories (present or missing) above it *)
Record ready_dir (s g : rloc) (fs : fsys) : Prop := {
  rd_s : r_empty s = false;
  rd_g : r_empty g = false;
  rd_trail : r_trail g = false;
  rd_src : lookup (r_comps s) fs = Some D;
  rd_srcnonroot : r_comps s <> [];
  rd_nonroot : r_comps g <> [];
  rd_free : forall q, is_prefix (r_comps g) q = true -> lookup q fs = None;
  rd_way : forall p, is_prefix p (r_comps g) = true -> file_at p fs = None;
  rd_apart : is_prefix (r_comps s) (r_comps g) = false
}.

Lemma dir_on_demand a s g fs :
  In a [Transfer; Copy; Move] -> ready_dir s g fs ->
  exists fs', handle_sd a s g fs = OkDir fs' (r_comps g) /\
              forall rel c, file_at (r_comps s ++ rel) fs = Some c -> file_at (r_comps g ++ rel) fs' = Some c.
Proof.
  intros Ha [Hs Hg Ht Hsrc Hsn Hnr Hfree Hway Hap].
  destruct (parents_on_demand g fs Ht Hnr (Hfree _ (is_prefix_refl _)) Hway) as [fs1 [Em [Hpar [Hnd [Hne Hq]]]]].
  assert (Hfree1 : forall q, is_prefix (r_comps g) q = true -> lookup q fs1 = None).
  { intros q Hqq. rewrite (Hq q (below_not_above _ _ Hnr Hqq)). exact (Hfree q Hqq). }
  assert (Hls : lookup (r_comps s) fs1 = Some D).
  { rewrite Hq; [exact Hsrc|]. destruct (is_prefix (r_comps s) (parent (r_comps g))) eqn:E; [|reflexivity].
    rewrite (above_parent _ _ E) in Hap. discriminate. }
  pose proof (is_dir_found _ _ Hls) as Hsd.
  assert (Hsf : file_at (r_comps s) fs1 = None) by (unfold file_at; rewrite Hls; reflexivity).
  assert (Hconf : tree_conflict (r_comps s) (r_comps g) fs1 = false).
  { unfold tree_conflict. apply not_true_is_false. intro E. apply existsb_exists in E as [y [_ E]]. revert E.
    unfold rebase. cbn [fst snd]. rewrite (Hfree1 _ (is_prefix_app _ _)). destruct (snd y); discriminate. }
  assert (Hcopy : exists fs', op_copy s g fs = OkDir fs' (r_comps g)).
  { eexists. unfold op_copy. rewrite Hg, Em, Hs, Hsf, Hsd. unfold cp_dir. rewrite Hnd, Ht, Hap. cbn [andb negb].
    rewrite Hne, Hpar. cbn [negb]. rewrite Hconf. reflexivity. }
  (* a directory result at the target; what it holds is said by handle_sd_dir_spec *)
  assert (Hres : exists fs', handle_sd a s g fs = OkDir fs' (r_comps g)).
  { destruct Ha as [<-|[<-|[<-|[]]]]; cbn [handle_sd]; try exact Hcopy.
    eexists. unfold op_move. rewrite Hg, Em, Hs, Hsf, Hsd. unfold mv_dir. rewrite Hnd, Ht, Hap, Hne, Hpar. reflexivity. }
  destruct Hres as [fs' Hh]. exists fs'. split; [exact Hh|].
  destruct (handle_sd_dir_spec _ _ _ _ _ _ Hh) as [fs1' [Em' [_ [_ Htree]]]].
  intros rel c Hc. apply Htree. rewrite (mkdir_p_file_at _ _ _ Em'). exact Hc.
Qed.

Definition staged_actions : list action := [Transfer; Copy; Link; Move].

(* a sequence of resolved directives, each with the content its source is to
   have when its turn comes; readiness is required of the state the directive
   FINDS -- whatever the earlier ones moved, removed or overwrote *)
Fixpoint ready_seq (l : list (rsd * content)) (fs : fsys) : Prop :=
  match l with
  | [] => True
  | (RSd a s g, c) :: r =>
      In a staged_actions /\ ready_file s g c fs /\
      forall fs', handle_sd a s g fs = Ok fs' (r_comps g) -> ready_seq r fs'
  | (RTar _, _) :: _ => False
  end.

Fixpoint staged_seq (l : list (rsd * content)) (fs : fsys) : Prop :=
  match l with
  | [] => True
  | (RSd a s g, c) :: r =>
      exists fs', handle_sd a s g fs = Ok fs' (r_comps g) /\ file_at (r_comps g) fs' = Some c /\ staged_seq r fs'
  | (RTar _, _) :: _ => False
  end.

Lemma seq_on_demand tar l : forall fs, ready_seq l fs ->
  h_ok (copy_all tar (map fst l) fs []) = true /\ staged_seq l fs.
Proof.
  induction l as [|[[a s g|g] c] l IH]; intros fs H; [split; [reflexivity|exact I]| |contradiction].
  cbn [ready_seq] in H. destruct H as [Ha [Hr Hnext]].
  destruct (stage_on_demand a s g c fs Ha Hr) as [fs' [Hh Hc]].
  destruct (IH fs' (Hnext fs' Hh)) as [Hok Hst].
  split.
  - cbn [map fst copy_all]. rewrite Hh. rewrite copy_all_acc. exact Hok.
  - cbn [staged_seq]. exists fs'. auto.
Qed.

Lemma staged_not_tarball a : In a staged_actions -> action_eqb a Tarball = false.
Proof. intros [<-|[<-|[<-|[<-|[]]]]]; reflexivity. Qed.

Lemma agent_in_on_demand t d s g c fs :
  complete_url (agent_ctx (t_sb t)) (s_src d) = inr s ->
  complete_url (agent_ctx (t_sb t)) (agent_fix_tgt (s_src d) (s_tgt d) fs) = inr g ->
  r_schema g = "file" -> In (s_act d) staged_actions -> ready_file s g c fs ->
  exists fs', agent_in_step t d fs = Ok fs' (r_comps g) /\ file_at (r_comps g) fs' = Some c.
Proof.
  intros Hs Hg Hsg Ha Hr. unfold agent_in_step. rewrite Hs, Hg, Hsg, (staged_not_tarball _ Ha).
  change (("file" =? "file")%string) with true. rewrite andb_false_r.
  exact (stage_on_demand _ _ _ _ _ Ha Hr).
Qed.

Definition tar_log (m : list (path * Z)) : wlog := map (fun pz => (fst pz, Plain (snd pz))) m.

(* unpacking is a run of writes like a stager's, with the members as its log *)
Lemma untar_last_writer m : forall fs fs', untar m fs = Some fs' -> last_writer_wins (tar_log m) fs fs'.
Proof.
  induction m as [|[p z] m IH]; intros fs fs' H; [injection H as <-; intro q; reflexivity|].
  cbn [untar] in H. destruct (mkdir_p (parent p) fs) as [fs1|] eqn:Em; [|discriminate].
  destruct (is_dir p fs1 || negb (is_dir (parent p) fs1)); [discriminate|].
  pose proof (last_writer_cons fs (set p (F (Plain z)) fs1) fs' p (tar_log m)) as L.
  rewrite file_at_set_eq in L. apply L; [|exact (IH _ _ H)].
  exists (Plain z). split; [apply file_at_set_eq|].
  intros q Hq. rewrite (file_at_set_neq _ _ _ _ Hq). exact (mkdir_p_file_at _ _ _ Em q).
Qed.

Lemma untar_members m fs fs' : untar m fs = Some fs' -> NoDup (map fst m) ->
  forall p z, In (p, z) m -> file_at p fs' = Some (Plain z).
Proof.
  intros H Hnd p z Hin. rewrite (untar_last_writer m fs fs' H p).
  assert (Hnd' : NoDup (map fst (tar_log m))) by (unfold tar_log; rewrite map_map; exact Hnd).
  pose proof (proj1 (Forall_forall _ _) (last_write_nodup _ Hnd') _ (in_map _ _ _ Hin)) as E.
  cbn [fst snd] in E. rewrite E. reflexivity.
Qed.

(* a TARBALL directive unpacks the task's tarball where it stands in the list:
   right after it every member is in place -- so a later directive of the same
   list can use it *)
Lemma tarball_in_place t d fs fs' e :
  agent_in_step t d fs = Ok fs' e -> action_eqb (s_act d) Tarball = true ->
  exists m, file_at (sandbox_path t ++ [tar_name t]) fs = Some (Tar m) /\
            (NoDup (map fst m) -> forall p z, In (p, z) m -> file_at p fs' = Some (Plain z)).
Proof.
  unfold agent_in_step. intros H Ht.
  destruct (complete_url (agent_ctx (t_sb t)) (s_src d)) as [|s]; [discriminate|].
  destruct (complete_url (agent_ctx (t_sb t)) (agent_fix_tgt (s_src d) (s_tgt d) fs)) as [|g]; [discriminate|].
  destruct (has_action [Copy; Link; Move] d && negb (r_schema g =? "file")); [discriminate|].
  rewrite Ht in H.
  destruct (file_at (sandbox_path t ++ [tar_name t]) fs) as [[z|m]|] eqn:Ef; try discriminate.
  destruct (untar m fs) as [fs2|] eqn:Eu; [|discriminate].
  injection H as <- _. exists m. split; [reflexivity|].
  intros Hnd p z Hin. exact (untar_members m fs fs2 Eu Hnd p z Hin).
Qed.

(* the chain: TARBALL, then any transfer/copy/link/move of a member that is
   ready in the state the TARBALL directive left *)
Lemma tarball_then_use t d d2 s g z fs fs1 e m :
  agent_in_step t d fs = Ok fs1 e -> action_eqb (s_act d) Tarball = true ->
  file_at (sandbox_path t ++ [tar_name t]) fs = Some (Tar m) -> NoDup (map fst m) -> In (r_comps s, z) m ->
  complete_url (agent_ctx (t_sb t)) (s_src d2) = inr s ->
  complete_url (agent_ctx (t_sb t)) (agent_fix_tgt (s_src d2) (s_tgt d2) fs1) = inr g ->
  r_schema g = "file" -> In (s_act d2) staged_actions ->
  (file_at (r_comps s) fs1 = Some (Plain z) -> ready_file s g (Plain z) fs1) ->
  exists fs2, h_ok (steps (agent_in_step t) [d; d2] fs []) = true /\
              h_fs (steps (agent_in_step t) [d; d2] fs []) = fs2 /\
              file_at (r_comps g) fs2 = Some (Plain z).
Proof.
  intros H1 Ht Hf Hnd Hin Hs Hg Hsg Ha Hready.
  destruct (tarball_in_place _ _ _ _ _ H1 Ht) as [m' [Hf' Hm]].
  rewrite Hf in Hf'. injection Hf' as <-.
  destruct (agent_in_on_demand t d2 s g (Plain z) fs1 Hs Hg Hsg Ha (Hready (Hm Hnd _ _ Hin))) as [fs2 [H2 Hc]].
  exists fs2. cbn [steps]. rewrite H1, Ht, H2, (staged_not_tarball _ Ha). cbn [h_ok h_fs]. auto.
Qed.

(* the client packs exactly the sources of the TARBALL directives: every such
   directive has its member in the tarball, named by the resolved target and
   carrying the content of the resolved source *)
Lemma tar_filter_members sctx tctx l : forall have fs na m,
  tar_filter sctx tctx l have fs = Some (na, m) ->
  forall d, In d l -> action_eqb (s_act d) Tarball = true ->
  exists s g z, complete_url sctx (s_src d) = inr s /\ complete_url tctx (s_tgt d) = inr g /\
                file_at (r_comps s) fs = Some (Plain z) /\ In (r_comps g, z) m.
Proof.
  induction l as [|d0 l IH]; intros have fs na m H d Hin Ht; [contradiction|].
  cbn [tar_filter] in H.
  destruct (action_eqb (s_act d0) Tarball) eqn:E0; cbn [negb] in H.
  - destruct (complete_url sctx (s_src d0)) as [|s0] eqn:Es; [discriminate|].
    destruct (complete_url tctx (s_tgt d0)) as [|g0] eqn:Eg; [discriminate|].
    destruct (r_empty s0); [discriminate|].
    destruct (file_at (r_comps s0) fs) as [[z0|mm]|] eqn:Ef; try discriminate.
    destruct (tar_filter sctx tctx l true fs) as [[na' m']|] eqn:Er; [|discriminate].
    injection H as _ <-.
    destruct Hin as [<-|Hin].
    + exists s0, g0, z0. repeat split; try assumption. left. reflexivity.
    + destruct (IH _ _ _ _ Er d Hin Ht) as [s [g [z [H1 [H2 [H3 H4]]]]]].
      exists s, g, z. repeat split; try assumption. right. exact H4.
  - destruct (tar_filter sctx tctx l have fs) as [[na' m']|] eqn:Er; [|discriminate].
    injection H as _ <-.
    destruct Hin as [<-|Hin]; [rewrite E0 in Ht; discriminate|].
    exact (IH _ _ _ _ Er d Hin Ht).
Qed.

(* concrete sandboxes and tree used by the examples of Props/C11.v; ex_sb is
   the layout of the harness (Oracle.std_sb, the same record) *)
Definition ex_sb (uid : string) : sandboxes :=
  {| sb_client := "/R/client"; sb_task := "file://localhost/R/rsb/s1/p0/" +++ uid +++ "/";
     sb_pilot := "file://localhost/R/rsb/s1/p0/"; sb_session := "file://localhost/R/rsb/s1";
     sb_resource := "file://localhost/R/rsb"; sb_endpoint := "file://localhost/" |}.

Definition ex_fs : fsys :=
  [ (["R"], D); (["R"; "client"], D); (["R"; "client"; "a.dat"], F (Plain 1)); (["R"; "client"; "b.dat"], F (Plain 2));
    (["R"; "rsb"], D); (["R"; "rsb"; "s1"], D); (["R"; "rsb"; "s1"; "p0"], D);
    (["R"; "rsb"; "s1"; "p0"; "sh.dat"], F (Plain 3)) ].

(* which of the two sources C11_empty_target_staged_partial stages: TRANSFER is
   client-side.  (Oracle.client_side also counts TARBALL, which that theorem leaves out.) *)
Definition client_side_b (a : action) : bool := action_eqb a Transfer.
