From Coq Require Import ZArith List.
From RP Require Import CancelReq.Model.
Open Scope Z_scope.

Theorem request_names_exactly all a u : In u (request_uids all a) <-> named all a u.
Proof.
  destruct a as [|v|[|x l]]; simpl; try tauto.
  split; [intros [H|[]]; auto|intro H; left; auto].
Qed.

Theorem registered_exactly cl all a u :
  In u (register cl (request_uids all a)) <-> In u cl \/ named all a u.
Proof. unfold register. rewrite in_app_iff, request_names_exactly. tauto. Qed.

(* a request leaves what was registered before in place, in order *)
Theorem register_keeps cl uids : firstn (length cl) (register cl uids) = cl.
Proof.
  unfold register. rewrite firstn_app, Nat.sub_diag, firstn_all. simpl. apply app_nil_r.
Qed.
