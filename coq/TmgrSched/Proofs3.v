(* C12: the recorded pilot state never regresses, every report is absorbed,
   and backfilling binds only to pilots that are eligible w.r.t. the most
   advanced report (oracle clause ok_bf_eligible). *)
From Coq Require Import ZArith List Bool Lia.
From RP Require Import Common.ListFacts Gen.StatesTables States.Model States.Inst
  TmgrSched.Model TmgrSched.Oracle TmgrSched.Steps TmgrSched.Proofs.
Import ListNotations.
Open Scope Z_scope.

(* the state the scheduler has recorded for pilot q (None: nothing recorded) *)
Definition stq (q : Z) (pl : list (Z * pil)) : option pstate := p_state (getp q pl).
(* SPp is Keeps p_state and QA pl is Asgs (fun a => a_state a = stq (a_pid a) pl):
   Keeps_refl, Keeps_trans, Asgs_nil, Asgs_app, Asgs_adv apply to them as they stand *)
Definition SPp (pl pl' : list (Z * pil)) : Prop := forall q, stq q pl' = stq q pl.
Definition MONOp (pl pl' : list (Z * pil)) : Prop := forall q, pval (stq q pl) <= pval (stq q pl').
Definition QA (pl : list (Z * pil)) (ev : list event) : Prop :=
  Forall (fun a => a_state a = stq (a_pid a) pl) (asgs_of ev).
(* reports absorbed: as a pilot state message lists them, and as Oracle.reports_of does *)
Definition ABS (ps : list (Z * pstate)) (pl : list (Z * pil)) : Prop :=
  forall pid tgt, In (pid, tgt) ps -> pvalue tgt <= pval (stq pid pl).
Definition AbsAcc (acc : list (Z * Z)) (pl : list (Z * pil)) : Prop :=
  forall x, In x acc -> snd x <= pval (stq (fst x) pl).

Lemma SPp_MONO a b : SPp a b -> MONOp a b.
Proof. intros H q. rewrite H. lia. Qed.
Lemma MONOp_trans a b c : MONOp a b -> MONOp b c -> MONOp a c.
Proof. intros H1 H2 q. specialize (H1 q). specialize (H2 q). lia. Qed.
Lemma QA_SP pl pl' ev : SPp pl pl' -> QA pl ev -> QA pl' ev.
Proof.
  intros Hs Hq. unfold QA in *. rewrite Forall_forall in *. intros a Ha. rewrite Hs. exact (Hq a Ha).
Qed.

Definition prog_ok (cur tgt : pstate) : bool :=
  match p_progress cur tgt with
  | inr (n, _) => pvalue n =? Z.max (pvalue cur) (pvalue tgt)
  | inl ValueError => pvalue tgt <=? pvalue cur
  | inl _ => false
  end.

Lemma prog_ok_all : forallb (fun cur => forallb (prog_ok cur) pstate_all) pstate_all = true.
Proof. vm_compute. reflexivity. Qed.

Lemma p_progress_max cur tgt n l :
  p_progress cur tgt = inr (n, l) -> pvalue n = Z.max (pvalue cur) (pvalue tgt).
Proof.
  intro H. pose proof (sweep2 pstate_all _ pstate_all_complete prog_ok_all cur tgt) as T.
  unfold prog_ok in T. rewrite H in T. apply Z.eqb_eq. exact T.
Qed.

Lemma p_progress_err cur tgt e :
  p_progress cur tgt = inl e -> e = ValueError /\ pvalue tgt <= pvalue cur.
Proof.
  intro H. pose proof (sweep2 pstate_all _ pstate_all_complete prog_ok_all cur tgt) as T.
  unfold prog_ok in T. rewrite H in T. destruct e; try discriminate T. split; [reflexivity|apply Z.leb_le; exact T].
Qed.

Lemma pnone_le s : pnone_value <= pvalue s.
Proof.
  apply Z.leb_le. apply (proj1 (forallb_forall (fun s => pnone_value <=? pvalue s) pstate_all));
    [vm_compute; reflexivity|apply pstate_all_complete].
Qed.

Lemma pstate_opt_eqb_some a n : pstate_opt_eqb a (Some n) = true -> a = Some n.
Proof.
  destruct a as [x|]; simpl; [|discriminate]. intro H. apply pstate_beq_spec in H. congruence.
Qed.

Lemma ups_target_inl cur tgt e : ups_target cur tgt = inl e -> e = ValueError /\ pvalue tgt <= pval cur.
Proof.
  destruct cur as [cur|]; cbn [ups_target pval]; [|discriminate].
  destruct (p_progress cur tgt) as [e0|[m l]] eqn:Ep; [|discriminate]. intro H. injection H as <-.
  exact (p_progress_err _ _ _ Ep).
Qed.

Lemma ups_target_inr cur tgt n : ups_target cur tgt = inr n -> pval cur <= pvalue n /\ pvalue tgt <= pvalue n.
Proof.
  destruct cur as [cur|]; cbn [ups_target pval].
  - destruct (p_progress cur tgt) as [e|[m l]] eqn:Ep; [discriminate|]. intro H. injection H as <-.
    rewrite (p_progress_max _ _ _ _ Ep). lia.
  - intro H. injection H as <-. split; [apply pnone_le|lia].
Qed.

Lemma ups_loop_mono : forall ps pl upd pl' upd' e,
  ups_loop ps pl upd = (pl', upd', e) ->
  MONOp pl pl' /\ e = None /\ ABS ps pl'.
Proof.
  induction ps as [|[pid tgt] r IH]; intros pl upd pl' upd' e H.
  - injection H as <- <- <-. split; [exact (SPp_MONO _ _ (Keeps_refl p_state pl))|split; [reflexivity|]]. intros ? ? [].
  - rewrite ups_loop_step in H. cbv zeta in H.
    (* whichever way the report is handled, the rest of the loop starts from a
       table that is no less advanced and has absorbed it *)
    assert (K : forall pl2 upd2, MONOp pl pl2 -> pvalue tgt <= pval (stq pid pl2) ->
                ups_loop r pl2 upd2 = (pl', upd', e) ->
                MONOp pl pl' /\ e = None /\ ABS ((pid, tgt) :: r) pl').
    { intros pl2 upd2 M2 Ht HH. destruct (IH _ _ _ _ _ HH) as [M [E A]].
      split; [exact (MONOp_trans _ _ _ M2 M)|split; [exact E|]].
      intros p0 t0 [Hin|Hin]; [|exact (A _ _ Hin)]. injection Hin as <- <-. specialize (M pid). lia. }
    assert (M1 : MONOp pl (ensure pid pl)) by (intro q; unfold stq; rewrite getp_ensure; lia).
    destruct (ups_target _ tgt) as [err|n] eqn:Et.
    + destruct (ups_target_inl _ _ _ Et) as [-> Hle]. exact (K _ _ M1 Hle H).
    + destruct (ups_target_inr _ _ _ Et) as [Hc Ht]. destruct (pstate_opt_eqb _ (Some n)) eqn:Eq.
      * apply pstate_opt_eqb_some in Eq. refine (K _ _ M1 _ H). unfold stq. rewrite Eq. exact Ht.
      * refine (K _ _ _ _ H).
        -- intro q. unfold stq, set_state. rewrite getp_aset.
           destruct (Z.eqb_spec pid q); [subst q; rewrite getp_ensure in Hc; exact Hc|].
           rewrite getp_ensure. lia.
        -- unfold stq, set_state. rewrite getp_aset, Z.eqb_refl. exact Ht.
Qed.

Lemma bf_run_QA wait elig pl pl' sc un ev :
  bf_run wait elig pl pl' sc un ev -> SPp pl pl' /\ QA pl' ev.
Proof.
  intro H.
  destruct (bf_run_spec (fun a => a_state a = stq (a_pid a) pl) _ _ _ _ _ _ _
              (fun pl1 t pid _ Ks _ _ => Ks pid) H) as (_ & _ & K & Q).
  pose proof (K _ p_state (fun _ _ => eq_refl) : SPp pl pl') as S. split; [exact S|exact (QA_SP _ _ _ S Q)].
Qed.

Lemma work_loop_QA pl ts early e' bound tosched ev :
  work_loop pl ts early = (e', bound, tosched, ev) -> QA pl ev.
Proof.
  intro H. exact (proj2 (proj2 (proj2 (work_loop_spec (fun a => a_state a = stq (a_pid a) pl) (fun _ _ => True) pl _ _ _ _ _ _
                                         (fun _ _ _ _ => conj eq_refl I) (fun _ _ _ _ _ => I) H)))).
Qed.

Lemma flush_loop_QA pl pids early e' b ev : flush_loop pl pids early = (e', b, ev) -> QA pl ev.
Proof.
  intro H. exact (proj2 (proj2 (flush_loop_spec (fun a => a_state a = stq (a_pid a) pl) (fun _ _ => True) pl _ _ _ _ _
                                  (fun _ _ _ => eq_refl) (fun _ _ _ _ _ => I) H))).
Qed.

Definition SPs (s s' : st) : Prop := SPp (s_pilots s) (s_pilots s').

Definition rel_QA : rel := fun _ s s' ev => SPs s s' /\ QA (s_pilots s') ev.

Lemma pass_QA : pass rel_QA.
Proof.
  split; [exact (fun s => conj (Keeps_refl p_state _) (Asgs_nil _))|]. intros a b s s1 s2 e1 e2 [S1 Q1] [S2 Q2].
  exact (conj (Keeps_trans p_state _ _ _ S1 S2) (Asgs_app _ _ _ (QA_SP _ _ _ S2 Q1) Q2)).
Qed.

Lemma bmove_QA c a ts s s' ev : bmove c a ts s s' ev -> rel_QA ts s s' ev.
Proof.
  intro H.
  destruct H as [a s l|a s ts e' bound tosched ev E|s pids e' b ev E|a s w l idx' ok ev Hk _ Hw E|a s elig pl' sc un ev _ _ _ R].
  - exact (conj (Keeps_refl p_state _) (Asgs_nil _)).
  - exact (conj (Keeps_refl p_state _) (Asgs_app _ _ _ (Asgs_adv _ _ _) (work_loop_QA _ _ _ _ _ _ _ E))).
  - assert (S : SPp (s_pilots s) (match c_kind c with RR => s_pilots s | BF => fold_left (set_info c) pids (s_pilots s) end))
      by (destruct (c_kind c); [apply (Keeps_refl p_state)|exact (set_info_fold_keeps p_state c (fun _ _ => eq_refl) pids _)]).
    exact (conj S (QA_SP _ _ _ S (flush_loop_QA _ _ _ _ _ _ E))).
  - split; [apply (Keeps_refl p_state)|].
    exact (Asgs_app _ _ _ (rr_loop_asgs _ _ _ _ _ _ _ _ (fun _ _ _ _ => eq_refl) E) (Asgs_adv _ _ _)).
  - destruct (bf_run_QA _ _ _ _ _ _ _ R) as [S Q]. exact (conj S (Asgs_app _ _ _ Q (Asgs_adv _ _ _))).
Qed.

Lemma binds_QA c a ts s s' ev : binds c a ts s s' ev -> SPs s s' /\ QA (s_pilots s') ev.
Proof. exact (chain_pass _ _ pass_QA (bmove_QA c a) ts s s' ev). Qed.

Lemma Resched_QA c s s' ev : Resched c s s' ev -> SPs s s' /\ QA (s_pilots s') ev.
Proof. intro R. exact (binds_QA c false _ _ _ _ (Resched_binds c false _ _ _ R)). Qed.

Lemma update_pilots_QA c s upd s' ev :
  update_pilots c s upd = (s', ev) -> SPs s s' /\ QA (s_pilots s') ev.
Proof. intro H. exact (Resched_QA _ _ _ _ (update_pilots_inv _ _ _ _ _ H)). Qed.

Lemma ABS_SP ps pl pl' : SPp pl pl' -> ABS ps pl -> ABS ps pl'.
Proof. intros S A pid tgt Hin. rewrite S. exact (A _ _ Hin). Qed.

Lemma update_pilot_states_QA c s ps s' ev e :
  update_pilot_states c s ps = (s', ev, e) ->
  MONOp (s_pilots s) (s_pilots s') /\ QA (s_pilots s') ev /\ e = None /\ ABS ps (s_pilots s').
Proof.
  intro H. destruct (update_pilot_states_inv _ _ _ _ _ _ H) as (pl & upd & E & R).
  destruct (ups_loop_mono _ _ _ _ _ _ E) as [M [-> A]]. destruct (Resched_QA _ _ _ _ R) as [S Q].
  unfold SPs in S. cbn [with_pilots s_pilots] in S.
  split; [exact (MONOp_trans _ _ _ M (SPp_MONO _ _ S))|split; [exact Q|split; [reflexivity|]]].
  exact (ABS_SP _ _ _ S A).
Qed.

Lemma update_tasks_QA c s ns s' ev e :
  update_tasks c s ns = (s', ev, e) -> SPs s s' /\ QA (s_pilots s') ev.
Proof.
  intro H. destruct (update_tasks_inv _ _ _ _ _ _ H) as [(_ & -> & -> & _)|(_ & pl & b & E & R)].
  - split; [apply (Keeps_refl p_state)|apply Asgs_nil].
  - destruct (Resched_QA _ _ _ _ R) as [S Q]. split; [|exact Q].
    exact (Keeps_trans p_state _ _ _ (ut_loop_keeps p_state (fun _ _ => eq_refl) _ _ _ _ _ _ E) S).
Qed.

Lemma AbsAcc_ABS ps pl : ABS ps pl -> AbsAcc (map (fun x => (fst x, pvalue (snd x))) ps) pl.
Proof. intros A x Hin. apply in_map_iff in Hin. destruct Hin as [[pid tgt] [<- Hy]]. exact (A _ _ Hy). Qed.

Lemma AbsAcc_SP acc pl pl' : SPp pl pl' -> AbsAcc acc pl -> AbsAcc acc pl'.
Proof. intros S A x Hin. rewrite S. exact (A x Hin). Qed.

Lemma pre_QA c tk s o s1 e : pre c tk s o s1 e ->
  MONOp (s_pilots s) (s_pilots s1) /\ AbsAcc (reports_of o e) (s_pilots s1).
Proof.
  assert (Kept : forall o pl, SPp (s_pilots s) pl -> reports_of o e = [] ->
                 MONOp (s_pilots s) pl /\ AbsAcc (reports_of o e) pl)
    by (intros o' pl S ->; exact (conj (SPp_MONO _ _ S) (fun x (F : In x []) => match F with end))).
  intro H. destruct H as [o Ho|t ps pl x E|t ps pl pl2 upd e E1 E2|t pids pl e1 E|ps pl upd e E|ns pl b e _ E].
  - apply (Kept o); [apply (Keeps_refl p_state)|]. destruct o as [| [] | | | |]; try destruct Ho; reflexivity.
  - apply (Kept (OAdd t ps)); [exact (add_loop_keeps p_state (fun _ _ _ => eq_refl) _ _ _ _ E)|destruct t; reflexivity].
  - destruct (ups_loop_mono _ _ _ _ _ _ E2) as [M [-> A]].
    pose proof (SPp_MONO _ _ (add_loop_keeps p_state (fun _ _ _ => eq_refl) _ _ _ _ E1 : SPp _ _)) as M1.
    split; [exact (MONOp_trans _ _ _ M1 M)|].
    pose proof (AbsAcc_ABS _ _ A) as A'. unfold docs in A'. rewrite map_map in A'. destruct t; [exact A'|intros x []|exact A'].
  - apply (Kept (ORemove t pids)); [exact (rem_loop_keeps p_state (fun _ _ _ => eq_refl) _ _ _ _ E)|reflexivity].
  - destruct (ups_loop_mono _ _ _ _ _ _ E) as [M [-> A]]. exact (conj M (AbsAcc_ABS _ _ A)).
  - apply (Kept (OTStates ns)); [exact (ut_loop_keeps p_state (fun _ _ => eq_refl) _ _ _ _ _ _ E)|reflexivity].
Qed.

Lemma step_QA c s o s' ev e :
  step c s o = (s', ev, e) ->
  MONOp (s_pilots s) (s_pilots s') /\ QA (s_pilots s') ev /\ AbsAcc (reports_of o e) (s_pilots s').
Proof.
  intro H. destruct (step_stages _ _ _ _ _ _ H) as (s1 & P & B). destruct (pre_QA _ _ _ _ _ _ P) as [M A].
  destruct (binds_QA _ _ _ _ _ _ B) as [S Q].
  exact (conj (MONOp_trans _ _ _ M (SPp_MONO _ _ S)) (conj Q (AbsAcc_SP _ _ _ S A))).
Qed.

Definition rel_mono : rel := fun _ s s' _ => MONOp (s_pilots s) (s_pilots s').

Lemma pass_mono : pass rel_mono.
Proof. split; [intros s q; lia|intros a b s s1 s2 e1 e2 H1 H2; exact (MONOp_trans _ _ _ H1 H2)]. Qed.

Lemma run_mono c ops s s' ev : run_st c s ops = (s', ev) -> MONOp (s_pilots s) (s_pilots s').
Proof. exact (run_pass c _ pass_mono (fun s1 o s2 ev1 e1 E => proj1 (step_QA c s1 o s2 ev1 e1 E)) ops s s' ev). Qed.

Lemma el_fold_run c : c_kind c = BF -> forall ops s acc,
  Inv s -> AbsAcc acc (s_pilots s) -> el_fold c ops (run c s ops) acc = true.
Proof.
  intro Hk. induction ops as [|o ops IH]; intros s acc Hi Ha; [reflexivity|].
  cbn [run]. destruct (step c s o) as [[s1 ev1] e1] eqn:E1. cbn [el_fold fst snd].
  destruct (step_QA _ _ _ _ _ _ E1) as [M [Q R]].
  destruct (step_good c _ _ _ _ _ Hi E1) as [Hi1 Hg].
  assert (Ha1 : AbsAcc (acc ++ reports_of o e1) (s_pilots s1)).
  { intros x Hin. apply in_app_or in Hin. destruct Hin as [Hin|Hin]; [|exact (R x Hin)].
    specialize (Ha x Hin). specialize (M (fst x)). lia. }
  apply andb_true_iff. split; [|exact (IH s1 _ Hi1 Ha1)].
  apply forallb_forall. intros a Hin.
  unfold AllG in Hg. rewrite forallb_forall in Hg. specialize (Hg a Hin).
  unfold QA in Q. rewrite Forall_forall in Q. specialize (Q a Hin).
  unfold elig_asg. destruct (sched_asg a) eqn:Es; [|reflexivity]. cbn [negb orb].
  apply forallb_forall. intros x Hx. destruct (Z.eqb_spec (fst x) (a_pid a)) as [Heq|]; [|reflexivity].
  cbn [negb orb]. apply Z.leb_le.
  specialize (Ha1 x Hx). rewrite Heq, <- Q in Ha1.
  destruct (proj2 (goodb_true c a Hg) Hk) as [Hw _]. unfold window_asg in Hw. rewrite Es in Hw.
  cbn [negb orb] in Hw. unfold in_window in Hw. apply andb_true_iff in Hw. destruct Hw as [_ Hw].
  apply Z.leb_le in Hw. lia.
Qed.

