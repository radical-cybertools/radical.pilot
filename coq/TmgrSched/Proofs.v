(* C12, over any message history: every submitted task is, with multiplicity,
   either still held back or handed on (run_conservation, hence conservation
   and bound_once); and every _assign_pilot call binds a task to the pilot it
   names, or else to one the scheduler may use (run_good and all_good, hence
   named_goes_to_named and the window/role clause of Backfilling). *)
From Coq Require Import ZArith List Bool Lia.
From RP Require Import TmgrSched.Model TmgrSched.Oracle TmgrSched.Lin TmgrSched.Steps.
Import ListNotations.
Open Scope Z_scope.

Definition uids (l : list task) : list Z := map t_uid l.
Definition cnt (u : Z) (l : list task) : Z := countz u (uids l).
Fixpoint ecnt (u : Z) (e : list (Z * list task)) : Z :=
  match e with [] => 0 | (_, l) :: r => cnt u l + ecnt u r end.
Definition waiting (s : st) : list Z :=
  uids (s_wait s) ++ concat (map (fun e => uids (snd e)) (s_early s)).
Definition pcnt (u : Z) (s : st) : Z := cnt u (s_wait s) + ecnt u (s_early s).
Definition fwd_uids (ev : list event) : list Z := map fst (fwd_of ev).
Definition fcnt (u : Z) (ev : list event) : Z := countz u (fwd_uids ev).

Lemma countz_app u a b : countz u (a ++ b) = countz u a + countz u b.
Proof. induction a as [|x a IH]; simpl; [reflexivity | rewrite IH; lia]. Qed.

Lemma countz_nonneg u l : 0 <= countz u l.
Proof. induction l as [|x l IH]; simpl; [lia | destruct (x =? u); lia]. Qed.

Lemma cnt_app u a b : cnt u (a ++ b) = cnt u a + cnt u b.
Proof. unfold cnt, uids. rewrite map_app. apply countz_app. Qed.

Lemma cnt_cons u t l : cnt u (t :: l) = (if t_uid t =? u then 1 else 0) + cnt u l.
Proof. reflexivity. Qed.

Lemma cnt_nil u : cnt u [] = 0.
Proof. reflexivity. Qed.

Lemma waiting_count u s : countz u (waiting s) = pcnt u s.
Proof.
  unfold waiting, pcnt. rewrite countz_app. f_equal.
  induction (s_early s) as [|[k l] e IH]; simpl; [reflexivity|].
  rewrite countz_app, IH. reflexivity.
Qed.

Lemma fwd_of_app a b : fwd_of (a ++ b) = fwd_of a ++ fwd_of b.
Proof.
  induction a as [|x a IH]; simpl; [reflexivity|].
  destruct x as [k l| |]; try exact IH. destruct k; try exact IH.
  rewrite IH, app_assoc. reflexivity.
Qed.

Lemma fcnt_app u a b : fcnt u (a ++ b) = fcnt u a + fcnt u b.
Proof. unfold fcnt, fwd_uids. rewrite fwd_of_app, map_app. apply countz_app. Qed.

Lemma fcnt_nil u : fcnt u [] = 0.
Proof. reflexivity. Qed.

Lemma fcnt_asg u a ev : fcnt u (EAsg a :: ev) = fcnt u ev.
Proof. reflexivity. Qed.

Lemma fcnt_adv_fwd u l : fcnt u (adv AForward l) = cnt u l.
Proof.
  unfold fcnt, fwd_uids, adv, cnt, uids. destruct l as [|t l]; [reflexivity|].
  cbn [fwd_of]. rewrite app_nil_r, map_map. reflexivity.
Qed.

Lemma fcnt_adv_sched u l : fcnt u (adv AScheduling l) = 0.
Proof. unfold adv. destruct l; reflexivity. Qed.

Lemma fcnt_fwd1 u x p ev : fcnt u (EAdv AForward [(x, p)] :: ev) = (if x =? u then 1 else 0) + fcnt u ev.
Proof. reflexivity. Qed.

Lemma cnt_bind u t pid : (if t_uid (bind t pid) =? u then 1 else 0) = (if t_uid t =? u then 1 else 0).
Proof. reflexivity. Qed.

Lemma ecnt_aset u k l' e :
  ecnt u (aset k l' e) = ecnt u e - match aget k e with Some l => cnt u l | None => 0 end + cnt u l'.
Proof.
  induction e as [|[k' v] e IH]; simpl; [lia|].
  destruct (k' =? k); simpl; [|rewrite IH]; lia.
Qed.

Lemma ecnt_adel u k l e :
  aget k e = Some l -> ecnt u (adel k e) = ecnt u e - cnt u l.
Proof.
  induction e as [|[k' v] e IH]; simpl; [discriminate|].
  destruct (k' =? k) eqn:E; intro H.
  - injection H as ->. lia.
  - simpl. rewrite (IH H). lia.
Qed.

Lemma ecnt_eappend u pid t e :
  ecnt u (eappend pid t e) = ecnt u e + (if t_uid t =? u then 1 else 0).
Proof.
  unfold eappend. destruct (aget pid e) as [l|] eqn:E; rewrite ecnt_aset, E, ?cnt_app, !cnt_cons, cnt_nil; lia.
Qed.

Lemma rr_loop_cons u pl pids : forall ts idx idx' ok ev,
  rr_loop pl pids idx ts = (idx', ok, ev) -> cnt u ok = cnt u ts /\ fcnt u ev = 0.
Proof.
  induction ts as [|t ts IH]; intros idx idx' ok ev H; simpl in H.
  - injection H as <- <- <-. split; reflexivity.
  - destruct (rr_loop pl pids ((if Z.of_nat (length pids) <=? idx then 0 else idx) + 1) ts)
      as [[i2 ok2] ev2] eqn:E.
    injection H as <- <- <-. destruct (IH _ _ _ _ E) as [H1 H2].
    rewrite !cnt_cons, fcnt_asg, H1, H2. split; reflexivity.
Qed.

Lemma bf_run_cons u wait elig pl pl' sc un ev :
  bf_run wait elig pl pl' sc un ev -> cnt u sc + cnt u un = cnt u wait /\ fcnt u ev = 0.
Proof.
  intro H. induction H as [elig pl|t w elig pl pl' sc un ev _ [H1 H2]|t w elig pl pid b pl' sc un ev _ _ [H1 H2]].
  - split; reflexivity.
  - rewrite !cnt_cons. split; lia.
  - rewrite !cnt_cons, fcnt_asg. cbn [bind t_uid]. split; lia.
Qed.

Lemma work_loop_cons u pl : forall ts early e' bound tosched ev,
  work_loop pl ts early = (e', bound, tosched, ev) ->
  ecnt u e' + cnt u bound + cnt u tosched = ecnt u early + cnt u ts /\ fcnt u ev = cnt u bound.
Proof.
  induction ts as [|t ts IH]; intros early e' bound tosched ev H; simpl in H.
  - injection H as <- <- <- <-. rewrite !cnt_nil, fcnt_nil. split; lia.
  - destruct (t_pilot t) as [pid|].
    + destruct (has_dict pid pl).
      * destruct (work_loop pl ts early) as [[[e2 b2] t2] ev2] eqn:E.
        injection H as <- <- <- <-. destruct (IH _ _ _ _ _ E) as [H1 H2].
        rewrite fcnt_asg, fcnt_fwd1, !cnt_cons. cbn [bind t_uid]. split; lia.
      * destruct (IH _ _ _ _ _ H) as [H1 H2]. rewrite ecnt_eappend in H1.
        rewrite cnt_cons. split; lia.
    + destruct (work_loop pl ts early) as [[[e2 b2] t2] ev2] eqn:E.
      injection H as <- <- <- <-. destruct (IH _ _ _ _ _ E) as [H1 H2].
      rewrite !cnt_cons. split; lia.
Qed.

Lemma cnt_map_bind u pid l : cnt u (map (fun t => bind t pid) l) = cnt u l.
Proof. unfold cnt, uids. rewrite map_map. reflexivity. Qed.

Lemma fcnt_map_asg u {A} (f : A -> asg) l : fcnt u (map (fun t => EAsg (f t)) l) = 0.
Proof. induction l as [|t l IH]; [reflexivity|exact IH]. Qed.

Lemma flush_loop_cons u pl : forall pids early e' b ev,
  flush_loop pl pids early = (e', b, ev) ->
  ecnt u e' + cnt u b = ecnt u early /\ fcnt u ev = cnt u b.
Proof.
  induction pids as [|pid pids IH]; intros early e' b ev H.
  - injection H as <- <- <-. rewrite cnt_nil, fcnt_nil. split; lia.
  - rewrite flush_loop_step in H. destruct (aget pid early) as [l|] eqn:Eg; [|exact (IH _ _ _ _ H)].
    destruct (flush_loop pl pids (adel pid early)) as [[e2 b2] ev2] eqn:E2.
    injection H as <- <- <-. destruct (IH _ _ _ _ E2) as [H3 H4]. rewrite (ecnt_adel u _ _ _ Eg) in H3.
    rewrite !fcnt_app, fcnt_adv_fwd, cnt_app, fcnt_map_asg, cnt_map_bind, H4. split; lia.
Qed.

Definition rel_cons (u : Z) : rel := fun ts s s' ev => pcnt u s' + fcnt u ev = pcnt u s + cnt u ts.

Lemma pass_cons u : pass (rel_cons u).
Proof.
  split; unfold rel_cons; [intro s; rewrite fcnt_nil, cnt_nil; lia|].
  intros a b s s1 s2 e1 e2 H1 H2. rewrite fcnt_app, cnt_app. lia.
Qed.

Lemma bmove_cons u c a ts s s' ev : bmove c a ts s s' ev -> rel_cons u ts s s' ev.
Proof.
  unfold rel_cons, pcnt. intro H.
  destruct H as [a s l|a s ts e' bound tosched ev E|s pids e' b ev E|a s w l idx' ok ev _ _ Hw E|a s elig pl' sc un ev _ _ _ R];
    cbn [enq s_wait s_early]; rewrite ?cnt_nil.
  - reflexivity.
  - destruct (work_loop_cons u _ _ _ _ _ _ _ E) as [H1 H2]. rewrite cnt_app, fcnt_app, fcnt_adv_sched, H2. lia.
  - destruct (flush_loop_cons u _ _ _ _ _ _ E) as [H1 H2]. lia.
  - destruct (rr_loop_cons u _ _ _ _ _ _ _ E) as [H1 H2]. rewrite Hw, cnt_app, fcnt_app, fcnt_adv_fwd, H1, H2. lia.
  - destruct (bf_run_cons u _ _ _ _ _ _ _ R) as [H1 H2]. rewrite fcnt_app, fcnt_adv_fwd, H2. lia.
Qed.

Lemma binds_cons u c a ts s s' ev : binds c a ts s s' ev -> rel_cons u ts s s' ev.
Proof. exact (chain_pass _ _ (pass_cons u) (bmove_cons u c a) ts s s' ev). Qed.

(* Resched_X and update_*_X (also in Proofs3, Proofs4): one handler taken alone; step_X and run_X go through
   bmove_X instead *)
Lemma Resched_cons u c s s' ev : Resched c s s' ev -> pcnt u s' + fcnt u ev = pcnt u s.
Proof. intro R. rewrite <- (Z.add_0_r (pcnt u s)). exact (binds_cons u c false _ _ _ _ (Resched_binds c false _ _ _ R)). Qed.

Lemma update_pilots_cons u c s upd s' ev :
  update_pilots c s upd = (s', ev) -> pcnt u s' + fcnt u ev = pcnt u s.
Proof. intro H. exact (Resched_cons u _ _ _ _ (update_pilots_inv _ _ _ _ _ H)). Qed.

Lemma update_tasks_cons u c s ns s' ev e :
  update_tasks c s ns = (s', ev, e) -> pcnt u s' + fcnt u ev = pcnt u s.
Proof.
  intro H. destruct (update_tasks_inv _ _ _ _ _ _ H) as [(_ & -> & -> & _)|(_ & pl & b & _ & R)];
    [apply Z.add_0_r|exact (Resched_cons u _ _ _ _ R)].
Qed.

(* step_at: also the messages of a Lin pair, resolved in the state before the pair *)
Lemma step_at_cons u c s0 s o s' ev e :
  step_at c s0 s o = (s', ev, e) -> pcnt u s' + fcnt u ev = pcnt u s + cnt u (op_tasks o).
Proof.
  intro H. destruct (step_at_stages _ _ _ _ _ _ _ H) as (s1 & P & B). destruct (pre_keeps_tasks _ _ _ _ _ _ P) as (Hw & He & _).
  pose proof (binds_cons u _ _ _ _ _ _ B) as K. unfold rel_cons, pcnt in *. rewrite Hw, He in K. exact K.
Qed.

Lemma update_pilot_states_cons u c s ps s' ev e :
  update_pilot_states c s ps = (s', ev, e) -> pcnt u s' + fcnt u ev = pcnt u s.
Proof. intro H. rewrite <- (Z.add_0_r (pcnt u s)). exact (step_at_cons u c s s (OPStates ps) s' ev e H). Qed.

Lemma step_cons u c s o s' ev e : step c s o = (s', ev, e) -> rel_cons u (op_tasks o) s s' ev.
Proof. intro H. apply (step_at_cons u c s s o s' ev e). destruct o; exact H. Qed.

Lemma run_conservation u c ops s s' ev :
  run_st c s ops = (s', ev) -> pcnt u s' + fcnt u ev = pcnt u s + cnt u (submitted ops).
Proof. exact (run_pass c _ (pass_cons u) (step_cons u c) ops s s' ev). Qed.

Lemma pcnt_nonneg u s : 0 <= pcnt u s.
Proof.
  unfold pcnt. pose proof (countz_nonneg u (uids (s_wait s))). unfold cnt.
  assert (0 <= ecnt u (s_early s)).
  { induction (s_early s) as [|[k l] e IH]; simpl; [lia|].
    pose proof (countz_nonneg u (uids l)). unfold cnt. lia. }
  lia.
Qed.

Lemma countz_notin u l : ~ In u l -> countz u l = 0.
Proof.
  induction l as [|x l IH]; simpl; [reflexivity|]. intro H.
  destruct (x =? u) eqn:E; [apply Z.eqb_eq in E; tauto|]. rewrite IH; tauto.
Qed.

Lemma countz_in u l : In u l -> 1 <= countz u l.
Proof.
  induction l as [|x l IH]; simpl; [tauto|]. intros [->|H].
  - rewrite Z.eqb_refl. pose proof (countz_nonneg u l). lia.
  - specialize (IH H). destruct (x =? u); lia.
Qed.

Lemma NoDup_countz l : NoDup l -> forall u, countz u l <= 1.
Proof.
  induction 1 as [|x l Hx Hl IH]; intro u; simpl; [lia|].
  destruct (x =? u) eqn:E.
  - apply Z.eqb_eq in E. subst. rewrite (countz_notin _ _ Hx). lia.
  - specialize (IH u). lia.
Qed.

Lemma countz_NoDup l : (forall u, countz u l <= 1) -> NoDup l.
Proof.
  induction l as [|x l IH]; intro H; constructor.
  - intro Hin. specialize (H x). simpl in H. rewrite Z.eqb_refl in H.
    pose proof (countz_in _ _ Hin). lia.
  - apply IH. intro u. specialize (H u). simpl in H. destruct (x =? u); lia.
Qed.

Lemma events_of_run c : forall ops s, events_of (run c s ops) = snd (run_st c s ops).
Proof.
  induction ops as [|o ops IH]; intro s; simpl; [reflexivity|].
  destruct (step c s o) as [[s1 ev1] e1]. unfold events_of in *. cbn [map concat fst snd].
  rewrite IH. destruct (run_st c s1 ops). reflexivity.
Qed.

Lemma bound_once c ops :
  NoDup (uids (submitted ops)) -> NoDup (fwd_uids (events_of (run c st0 ops))).
Proof.
  intro Hn. apply countz_NoDup. intro u. rewrite events_of_run.
  destruct (run_st c st0 ops) as [s' ev] eqn:E. cbn [snd].
  pose proof (run_conservation u c ops st0 s' ev E) as H.
  pose proof (pcnt_nonneg u s'). pose proof (NoDup_countz _ Hn u).
  unfold fcnt, cnt in *. change (pcnt u st0) with 0 in H. lia.
Qed.

Lemma conservation c ops u :
  countz u (uids (submitted ops)) =
  countz u (waiting (fst (run_st c st0 ops))) + countz u (fwd_uids (snd (run_st c st0 ops))).
Proof.
  destruct (run_st c st0 ops) as [s' ev] eqn:E. cbn [fst snd].
  pose proof (run_conservation u c ops st0 s' ev E) as H.
  rewrite waiting_count. unfold fcnt, cnt in *. change (pcnt u st0) with 0 in H. lia.
Qed.

(* middle conjunct: every caller but the algorithm binds named tasks only *)
Definition goodb (c : cfg) (a : asg) : bool :=
  named_asg a && (sched_asg a || match a_prev a with Some _ => true | None => false end) &&
  match c_kind c with
  | RR => true
  | BF => window_asg c a && (negb (sched_asg a) || role_eqb (a_role a) RAdded)
  end.
Definition AllG (c : cfg) (ev : list event) : Prop := forallb (goodb c) (asgs_of ev) = true.

Definition unnamed (l : list task) : Prop := Forall (fun t => t_pilot t = None) l.
Definition namedE (e : list (Z * list task)) : Prop :=
  Forall (fun x => Forall (fun t => t_pilot t = Some (fst x)) (snd x)) e.
Definition Inv (s : st) : Prop := unnamed (s_wait s) /\ namedE (s_early s).

Lemma goodb_true c a : goodb c a = true ->
  named_asg a = true /\ (c_kind c = BF -> window_asg c a = true /\ added_asg a = true).
Proof.
  unfold goodb. rewrite !andb_true_iff. intros [[Hn Hs] Hb]. split; [exact Hn|]. intro Hk. rewrite Hk in Hb.
  apply andb_true_iff in Hb. destruct Hb as [Hw Hr]. split; [exact Hw|]. unfold added_asg.
  destruct (sched_asg a); cbn [negb orb] in *; [rewrite Hr; apply orb_true_r|].
  destruct (a_prev a); [reflexivity|discriminate].
Qed.

Lemma AllG_app c a b : AllG c a -> AllG c b -> AllG c (a ++ b).
Proof. unfold AllG. intros Ha Hb. rewrite asgs_of_app, forallb_app, Ha, Hb. reflexivity. Qed.

Lemma AllG_nil c : AllG c [].
Proof. reflexivity. Qed.

Lemma AllG_adv c k l : AllG c (adv k l).
Proof. unfold adv. destruct l; reflexivity. Qed.

Lemma AllG_Asgs c ev : AllG c ev <-> Asgs (fun a => goodb c a = true) ev.
Proof. unfold AllG, Asgs. rewrite forallb_forall, Forall_forall. reflexivity. Qed.

Lemma goodb_rr c pl t pid :
  c_kind c = RR -> t_pilot t = None -> goodb c (snap SSched pl t pid) = true.
Proof.
  intros Hk Hp. unfold goodb, named_asg, sched_asg, snap. cbn [a_prev a_pid a_src]. rewrite Hk, Hp.
  reflexivity.
Qed.

Lemma goodb_early c s pl t pid :
  s <> SSched -> t_pilot t = Some pid -> goodb c (snap s pl t pid) = true.
Proof.
  intros Hs Hp. unfold goodb, named_asg, window_asg, sched_asg, snap.
  cbn [a_prev a_pid a_src]. rewrite Hp, Z.eqb_refl.
  destruct s; try congruence; destruct (c_kind c); reflexivity.
Qed.

Lemma namedE_EarlyAll e : namedE e <-> EarlyAll (fun k t => t_pilot t = Some k) e.
Proof.
  unfold namedE, EarlyAll. rewrite Forall_forall. split.
  - intros H k l Hin t Ht. specialize (H (k, l) Hin). rewrite Forall_forall in H. exact (H t Ht).
  - intros H [k l] Hin. apply Forall_forall. intros t Ht. exact (H k l Hin t Ht).
Qed.

Lemma eligible_true c pl pid : eligible c pl pid = true ->
  p_role (getp pid pl) = RAdded /\ in_window c (p_state (getp pid pl)) = true /\
  used_of (getp pid pl) < hwm_of (getp pid pl).
Proof.
  unfold eligible. rewrite !andb_true_iff, Z.ltb_lt. intros [[Hr Hw] Hu]. split; [|split; assumption].
  destruct (p_role (getp pid pl)); [discriminate|reflexivity|discriminate].
Qed.

(* Backfilling._schedule_tasks changes no role and no recorded state, so a pilot eligible at its start is a good choice all along *)
Lemma goodb_eligible c pl pl1 t pid :
  Keeps p_role pl pl1 -> Keeps p_state pl pl1 -> eligible c pl pid = true -> t_pilot t = None ->
  goodb c (snap SSched pl1 t pid) = true.
Proof.
  intros Kr Ks He Hp. destruct (eligible_true _ _ _ He) as (Hr & Hw & _).
  unfold goodb, named_asg, window_asg, sched_asg, snap. cbn [a_prev a_pid a_src a_role a_state].
  rewrite Hp, (Kr pid), Hr, (Ks pid), Hw. destruct (c_kind c); reflexivity.
Qed.

Lemma work_loop_good c pl ts early e' bound tosched ev :
  namedE early -> work_loop pl ts early = (e', bound, tosched, ev) ->
  namedE e' /\ unnamed tosched /\ AllG c ev.
Proof.
  intros He H.
  assert (HPQ : forall t pid, In t ts -> t_pilot t = Some pid ->
                              goodb c (snap SWork pl t pid) = true /\ t_pilot t = Some pid)
    by (intros t pid _ Hp; split; [apply goodb_early; [discriminate|exact Hp]|exact Hp]).
  destruct (work_loop_spec (fun a => goodb c a = true) (fun k t => t_pilot t = Some k) pl _ _ _ _ _ _ HPQ
              (proj1 (namedE_EarlyAll _) He) H) as (-> & _ & H3 & H4).
  split; [apply namedE_EarlyAll; exact H3|split; [|apply AllG_Asgs; exact H4]].
  apply Forall_forall. intros t Ht. apply filter_In in Ht. destruct Ht as [_ Ht]. unfold unnamedb in Ht.
  destruct (t_pilot t); [discriminate|reflexivity].
Qed.

Lemma flush_loop_good c pl pids early e' b ev :
  namedE early -> flush_loop pl pids early = (e', b, ev) -> namedE e' /\ AllG c ev.
Proof.
  intros He H.
  assert (HP : forall pid t, t_pilot t = Some pid -> goodb c (snap SCtl pl t pid) = true)
    by (intros pid t Hp; apply goodb_early; [discriminate|exact Hp]).
  destruct (flush_loop_spec (fun a => goodb c a = true) (fun k t => t_pilot t = Some k) pl _ _ _ _ _ HP
              (proj1 (namedE_EarlyAll _) He) H) as (H1 & _ & H3).
  split; [apply namedE_EarlyAll; exact H1|apply AllG_Asgs; exact H3].
Qed.

Definition rel_good (c : cfg) : rel := fun _ s s' ev => Inv s -> Inv s' /\ AllG c ev.

Lemma pass_good c : pass (rel_good c).
Proof.
  split; [exact (fun s Hi => conj Hi (AllG_nil c))|]. intros a b s s1 s2 e1 e2 H1 H2 Hi.
  destruct (H1 Hi) as [Hi1 G1]. destruct (H2 Hi1) as [Hi2 G2]. exact (conj Hi2 (AllG_app c _ _ G1 G2)).
Qed.

Lemma bmove_good c a ts s s' ev : bmove c a ts s s' ev -> rel_good c ts s s' ev.
Proof.
  intro H.
  destruct H as [a s l|a s ts e' bound tosched ev E|s pids e' b ev E|a s w l idx' ok ev Hk _ Hw E|a s elig pl' sc un ev _ Hel _ R];
    intros [Hwt He].
  - exact (conj (conj Hwt He) (AllG_nil c)).
  - destruct (work_loop_good c _ _ _ _ _ _ _ He E) as (H1 & H2 & H3).
    split; [split; [exact (proj2 (Forall_app _ _ _) (conj Hwt H2))|exact H1]|exact (AllG_app c _ _ (AllG_adv c _ _) H3)].
  - destruct (flush_loop_good c _ _ _ _ _ _ He E) as [H1 H2]. exact (conj (conj Hwt H1) H2).
  - unfold unnamed in Hwt. rewrite Hw in Hwt. apply Forall_app in Hwt. destruct Hwt as [H1 H2].
    split; [exact (conj H1 He)|]. apply AllG_app; [|apply AllG_adv]. apply AllG_Asgs.
    refine (rr_loop_asgs _ _ _ _ _ _ _ _ _ E). intros t pid Ht _.
    exact (goodb_rr c _ t pid Hk (proj1 (Forall_forall _ _) H2 t Ht)).
  - subst elig.
    destruct (bf_run_spec (fun a => goodb c a = true) _ _ _ _ _ _ _
                (fun pl1 t pid Kr Ks Ht Hp => goodb_eligible c _ pl1 t pid Kr Ks (proj2 (proj1 (filter_In _ _ _) Hp))
                                                (proj1 (Forall_forall _ _) Hwt t Ht)) R) as (H1 & _ & _ & H4).
    split; [exact (conj (incl_Forall H1 Hwt) He)|]. apply AllG_app; [apply AllG_Asgs; exact H4|apply AllG_adv].
Qed.

Lemma binds_good c a ts s s' ev : binds c a ts s s' ev -> Inv s -> Inv s' /\ AllG c ev.
Proof. exact (chain_pass _ _ (pass_good c) (bmove_good c a) ts s s' ev). Qed.

Lemma Resched_good c s s' ev : Inv s -> Resched c s s' ev -> Inv s' /\ AllG c ev.
Proof. intros Hi R. exact (binds_good c false _ _ _ _ (Resched_binds c false _ _ _ R) Hi). Qed.

Lemma update_pilots_good c s upd s' ev :
  Inv s -> update_pilots c s upd = (s', ev) -> Inv s' /\ AllG c ev.
Proof. intros Hi H. exact (Resched_good c _ _ _ Hi (update_pilots_inv _ _ _ _ _ H)). Qed.

Lemma update_tasks_good c s ns s' ev e :
  Inv s -> update_tasks c s ns = (s', ev, e) -> Inv s' /\ AllG c ev.
Proof.
  intros Hi H. destruct (update_tasks_inv _ _ _ _ _ _ H) as [(_ & -> & -> & _)|(_ & pl & b & _ & R)];
    [split; [exact Hi|apply AllG_nil]|exact (Resched_good c (with_pilots s pl) _ _ Hi R)].
Qed.

Lemma step_good c s o s' ev e : Inv s -> step c s o = (s', ev, e) -> Inv s' /\ AllG c ev.
Proof.
  intros Hi H. destruct (step_stages _ _ _ _ _ _ H) as (s1 & P & B). destruct (pre_keeps_tasks _ _ _ _ _ _ P) as (Hw & He & _).
  apply (binds_good c _ _ _ _ _ B). unfold Inv. rewrite Hw, He. exact Hi.
Qed.

Lemma update_pilot_states_good c s ps s' ev e :
  Inv s -> update_pilot_states c s ps = (s', ev, e) -> Inv s' /\ AllG c ev.
Proof. exact (step_good c s (OPStates ps) s' ev e). Qed.

Lemma run_good c ops s s' ev : Inv s -> run_st c s ops = (s', ev) -> Inv s' /\ AllG c ev.
Proof.
  intros Hi H. exact (run_pass c _ (pass_good c) (fun s1 o s2 ev1 e1 E Hi1 => step_good c _ _ _ _ _ Hi1 E) ops s s' ev H Hi).
Qed.

Lemma Inv0 : Inv st0.
Proof. split; constructor. Qed.

Lemma all_good c ops : forallb (goodb c) (asgs_of (events_of (run c st0 ops))) = true.
Proof.
  rewrite events_of_run. destruct (run_st c st0 ops) as [s' ev] eqn:E.
  exact (proj2 (run_good c _ _ _ _ Inv0 E)).
Qed.

(* a task that names a pilot is bound to it; a bound task is never re-bound *)
Lemma named_goes_to_named c ops :
  forallb named_asg (asgs_of (events_of (run c st0 ops))) = true.
Proof.
  pose proof (all_good c ops) as H. rewrite forallb_forall in *. intros a Ha.
  exact (proj1 (goodb_true c a (H a Ha))).
Qed.
