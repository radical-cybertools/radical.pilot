(* C12: round-robin balance.  RoundRobin._schedule_tasks walks the pilot list
   cyclically from any start index; over one call the numbers of tasks given
   to any two list positions differ by at most one. *)
From Coq Require Import ZArith List Lia.
From RP Require Import TmgrSched.Model TmgrSched.Oracle.
Import ListNotations.
Open Scope Z_scope.

Fixpoint rr_pos (n : nat) (k idx : Z) : list Z :=
  match n with
  | O => []
  | S m => let i := if k <=? idx then 0 else idx in i :: rr_pos m k (i + 1)
  end.

Lemma rr_loop_pos pl pids : forall ts idx idx' ok ev,
  rr_loop pl pids idx ts = (idx', ok, ev) ->
  map a_pid (asgs_of ev) =
  map (fun i => nth (Z.to_nat i) pids 0) (rr_pos (length ts) (Z.of_nat (length pids)) idx).
Proof.
  induction ts as [|t ts IH]; intros idx idx' ok ev H; simpl in H.
  - injection H as <- <- <-. reflexivity.
  - destruct (rr_loop pl pids ((if Z.of_nat (length pids) <=? idx then 0 else idx) + 1) ts)
      as [[i2 ok2] ev2] eqn:E.
    injection H as <- <- <-. cbn [asgs_of map length rr_pos]. rewrite (IH _ _ _ _ E). reflexivity.
Qed.

(* steps of the cyclic walk over k positions from i0 to p *)
Definition cdist (k i0 p : Z) : Z := if i0 <=? p then p - i0 else p - i0 + k.

Ltac split_ifs :=
  repeat match goal with
         | |- context [?a <=? ?b] => destruct (Z.leb_spec a b)
         | |- context [?a <? ?b] => destruct (Z.ltb_spec a b)
         | |- context [?a =? ?b] => destruct (Z.eqb_spec a b)
         end.

(* every position has had m tasks, the r that the walk meets first one more *)
Lemma rr_pos_shape k : 0 < k -> forall n idx, 0 <= idx ->
  exists m r, 0 <= r < k /\
    forall p, 0 <= p < k ->
      countz p (rr_pos n k idx) =
      m + (if cdist k (if k <=? idx then 0 else idx) p <? r then 1 else 0).
Proof.
  intro Hk. induction n as [|n IH]; intros idx Hidx.
  - exists 0, 0. split; [lia|]. intros p Hp. cbn [rr_pos countz]. unfold cdist. split_ifs; lia.
  - cbn [rr_pos countz].
    set (i0 := if k <=? idx then 0 else idx).
    assert (Hi0 : 0 <= i0 < k) by (subst i0; split_ifs; lia).
    destruct (IH (i0 + 1)) as [m' [r' [Hr' Hc]]]; [lia|].
    destruct (Z.ltb_spec (r' + 1) k) as [Hlt|Hge].
    + exists m', (r' + 1). split; [lia|]. intros p Hp. rewrite (Hc p Hp).
      unfold cdist. split_ifs; lia.
    + exists (m' + 1), 0. split; [lia|]. intros p Hp. rewrite (Hc p Hp).
      unfold cdist. split_ifs; lia.
Qed.

Lemma rr_balance pl pids idx ts idx' ok ev :
  pids <> [] -> 0 <= idx -> rr_loop pl pids idx ts = (idx', ok, ev) ->
  let k := Z.of_nat (length pids) in
  let pos := rr_pos (length ts) k idx in
  map a_pid (asgs_of ev) = map (fun i => nth (Z.to_nat i) pids 0) pos /\
  forall p q, 0 <= p < k -> 0 <= q < k -> Z.abs (countz p pos - countz q pos) <= 1.
Proof.
  intros Hne Hidx H k pos. split; [exact (rr_loop_pos _ _ _ _ _ _ _ H)|].
  assert (Hk : 0 < k) by (subst k; destruct pids; [congruence|cbn [length]; lia]).
  destruct (rr_pos_shape k Hk (length ts) idx Hidx) as [m [r [Hr Hc]]].
  intros p q Hp Hq. subst pos. rewrite (Hc p Hp), (Hc q Hq).
  repeat match goal with |- context [if ?b then 1 else 0] => destruct b end; lia.
Qed.
