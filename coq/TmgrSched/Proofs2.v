(* C12: the no-duplicate half of Oracle.ok_bound_once; without a registered pilot nothing is placed; one
   finished-notification credits a task once. *)
From Coq Require Import ZArith List Bool Lia.
From RP Require Import Gen.StatesTables TmgrSched.Model TmgrSched.Oracle TmgrSched.Steps TmgrSched.Proofs.
Import ListNotations.
Open Scope Z_scope.

Lemma nodupb_NoDup l : nodupb l = true <-> NoDup l.
Proof.
  induction l as [|x l IH]; simpl; [split; [constructor|reflexivity]|].
  rewrite andb_true_iff, negb_true_iff, IH. split.
  - intros [H1 H2]. constructor; [|exact H2]. intro Hin. apply memz_In in Hin. congruence.
  - intro H. inversion H as [|? ? Hx Hl]; subst. split; [exact (memz_false _ _ Hx)|exact Hl].
Qed.

Lemma bound_once_oracle c ops :
  nodupb (map t_uid (submitted ops)) = true ->
  nodupb (map fst (fwd_of (events_of (run c st0 ops)))) = true.
Proof.
  intro H. apply nodupb_NoDup. apply nodupb_NoDup in H. exact (bound_once c ops H).
Qed.

Definition quiet (ev : list event) : Prop :=
  existsb sched_asg (asgs_of ev) = false /\ bad_adv ev = false.

Lemma bad_adv_app a b : bad_adv (a ++ b) = bad_adv a || bad_adv b.
Proof.
  induction a as [|x a IH]; simpl; [reflexivity|].
  destruct x as [k l| |]; try exact IH. destruct k; try exact IH; reflexivity.
Qed.

Lemma quiet_nil : quiet [].
Proof. split; reflexivity. Qed.

Lemma quiet_app a b : quiet a -> quiet b -> quiet (a ++ b).
Proof.
  intros [H1 H2] [H3 H4]. split.
  - rewrite asgs_of_app, existsb_app, H1, H3. reflexivity.
  - rewrite bad_adv_app, H2, H4. reflexivity.
Qed.

Lemma quiet_adv k l : k = AScheduling \/ k = AForward -> quiet (adv k l).
Proof. intros [-> | ->]; unfold adv; destruct l; split; reflexivity. Qed.

Lemma work_loop_quiet pl : forall ts early e' bound tosched ev,
  work_loop pl ts early = (e', bound, tosched, ev) -> quiet ev.
Proof.
  induction ts as [|t ts IH]; intros early e' bound tosched ev H; simpl in H.
  - injection H as <- <- <- <-. apply quiet_nil.
  - destruct (t_pilot t) as [pid|].
    + destruct (has_dict pid pl).
      * destruct (work_loop pl ts early) as [[[e2 b2] t2] ev2] eqn:E.
        injection H as <- <- <- <-. destruct (IH _ _ _ _ _ E) as [H1 H2].
        split; simpl; assumption.
      * exact (IH _ _ _ _ _ H).
    + destruct (work_loop pl ts early) as [[[e2 b2] t2] ev2] eqn:E.
      injection H as <- <- <- <-. exact (IH _ _ _ _ _ E).
Qed.

Lemma sub_rem_loop_nil pids : fst (sub_rem_loop pids []) = [].
Proof. destruct pids; reflexivity. Qed.

Definition rel_waits : rel := fun _ s s' ev => s_pids s = [] -> quiet ev /\ s_pids s' = [].

Lemma pass_waits : pass rel_waits.
Proof.
  split; [exact (fun s Hp => conj quiet_nil Hp)|]. intros a b s s1 s2 e1 e2 H1 H2 Hp.
  destruct (H1 Hp) as [Q1 Hp1]. destruct (H2 Hp1) as [Q2 Hp2]. exact (conj (quiet_app _ _ Q1 Q2) Hp2).
Qed.

Lemma bmove_waits c ts s s' ev : bmove c false ts s s' ev -> rel_waits ts s s' ev.
Proof.
  intro H. inversion H as [a s0 l|a s0 ts0 e' bound tosched ev0 E| |a s0 w l idx' ok ev0 _ Hne|a s0 elig pl' sc un ev0 _ Hel Hne];
    subst; intro Hp.
  - split; [split; reflexivity|exact Hp].
  - split; [|exact Hp]. apply quiet_app; [apply quiet_adv; tauto|exact (work_loop_quiet _ _ _ _ _ _ _ E)].
  - destruct (Hne Hp).
  - rewrite Hp in Hne. destruct (Hne eq_refl).
Qed.

Lemma waits_without_pilot c s o s' ev e :
  s_pids s = [] -> (forall t ps, o <> OAdd t ps) -> step c s o = (s', ev, e) ->
  existsb sched_asg (asgs_of ev) = false /\ bad_adv ev = false /\ s_pids s' = [].
Proof.
  intros Hp Hno H. destruct (step_stages _ _ _ _ _ _ H) as (s1 & P & B).
  assert (Hp1 : s_pids s1 = []).
  { destruct P as [o Ho|t ps pl x E|t ps pl pl2 upd e E1 E2|t pids pl e1 E|ps pl upd e E|ns pl b e _ E];
      try exact Hp; try destruct (Hno _ _ eq_refl).
    cbn [s_pids]. rewrite Hp. destruct e1; [reflexivity|apply sub_rem_loop_nil]. }
  assert (Ha : is_add o = false) by (destruct o; try reflexivity; destruct (Hno _ _ eq_refl)). rewrite Ha in B.
  destruct (chain_pass _ _ pass_waits (bmove_waits c) _ _ _ _ B Hp1) as [[Q1 Q2] Hp']. tauto.
Qed.

Lemma bf_credit_once pl uid pid cores st p i :
  aget pid pl = Some p -> p_info p = Some i ->
  memz uid (i_tasks i) = true -> memz uid (i_done i) = false ->
  tvalue T_AGENT_EXECUTING < tvalue st -> 0 <= i_used i - cores ->
  exists pl', ut_loop [(uid, Some pid, st, cores)] pl false = (pl', true, None) /\
    used_of (getp pid pl') = i_used i - cores /\
    ut_loop [(uid, Some pid, st, cores)] pl' false = (pl', false, None).
Proof.
  intros Hg Hi Ht Hd Hs Hu. eexists. split; [|split].
  - cbn [ut_loop]. rewrite Hg, Hi, Hd, Ht.
    destruct (Z.leb_spec (tvalue st) (tvalue T_AGENT_EXECUTING)); [lia|].
    cbn [negb i_used]. destruct (Z.ltb_spec (i_used i - cores) 0); [lia|]. reflexivity.
  - rewrite getp_aset, Z.eqb_refl. reflexivity.
  - cbn [ut_loop]. rewrite aget_aset, Z.eqb_refl. cbn [p_info i_done].
    assert (Hm : memz uid (i_done i ++ [uid]) = true).
    { apply memz_In. apply in_or_app. right. left. reflexivity. }
    rewrite Hm. reflexivity.
Qed.
