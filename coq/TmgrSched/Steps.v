(* C12: what TmgrSched.Model.step does, independently of any one property: facts about the model's dicts and
   lists; what each loop does (Keeps, Asgs, EarlyAll, BoundFrom, bf_run); what a message does (pre, bmove,
   run_pass; at the end of the file). *)
From Coq Require Import ZArith List Bool Lia.
From RP Require Import Gen.StatesTables States.Model States.Inst TmgrSched.Model TmgrSched.Oracle TmgrSched.Lin.
Import ListNotations.
Open Scope Z_scope.

Lemma memz_In x l : memz x l = true <-> In x l.
Proof.
  induction l as [|y l IH]; simpl; [split; [discriminate|tauto]|].
  rewrite orb_true_iff, IH, Z.eqb_eq. tauto.
Qed.

Lemma memz_false x l : ~ In x l -> memz x l = false.
Proof. intro H. destruct (memz x l) eqn:E; [apply memz_In in E; tauto|reflexivity]. Qed.

Lemma memz_app x a b : memz x (a ++ b) = memz x a || memz x b.
Proof. induction a as [|y a IH]; simpl; [reflexivity|]. rewrite IH. apply orb_assoc. Qed.

Lemma remove1_In x y l : In x (remove1 y l) -> In x l.
Proof.
  induction l as [|z l IH]; simpl; [tauto|]. destruct (z =? y); simpl; tauto.
Qed.

Lemma In_if_remove1 x y (b : bool) l : In x (if b then remove1 y l else l) -> In x l.
Proof. destruct b; [apply remove1_In|exact (fun H => H)]. Qed.

Lemma aget_aset {A} (l : list (Z * A)) k k' v :
  aget k (aset k' v l) = if k' =? k then Some v else aget k l.
Proof.
  induction l as [|[k0 v0] l IH]; simpl.
  - destruct (k' =? k); reflexivity.
  - destruct (Z.eqb_spec k0 k'); simpl.
    + subst. destruct (Z.eqb_spec k' k); reflexivity.
    + destruct (Z.eqb_spec k0 k).
      * subst. destruct (Z.eqb_spec k' k); [congruence|reflexivity].
      * exact IH.
Qed.

Lemma getp_aset pl pid v q : getp q (aset pid v pl) = if pid =? q then v else getp q pl.
Proof. unfold getp. rewrite aget_aset. destruct (pid =? q); reflexivity. Qed.

Lemma getp_aget pid pl p : aget pid pl = Some p -> getp pid pl = p.
Proof. intro H. unfold getp. rewrite H. reflexivity. Qed.

Lemma getp_aget_none pid pl : aget pid pl = None -> getp pid pl = pil0.
Proof. intro H. unfold getp. rewrite H. reflexivity. Qed.

Definition Keeps {A} (f : pil -> A) (pl pl' : list (Z * pil)) : Prop :=
  forall q, f (getp q pl') = f (getp q pl).

Lemma Keeps_refl {A} (f : pil -> A) pl : Keeps f pl pl.
Proof. intro q. reflexivity. Qed.

Lemma Keeps_trans {A} (f : pil -> A) a b c : Keeps f a b -> Keeps f b c -> Keeps f a c.
Proof. intros H1 H2 q. rewrite H2. apply H1. Qed.

Lemma Keeps_aset {A} (f : pil -> A) pl pid p' : f p' = f (getp pid pl) -> Keeps f pl (aset pid p' pl).
Proof. intros H q. rewrite getp_aset. destruct (Z.eqb_spec pid q); [subst; exact H|reflexivity]. Qed.

Definition role_blind {A} (f : pil -> A) : Prop := forall p r c, f (mkPil r (p_state p) c (p_info p)) = f p.
Definition state_blind {A} (f : pil -> A) : Prop := forall p s, f (mkPil (p_role p) s (p_cores p) (p_info p)) = f p.
Definition info_blind {A} (f : pil -> A) : Prop := forall p i, f (mkPil (p_role p) (p_state p) (p_cores p) i) = f p.

Lemma add_loop_keeps {A} (f : pil -> A) : role_blind f ->
  forall ps pl pl' e, add_loop ps pl = (pl', e) -> Keeps f pl pl'.
Proof.
  intro Hf. induction ps as [|[[pid st] cores] r IH]; intros pl pl' e H; simpl in H.
  - injection H as <- <-. apply Keeps_refl.
  - destruct (aget pid pl) as [p|] eqn:Hg.
    + destruct (role_eqb (p_role p) RAdded).
      * injection H as <- <-. apply Keeps_refl.
      * eapply Keeps_trans; [|exact (IH _ _ _ H)]. apply Keeps_aset.
        rewrite (getp_aget _ _ _ Hg). apply Hf.
    + eapply Keeps_trans; [|exact (IH _ _ _ H)]. apply Keeps_aset.
      rewrite (getp_aget_none _ _ Hg). exact (Hf pil0 RAdded (Some cores)).
Qed.

Lemma rem_loop_keeps {A} (f : pil -> A) : role_blind f ->
  forall pids pl pl' e, rem_loop pids pl = (pl', e) -> Keeps f pl pl'.
Proof.
  intro Hf. induction pids as [|pid r IH]; intros pl pl' e H; simpl in H.
  - injection H as <- <-. apply Keeps_refl.
  - destruct (aget pid pl) as [p|] eqn:Hg; [|injection H as <- <-; apply Keeps_refl].
    destruct (role_eqb (p_role p) RAdded); [|injection H as <- <-; apply Keeps_refl].
    eapply Keeps_trans; [|exact (IH _ _ _ H)]. apply Keeps_aset.
    rewrite (getp_aget _ _ _ Hg). apply Hf.
Qed.

Lemma add_used_keeps {A} (f : pil -> A) pid uid cores pl : info_blind f -> Keeps f pl (add_used pid uid cores pl).
Proof.
  intro Hf. unfold add_used. destruct (p_info (getp pid pl)); [|apply Keeps_refl].
  apply Keeps_aset. apply Hf.
Qed.

Lemma set_info_fold_keeps {A} (f : pil -> A) c : info_blind f ->
  forall pids pl, Keeps f pl (fold_left (set_info c) pids pl).
Proof.
  intro Hf. induction pids as [|p r IH]; intro pl; simpl; [apply Keeps_refl|].
  eapply Keeps_trans; [|exact (IH _)]. apply Keeps_aset. apply Hf.
Qed.

(* `if pid not in self._pilots: self._pilots[pid] = {...}` : no pilot looks different afterwards *)
Definition ensure (pid : Z) (pl : list (Z * pil)) : list (Z * pil) :=
  match aget pid pl with Some _ => pl | None => aset pid pil0 pl end.

Lemma getp_ensure pid pl q : getp q (ensure pid pl) = getp q pl.
Proof.
  unfold ensure. destruct (aget pid pl) eqn:E; [reflexivity|]. rewrite getp_aset.
  destruct (Z.eqb_spec pid q); [subst; rewrite (getp_aget_none _ _ E)|]; reflexivity.
Qed.

Definition ups_target (cur : option pstate) (tgt : pstate) : perr + pstate :=
  match cur with
  | None => inr tgt
  | Some cur => match p_progress cur tgt with inl e => inl e | inr (n, _) => inr n end
  end.

Definition set_state (pid : Z) (n : pstate) (pl : list (Z * pil)) : list (Z * pil) :=
  let p := getp pid pl in aset pid (mkPil (p_role p) (Some n) (p_cores p) (p_info p)) pl.

Lemma ups_loop_step pid tgt r pl upd :
  ups_loop ((pid, tgt) :: r) pl upd =
  let pl1 := ensure pid pl in
  match ups_target (p_state (getp pid pl1)) tgt with
  | inl ValueError => ups_loop r pl1 upd
  | inl e => (pl1, upd, Some (conv e))
  | inr n => if pstate_opt_eqb (p_state (getp pid pl1)) (Some n) then ups_loop r pl1 upd
             else ups_loop r (set_state pid n pl1) (upd ++ [pid])
  end.
Proof. reflexivity. Qed.

Lemma ups_loop_keeps {A} (f : pil -> A) : state_blind f ->
  forall ps pl upd pl' upd' e, ups_loop ps pl upd = (pl', upd', e) -> Keeps f pl pl'.
Proof.
  intro Hf. induction ps as [|[pid tgt] r IH]; intros pl upd pl' upd' e H.
  - injection H as <- <- <-. apply Keeps_refl.
  - rewrite ups_loop_step in H. cbv zeta in H.
    assert (H1 : Keeps f pl (ensure pid pl)) by (intro q; rewrite getp_ensure; reflexivity).
    destruct (ups_target _ tgt) as [err|n].
    + destruct err; try (injection H as <- <- <-; exact H1).
      exact (Keeps_trans _ _ _ _ H1 (IH _ _ _ _ _ H)).
    + destruct (pstate_opt_eqb _ (Some n)); [exact (Keeps_trans _ _ _ _ H1 (IH _ _ _ _ _ H))|].
      refine (Keeps_trans _ _ _ _ H1 (Keeps_trans _ _ _ _ _ (IH _ _ _ _ _ H))).
      apply Keeps_aset. apply Hf.
Qed.

Definition ut_hit (pl : list (Z * pil)) (n : Z * option Z * tstate * Z) : option (Z * pil * info) :=
  let '(uid, op, st, _) := n in
  match op with
  | None => None
  | Some pid =>
      match aget pid pl with
      | None => None
      | Some p =>
          match p_info p with
          | None => None
          | Some i =>
              if memz uid (i_done i) || (tvalue st <=? tvalue T_AGENT_EXECUTING) || negb (memz uid (i_tasks i))
              then None else Some (pid, p, i)
          end
      end
  end.

Definition credited (i : info) (uid cores : Z) : info :=
  mkInfo (i_hwm i) (i_used i - cores) (i_tasks i) (i_done i ++ [uid]).
Definition set_pinfo (pid : Z) (p : pil) (i : info) (pl : list (Z * pil)) : list (Z * pil) :=
  aset pid (mkPil (p_role p) (p_state p) (p_cores p) (Some i)) pl.

Lemma ut_loop_step uid op st cores r pl b :
  ut_loop ((uid, op, st, cores) :: r) pl b =
  match ut_hit pl (uid, op, st, cores) with
  | None => ut_loop r pl b
  | Some (pid, p, i) =>
      let pl1 := set_pinfo pid p (credited i uid cores) pl in
      if i_used i - cores <? 0 then (pl1, true, Some ERuntime) else ut_loop r pl1 true
  end.
Proof.
  cbn [ut_loop ut_hit]. destruct op as [pid|]; [|reflexivity].
  destruct (aget pid pl) as [p|]; [|reflexivity]. destruct (p_info p) as [i|]; [|reflexivity].
  destruct (memz uid (i_done i)); [reflexivity|].
  destruct (tvalue st <=? tvalue T_AGENT_EXECUTING); [reflexivity|].
  destruct (memz uid (i_tasks i)); reflexivity.
Qed.

Lemma ut_hit_some pl uid op st cores pid p i :
  ut_hit pl (uid, op, st, cores) = Some (pid, p, i) ->
  op = Some pid /\ aget pid pl = Some p /\ p_info p = Some i /\
  memz uid (i_done i) = false /\ tvalue T_AGENT_EXECUTING < tvalue st /\ memz uid (i_tasks i) = true.
Proof.
  cbn [ut_hit]. destruct op as [pid0|]; [|discriminate].
  destruct (aget pid0 pl) as [p0|] eqn:Eg; [|discriminate]. destruct (p_info p0) as [i0|] eqn:Ei; [|discriminate].
  destruct (memz uid (i_done i0)) eqn:Ed; [discriminate|].
  destruct (Z.leb_spec (tvalue st) (tvalue T_AGENT_EXECUTING)) as [Hle|Hlt]; [discriminate|].
  destruct (memz uid (i_tasks i0)) eqn:Et; [|discriminate].
  intro H. injection H as <- <- <-. tauto.
Qed.

Lemma ut_loop_keeps {A} (f : pil -> A) : info_blind f ->
  forall ns pl b pl' b' e, ut_loop ns pl b = (pl', b', e) -> Keeps f pl pl'.
Proof.
  intro Hf. induction ns as [|[[[uid op] st] cores] r IH]; intros pl b pl' b' e H.
  - injection H as <- <- <-. apply Keeps_refl.
  - rewrite ut_loop_step in H. destruct (ut_hit pl _) as [[[pid p] i]|] eqn:Eh; [|exact (IH _ _ _ _ _ H)].
    destruct (ut_hit_some _ _ _ _ _ _ _ _ Eh) as (_ & Hg & _).
    assert (H1 : Keeps f pl (set_pinfo pid p (credited i uid cores) pl)).
    { apply Keeps_aset. rewrite (getp_aget _ _ _ Hg). apply Hf. }
    cbv zeta in H. destruct (_ <? 0).
    + injection H as <- <- <-. exact H1.
    + exact (Keeps_trans _ _ _ _ H1 (IH _ _ _ _ _ H)).
Qed.

Lemma asgs_of_app a b : asgs_of (a ++ b) = asgs_of a ++ asgs_of b.
Proof.
  induction a as [|x a IH]; simpl; [reflexivity|]. destruct x; simpl; rewrite IH; reflexivity.
Qed.

Definition Asgs (P : asg -> Prop) (ev : list event) : Prop := Forall P (asgs_of ev).

Lemma Asgs_nil P : Asgs P [].
Proof. constructor. Qed.
Lemma Asgs_app P a b : Asgs P a -> Asgs P b -> Asgs P (a ++ b).
Proof. unfold Asgs. rewrite asgs_of_app. intros. apply Forall_app. split; assumption. Qed.
Lemma Asgs_adv P k l : Asgs P (adv k l).
Proof. unfold adv. destruct l; constructor. Qed.
Lemma Asgs_asg (P : asg -> Prop) a ev : P a -> Asgs P ev -> Asgs P (EAsg a :: ev).
Proof. intros H1 H2. unfold Asgs. cbn [asgs_of]. constructor; assumption. Qed.

Lemma Asgs_map (P : asg -> Prop) {A} (f : A -> asg) l :
  (forall t, In t l -> P (f t)) -> Asgs P (map (fun t => EAsg (f t)) l).
Proof.
  intro H. induction l as [|t l IH]; [constructor|]. cbn [map].
  apply Asgs_asg; [apply H; left; reflexivity|apply IH; intros t' Ht'; apply H; right; exact Ht'].
Qed.

Lemma rr_loop_asgs (P : asg -> Prop) pl pids : forall ts idx idx' ok ev,
  (forall t pid, In t ts -> (pids <> [] -> In pid pids) -> P (snap SSched pl t pid)) ->
  rr_loop pl pids idx ts = (idx', ok, ev) -> Asgs P ev.
Proof.
  induction ts as [|t ts IH]; intros idx idx' ok ev HP H; simpl in H.
  - injection H as <- <- <-. apply Asgs_nil.
  - destruct (rr_loop pl pids _ ts) as [[i2 ok2] ev2] eqn:E. injection H as <- <- <-.
    apply Asgs_asg; [|exact (IH _ _ _ _ (fun t' pid Ht => HP t' pid (or_intror Ht)) E)].
    apply HP; [left; reflexivity|]. intro Hne. apply nth_In.
    assert (0 < Z.of_nat (length pids)) by (destruct pids; [congruence|cbn [length]; lia]).
    destruct (Z.leb_spec (Z.of_nat (length pids)) idx); lia.
Qed.

(* what a loop binds: every dict it hands on is one of l with the pilot filled in *)
Definition BoundFrom (l b : list task) : Prop :=
  forall t, In t b -> exists t0 pid, In t0 l /\ t = bind t0 pid.

Lemma BoundFrom_nil l : BoundFrom l [].
Proof. intros ? []. Qed.
Lemma BoundFrom_tl t l b : BoundFrom l b -> BoundFrom (t :: l) b.
Proof. intros H t' Ht'. destruct (H t' Ht') as (t0 & q & Hq & ->). exists t0, q. split; [right; exact Hq|reflexivity]. Qed.
Lemma BoundFrom_cons t pid l b : BoundFrom l b -> BoundFrom (t :: l) (bind t pid :: b).
Proof.
  intros H t' [<-|Ht']; [exists t, pid; split; [left|]; reflexivity|exact (BoundFrom_tl t l b H t' Ht')].
Qed.

(* Backfilling._schedule_tasks, one rule per way a waiting task is handled: it stays in the pool, or it is
   placed on an eligible pilot, whose info is charged and which may leave elig (b: it is now full).  Which
   pilot is found and when it is full matters to no result below, so the rules do not say. *)
Inductive bf_run : list task -> list Z -> list (Z * pil) -> list (Z * pil) -> list task -> list task ->
                   list event -> Prop :=
| bf_run_nil elig pl : bf_run [] elig pl pl [] [] []
| bf_run_stay t w elig pl pl' sc un ev :
    bf_run w elig pl pl' sc un ev -> bf_run (t :: w) elig pl pl' sc (t :: un) ev
| bf_run_place t w elig pl pid (b : bool) pl' sc un ev :
    In pid elig ->
    bf_run w (if b then remove1 pid elig else elig) (add_used pid (t_uid t) (t_cores t) pl) pl' sc un ev ->
    bf_run (t :: w) elig pl pl' (bind t pid :: sc) un
           (EAsg (snap SSched (add_used pid (t_uid t) (t_cores t) pl) t pid) :: ev).

Lemma bf_loop_run : forall wait elig pl pl' sc un ev,
  bf_loop wait elig pl = (pl', sc, un, ev) -> bf_run wait elig pl pl' sc un ev.
Proof.
  induction wait as [|t w IH]; intros elig pl pl' sc un ev H; simpl in H.
  - injection H as <- <- <- <-. constructor.
  - destruct (find _ elig) as [pid|] eqn:Ef.
    + match type of H with context [bf_loop w ?e ?p] => destruct (bf_loop w e p) as [[[pl2 sc2] un2] ev2] eqn:E end.
      injection H as <- <- <- <-. apply find_some in Ef.
      exact (bf_run_place _ _ _ _ _ _ _ _ _ _ (proj1 Ef) (IH _ _ _ _ _ _ E)).
    + destruct (bf_loop w elig pl) as [[[pl2 sc2] un2] ev2] eqn:E.
      injection H as <- <- <- <-. exact (bf_run_stay _ _ _ _ _ _ _ _ (IH _ _ _ _ _ _ E)).
Qed.

(* un is what is left of the wait pool, sc what was placed; the table changes only in the infos, so every
   _assign_pilot call sees the roles and states of the start *)
Lemma bf_run_spec (P : asg -> Prop) : forall wait elig pl pl' sc un ev,
  (forall pl1 t pid, Keeps p_role pl pl1 -> Keeps p_state pl pl1 -> In t wait -> In pid elig ->
                     P (snap SSched pl1 t pid)) ->
  bf_run wait elig pl pl' sc un ev ->
  incl un wait /\ BoundFrom wait sc /\
  (forall A (f : pil -> A), info_blind f -> Keeps f pl pl') /\
  Asgs P ev.
Proof.
  intros wait elig pl pl' sc un ev HP H. revert HP.
  induction H as [elig pl|t w elig pl pl' sc un ev _ IH|t w elig pl pid b pl' sc un ev Hin _ IH]; intro HP.
  - split; [apply incl_nil_l|split; [apply BoundFrom_nil|split; [intros; apply Keeps_refl|apply Asgs_nil]]].
  - destruct (IH (fun pl1 t' q Kr1 Ks1 Ht' => HP pl1 t' q Kr1 Ks1 (or_intror Ht'))) as (H1 & H2 & H3 & H4).
    split; [apply incl_cons; [left; reflexivity|apply incl_tl; exact H1]|].
    split; [exact (BoundFrom_tl t w sc H2)|split; assumption].
  - pose proof (fun A (f : pil -> A) => add_used_keeps f pid (t_uid t) (t_cores t) pl) as K.
    pose proof (K _ p_role (fun _ _ => eq_refl)) as Kr. pose proof (K _ p_state (fun _ _ => eq_refl)) as Ks.
    destruct (IH (fun pl1 t' q Kr1 Ks1 Ht' Hq =>
                HP pl1 t' q (Keeps_trans _ _ _ _ Kr Kr1) (Keeps_trans _ _ _ _ Ks Ks1) (or_intror Ht')
                   (In_if_remove1 q pid b elig Hq))) as (H1 & H2 & H3 & H4).
    split; [apply incl_tl; exact H1|split; [exact (BoundFrom_cons t pid w sc H2)|split]].
    + intros A f Hf. exact (Keeps_trans _ _ _ _ (K A f Hf) (H3 A f Hf)).
    + exact (Asgs_asg P _ _ (HP _ t pid Kr Ks (or_introl eq_refl) Hin) H4).
Qed.

Definition EarlyAll (Q : Z -> task -> Prop) (e : list (Z * list task)) : Prop :=
  forall k l, In (k, l) e -> forall t, In t l -> Q k t.

Lemma In_aset {A} k (l : A) pid v e : In (k, l) (aset pid v e) -> (k, l) = (pid, v) \/ In (k, l) e.
Proof.
  induction e as [|[k0 v0] e IH]; simpl.
  - intros [H|[]]. left. symmetry. exact H.
  - destruct (Z.eqb_spec k0 pid).
    + intros [H|H]; [left; subst; symmetry; exact H|right; right; exact H].
    + intros [H|H]; [right; left; exact H|]. destruct (IH H); [left; assumption|right; right; assumption].
Qed.

Lemma aget_In {A} pid (e : list (Z * A)) l : aget pid e = Some l -> In (pid, l) e.
Proof.
  induction e as [|[k0 v0] e IH]; simpl; [discriminate|]. destruct (Z.eqb_spec k0 pid).
  - intro H. injection H as <-. subst. left. reflexivity.
  - intro H. right. exact (IH H).
Qed.

Lemma In_adel {A} k (l : A) pid e : In (k, l) (adel pid e) -> In (k, l) e.
Proof.
  induction e as [|[k0 v0] e IH]; simpl; [tauto|]. destruct (k0 =? pid).
  - intro H. right. exact H.
  - intros [H|H]; [left; exact H|right; exact (IH H)].
Qed.

Lemma EarlyAll_eappend (Q : Z -> task -> Prop) e pid t : EarlyAll Q e -> Q pid t -> EarlyAll Q (eappend pid t e).
Proof.
  intros He Ht k l Hin. unfold eappend in Hin. destruct (aget pid e) as [l0|] eqn:Eg;
    apply In_aset in Hin; destruct Hin as [Hin|Hin]; try exact (He k l Hin); injection Hin as -> ->.
  - intros t' Ht'. apply in_app_or in Ht'.
    destruct Ht' as [Ht'|[<-|[]]]; [exact (He pid l0 (aget_In _ _ _ Eg) t' Ht')|exact Ht].
  - intros t' [<-|[]]. exact Ht.
Qed.

Lemma EarlyAll_adel (Q : Z -> task -> Prop) e pid : EarlyAll Q e -> EarlyAll Q (adel pid e).
Proof. intros He k l Hin. exact (He k l (In_adel _ _ _ _ Hin)). Qed.

(* base.work: tasks that name a pilot are bound at once or parked, the others go to the scheduler *)
Definition unnamedb (t : task) : bool := match t_pilot t with None => true | Some _ => false end.

Lemma work_loop_spec (P : asg -> Prop) (Q : Z -> task -> Prop) pl : forall ts early e' bound tosched ev,
  (forall t pid, In t ts -> t_pilot t = Some pid -> P (snap SWork pl t pid) /\ Q pid t) ->
  EarlyAll Q early -> work_loop pl ts early = (e', bound, tosched, ev) ->
  tosched = filter unnamedb ts /\ BoundFrom ts bound /\ EarlyAll Q e' /\ Asgs P ev.
Proof.
  induction ts as [|t ts IH]; intros early e' bound tosched ev HPQ He H; simpl in H.
  - injection H as <- <- <- <-. split; [reflexivity|split; [apply BoundFrom_nil|split; [exact He|apply Asgs_nil]]].
  - assert (HPQ' : forall t' pid, In t' ts -> t_pilot t' = Some pid -> P (snap SWork pl t' pid) /\ Q pid t')
      by (intros t' pid Ht'; apply HPQ; right; exact Ht').
    unfold unnamedb at 1. cbn [filter]. destruct (t_pilot t) as [pid|] eqn:Et.
    + destruct (HPQ t pid (or_introl eq_refl) Et) as [Hp Hq]. destruct (has_dict pid pl).
      * destruct (work_loop pl ts early) as [[[e2 b2] t2] ev2] eqn:E.
        injection H as <- <- <- <-. destruct (IH _ _ _ _ _ HPQ' He E) as (H1 & H2 & H3 & H4).
        split; [exact H1|split; [exact (BoundFrom_cons t pid ts b2 H2)|split; [exact H3|exact (Asgs_asg P _ _ Hp H4)]]].
      * destruct (IH _ _ _ _ _ HPQ' (EarlyAll_eappend Q _ pid t He Hq) H) as (H1 & H2 & H3 & H4).
        split; [exact H1|split; [exact (BoundFrom_tl t ts bound H2)|split; assumption]].
    + destruct (work_loop pl ts early) as [[[e2 b2] t2] ev2] eqn:E.
      injection H as <- <- <- <-. destruct (IH _ _ _ _ _ HPQ' He E) as (H1 & H2 & H3 & H4).
      split; [rewrite H1; reflexivity|split; [exact (BoundFrom_tl t ts b2 H2)|split; assumption]].
Qed.

(* add_pilots: the lists parked for the new pilots are bound to them *)
Lemma flush_tasks_eq pl pid l :
  flush_tasks pl pid l = (map (fun t => bind t pid) l, map (fun t => EAsg (snap SCtl pl t pid)) l).
Proof. induction l as [|t l IH]; simpl; [reflexivity|]. rewrite IH. reflexivity. Qed.

(* an empty parked list is flushed like any other: it binds nothing and announces nothing *)
Lemma flush_loop_step pl pid r early :
  flush_loop pl (pid :: r) early =
  match aget pid early with
  | Some l => let '(e', b2, ev2) := flush_loop pl r (adel pid early) in
              let b := map (fun t => bind t pid) l in
              (e', b ++ b2, map (fun t => EAsg (snap SCtl pl t pid)) l ++ adv AForward b ++ ev2)
  | None => flush_loop pl r early
  end.
Proof.
  cbn [flush_loop]. destruct (aget pid early) as [[|t l]|]; [|rewrite flush_tasks_eq; reflexivity|reflexivity].
  destruct (flush_loop pl r (adel pid early)) as [[e' b2] ev2]. reflexivity.
Qed.

Lemma flush_loop_spec (P : asg -> Prop) (Q : Z -> task -> Prop) pl : forall pids early e' b ev,
  (forall pid t, Q pid t -> P (snap SCtl pl t pid)) ->
  EarlyAll Q early -> flush_loop pl pids early = (e', b, ev) ->
  EarlyAll Q e' /\ (forall t, In t b -> exists pid t0, Q pid t0 /\ t = bind t0 pid) /\ Asgs P ev.
Proof.
  induction pids as [|pid pids IH]; intros early e' b ev HP He H.
  - injection H as <- <- <-. split; [exact He|split; [intros ? []|apply Asgs_nil]].
  - rewrite flush_loop_step in H. destruct (aget pid early) as [l|] eqn:Eg; [|exact (IH _ _ _ _ HP He H)].
    destruct (flush_loop pl pids (adel pid early)) as [[e2 b2] ev2] eqn:E2.
    injection H as <- <- <-. destruct (IH _ _ _ _ HP (EarlyAll_adel Q _ pid He) E2) as (A1 & A2 & A3).
    pose proof (He pid _ (aget_In _ _ _ Eg)) as Hl. split; [exact A1|split].
    + intros t' Ht'. apply in_app_or in Ht'. destruct Ht' as [Ht'|Ht']; [|exact (A2 t' Ht')].
      apply in_map_iff in Ht'. destruct Ht' as (t0 & <- & Ht0). exists pid, t0.
      split; [exact (Hl t0 Ht0)|reflexivity].
    + apply Asgs_app; [exact (Asgs_map P _ l (fun t0 Ht0 => HP pid t0 (Hl t0 Ht0)))|].
      apply Asgs_app; [apply Asgs_adv|exact A3].
Qed.

(* add_pilots hands the whole wait pool to the scheduler again, as work() hands it new tasks *)
Lemma sub_add_eq c s pids :
  sub_add c s pids =
  sub_work c (mkSt (match c_kind c with RR => s_pilots s | BF => fold_left (set_info c) pids (s_pilots s) end)
                   (s_early s) (s_pids s ++ pids) (s_idx s) [] (s_tk s)) (s_wait s).
Proof. unfold sub_add, sub_work. destruct (c_kind c); [destruct (s_wait s)|]; reflexivity. Qed.

Definition docs (ps : list (Z * pstate * Z)) : list (Z * pstate) :=
  map (fun x => (fst (fst x), snd (fst x))) ps.

(* update_pilots, and the tail of update_pilot_states and update_tasks: nothing
   happens, or (Backfilling only) one _schedule_tasks call *)
Definition Resched (c : cfg) (s s' : st) (ev : list event) : Prop :=
  (s' = s /\ ev = []) \/ (c_kind c = BF /\ bf_schedule c s = (s', ev)).

Lemma with_pilots_id s : with_pilots s (s_pilots s) = s.
Proof. destruct s. reflexivity. Qed.

Lemma update_pilots_inv c s upd s' ev : update_pilots c s upd = (s', ev) -> Resched c s s' ev.
Proof.
  unfold update_pilots. destruct (c_kind c) eqn:Hk.
  - intro H. injection H as <- <-. left. split; reflexivity.
  - destruct (existsb _ upd); intro H; [right; split; [exact Hk|exact H]|].
    injection H as <- <-. left. split; reflexivity.
Qed.

Lemma update_pilot_states_inv c s ps s' ev e :
  update_pilot_states c s ps = (s', ev, e) ->
  exists pl upd, ups_loop ps (s_pilots s) [] = (pl, upd, e) /\ Resched c (with_pilots s pl) s' ev.
Proof.
  unfold update_pilot_states. destruct ps as [|p ps].
  - intro H. injection H as <- <- <-. exists (s_pilots s), []. split; [reflexivity|].
    left. rewrite with_pilots_id. split; reflexivity.
  - destruct (ups_loop (p :: ps) (s_pilots s) []) as [[pl upd] e1]. intro H. exists pl, upd.
    destruct e1 as [x|]; [|destruct upd as [|u0 upd]];
      try (injection H as <- <- <-; split; [reflexivity|left; split; reflexivity]).
    destruct (update_pilots c (with_pilots s pl) (u0 :: upd)) as [s2 ev2] eqn:E.
    injection H as <- <- <-. split; [reflexivity|exact (update_pilots_inv _ _ _ _ _ E)].
Qed.

Lemma update_tasks_inv c s ns s' ev e :
  update_tasks c s ns = (s', ev, e) ->
  (c_kind c = RR /\ s' = s /\ ev = [] /\ e = None) \/
  (c_kind c = BF /\ exists pl b, ut_loop ns (s_pilots s) false = (pl, b, e) /\
                                 Resched c (with_pilots s pl) s' ev).
Proof.
  unfold update_tasks. destruct (c_kind c) eqn:Hk.
  - intro H. injection H as <- <- <-. left. tauto.
  - destruct (ut_loop ns (s_pilots s) false) as [[pl b] e1]. intro H. right. split; [reflexivity|].
    exists pl, b. destruct e1 as [x|]; [|destruct b];
      try (injection H as <- <- <-; split; [reflexivity|left; split; reflexivity]).
    destruct (bf_schedule c (with_pilots s pl)) as [s2 ev2] eqn:E.
    injection H as <- <- <-. split; [reflexivity|right; split; [exact Hk|exact E]].
Qed.

(* One message: first the pilot table and _pids are brought up to date (pre: no task moves, nothing is
   announced); then tasks are bound in a chain of moves (bmove), none of which changes a role or a recorded
   state.  A move is indexed by the tasks it takes in.  A property of histories is a relation closed under
   sequencing (pass) that every move has and that the table stage has at index []. *)
Definition rel := list task -> st -> st -> list event -> Prop.

Inductive chain (R : rel) : rel :=
| chain_nil s : chain R [] s s []
| chain_cons ts1 ts2 s s1 s2 ev1 ev2 :
    R ts1 s s1 ev1 -> chain R ts2 s1 s2 ev2 -> chain R (ts1 ++ ts2) s s2 (ev1 ++ ev2).

Definition pass (Q : rel) : Prop :=
  (forall s, Q [] s s []) /\
  (forall a b s s1 s2 e1 e2, Q a s s1 e1 -> Q b s1 s2 e2 -> Q (a ++ b) s s2 (e1 ++ e2)).

Lemma chain_pass (R Q : rel) : pass Q -> (forall ts s s' ev, R ts s s' ev -> Q ts s s' ev) ->
  forall ts s s' ev, chain R ts s s' ev -> Q ts s s' ev.
Proof.
  intros [Hn Ha] HR ts s s' ev H. induction H as [s|ts1 ts2 s s1 s2 ev1 ev2 H1 _ IH]; [apply Hn|].
  exact (Ha _ _ _ _ _ _ _ (HR _ _ _ _ H1) IH).
Qed.

Lemma pass_chain (R : rel) : pass (chain R).
Proof.
  split; [exact (chain_nil R)|]. intros a b s s1 s2 e1 e2 H1 H2.
  induction H1 as [s|ts1 ts2 s s0 s1 ev1 ev2 H _ IH]; [exact H2|].
  rewrite <- !app_assoc. exact (chain_cons R _ _ _ _ _ _ _ H (IH H2)).
Qed.

Lemma chain_one (R : rel) ts s s' ev : R ts s s' ev -> chain R ts s s' ev.
Proof.
  intro H. pose proof (chain_cons R _ _ _ _ _ _ _ H (chain_nil R s')) as S. rewrite !app_nil_r in S. exact S.
Qed.

Definition op_tasks (o : op) : list task := match o with OSubmit ts => ts | _ => [] end.

Lemma submitted_split o ops : submitted (o :: ops) = op_tasks o ++ submitted ops.
Proof. destruct o; reflexivity. Qed.

Lemma run_pass c (Q : rel) : pass Q ->
  (forall s o s' ev e, step c s o = (s', ev, e) -> Q (op_tasks o) s s' ev) ->
  forall ops s s' ev, run_st c s ops = (s', ev) -> Q (submitted ops) s s' ev.
Proof.
  intros [Hn Ha] HQ. induction ops as [|o ops IH]; intros s s' ev H; cbn [run_st] in H.
  - injection H as <- <-. apply Hn.
  - destruct (step c s o) as [[s1 ev1] e1] eqn:E1. destruct (run_st c s1 ops) as [s2 ev2] eqn:E2.
    injection H as <- <-. rewrite submitted_split. exact (Ha _ _ _ _ _ _ _ (HQ _ _ _ _ _ E1) (IH _ _ _ E2)).
Qed.

Definition enq (s : st) (ts : list task) : st :=
  mkSt (s_pilots s) (s_early s) (s_pids s) (s_idx s) (s_wait s ++ ts) (s_tk s).

(* The states between two moves need not be states of the component: bm_accept puts the tasks that name no
   pilot into the wait pool also for RoundRobin with a pilot at hand, and bm_rr takes them out again.  An
   invariant of the component that fails in such states cannot be had through bmove.
   `adding`: the message is an add_pilots command, the one place where pilots come in. *)
Inductive bmove (c : cfg) : forall adding : bool, rel :=
(* binds nothing: the trace's record of a task state message *)
| bm_ntf a s l : bmove c a [] s s [ENtf l]
(* base.work *)
| bm_accept a s ts e' bound tosched ev :
    work_loop (s_pilots s) ts (s_early s) = (e', bound, tosched, ev) ->
    bmove c a ts s (enq (mkSt (s_pilots s) e' (s_pids s) (s_idx s) (s_wait s) (rev bound ++ rev ts ++ s_tk s)) tosched)
          (adv AScheduling ts ++ ev)
(* add_pilots: what was parked for the new pilots is bound, and they enter _pids (Backfilling: with an empty info) *)
| bm_added s pids e' b ev :
    flush_loop (s_pilots s) pids (s_early s) = (e', b, ev) ->
    bmove c true [] s
          (mkSt (match c_kind c with RR => s_pilots s | BF => fold_left (set_info c) pids (s_pilots s) end)
                e' (s_pids s ++ pids) (s_idx s) (s_wait s) (rev b ++ s_tk s)) ev
(* RoundRobin._schedule_tasks with a pilot at hand: the tasks that came last are all bound *)
| bm_rr a s w l idx' ok ev :
    c_kind c = RR -> s_pids s <> [] -> s_wait s = w ++ l ->
    rr_loop (s_pilots s) (s_pids s) (s_idx s) l = (idx', ok, ev) ->
    bmove c a [] s (mkSt (s_pilots s) (s_early s) (s_pids s) idx' w (rev ok ++ s_tk s)) (ev ++ adv AForward ok)
(* Backfilling._schedule_tasks with an eligible pilot at hand *)
| bm_bf a s elig pl' sc un ev :
    c_kind c = BF -> elig = filter (eligible c (s_pilots s)) (s_pids s) -> elig <> [] ->
    bf_run (s_wait s) elig (s_pilots s) pl' sc un ev ->
    bmove c a [] s (mkSt pl' (s_early s) (s_pids s) (s_idx s) un (rev sc ++ s_tk s)) (ev ++ adv AForward sc).

Definition binds (c : cfg) (a : bool) : rel := chain (bmove c a).

Lemma enq_nil s : enq s [] = s.
Proof. unfold enq. rewrite app_nil_r. destruct s. reflexivity. Qed.

Lemma bf_schedule_binds c a s s' ev : c_kind c = BF -> bf_schedule c s = (s', ev) -> binds c a [] s s' ev.
Proof.
  intro Hk. unfold bf_schedule. destruct (filter (eligible c (s_pilots s)) (s_pids s)) as [|e0 elig] eqn:Ef.
  - intro H. injection H as <- <-. constructor.
  - destruct (bf_loop (s_wait s) (e0 :: elig) (s_pilots s)) as [[[pl' sc] un] ev2] eqn:E. intro H. injection H as <- <-.
    apply chain_one. refine (bm_bf c a s (e0 :: elig) pl' sc un ev2 Hk (eq_sym Ef) _ (bf_loop_run _ _ _ _ _ _ _ E)). discriminate.
Qed.

Lemma Resched_binds c a s s' ev : Resched c s s' ev -> binds c a [] s s' ev.
Proof. intros [[-> ->]|[Hk H]]; [constructor|exact (bf_schedule_binds c a s s' ev Hk H)]. Qed.

Lemma sub_work_binds c a s ts s' ev : sub_work c s ts = (s', ev) -> binds c a [] (enq s ts) s' ev.
Proof.
  unfold sub_work. destruct (c_kind c) eqn:Hk; [|exact (bf_schedule_binds c a _ s' ev Hk)].
  destruct ts as [|t ts]; [intro H; injection H as <- <-; rewrite enq_nil; constructor|].
  unfold rr_schedule. destruct (s_pids s) as [|p0 pids] eqn:Ep; [intro H; injection H as <- <-; rewrite <- Ep; constructor|].
  destruct (rr_loop (s_pilots s) (p0 :: pids) (s_idx s) (t :: ts)) as [[idx' ok] ev2] eqn:E. intro H. injection H as <- <-.
  apply chain_one. assert (Hne : s_pids s <> []) by (rewrite Ep; discriminate). rewrite <- Ep in *.
  exact (bm_rr c a (enq s (t :: ts)) (s_wait s) (t :: ts) idx' ok ev2 Hk Hne eq_refl E).
Qed.

Lemma work_binds c a s ts s' ev : work c s ts = (s', ev) -> binds c a ts s s' ev.
Proof.
  unfold work. destruct (work_loop (s_pilots s) ts (s_early s)) as [[[e' bound] tosched] ev1] eqn:E.
  match goal with |- context [sub_work c ?x ?l] => destruct (sub_work c x l) as [s2 ev2] eqn:E2 end.
  intro H. injection H as <- <-.
  pose proof (chain_cons _ _ _ _ _ _ _ _ (bm_accept c a s ts e' bound tosched ev1 E) (sub_work_binds _ a _ _ _ _ E2)) as S.
  rewrite app_nil_r, <- app_assoc in S. exact S.
Qed.

(* The table stage.  For a given message exactly one rule applies; it fixes the state the binding stage starts
   from and the exception. *)
Definition tableless (c : cfg) (o : op) : Prop :=
  match o with
  | OPStates _ => False
  | OAdd TForeign _ | ORemove TForeign _ => True
  | OAdd _ _ | ORemove _ _ => False
  | OTStates _ => c_kind c = RR
  | _ => True
  end.

Inductive pre (c : cfg) (tk : list task) (s : st) : op -> st -> option serr -> Prop :=
| pre_idle o : tableless c o -> pre c tk s o s None
| pre_add_rejected t ps pl x :
    add_loop ps (s_pilots s) = (pl, Some x) -> pre c tk s (OAdd t ps) (with_pilots s pl) (Some x)
| pre_add t ps pl pl2 upd e :
    add_loop ps (s_pilots s) = (pl, None) -> ups_loop (docs ps) pl [] = (pl2, upd, e) ->
    pre c tk s (OAdd t ps) (with_pilots s pl2) e
| pre_remove t pids pl e1 :
    rem_loop pids (s_pilots s) = (pl, e1) ->
    pre c tk s (ORemove t pids)
        (mkSt pl (s_early s) (match e1 with Some _ => s_pids s | None => fst (sub_rem_loop pids (s_pids s)) end)
              (s_idx s) (s_wait s) (s_tk s))
        (match e1 with Some _ => e1 | None => snd (sub_rem_loop pids (s_pids s)) end)
| pre_pstates ps pl upd e :
    ups_loop ps (s_pilots s) [] = (pl, upd, e) -> pre c tk s (OPStates ps) (with_pilots s pl) e
| pre_tstates ns pl b e :
    c_kind c = BF -> ut_loop (map (resolve tk) ns) (s_pilots s) false = (pl, b, e) ->
    pre c tk s (OTStates ns) (with_pilots s pl) e.

Lemma pre_keeps_tasks c tk s o s1 e : pre c tk s o s1 e ->
  s_wait s1 = s_wait s /\ s_early s1 = s_early s /\ s_tk s1 = s_tk s.
Proof. intro H. destruct H; repeat split. Qed.

Lemma do_remove_pre c tk s pids s' ev e :
  do_remove s pids = (s', ev, e) -> (forall t, pre c tk s (ORemove t pids) s' e) /\ ev = [].
Proof.
  unfold do_remove. destruct (rem_loop pids (s_pilots s)) as [pl e1] eqn:E.
  pose proof (fun t => pre_remove c tk s t pids pl e1 E) as P. destruct e1 as [x|].
  - intro H. injection H as <- <- <-. split; [exact P|reflexivity].
  - cbn [with_pilots s_pids s_pilots s_early s_idx s_wait s_tk].
    destruct (sub_rem_loop pids (s_pids s)) as [cur e2]. intro H. injection H as <- <- <-. split; [exact P|reflexivity].
Qed.

(* control_cb('add_pilots'): rejected by the base class; or the pilots' states
   are recorded (an exception there ends the call), the tasks parked for them
   are bound, and the scheduler is told *)
Lemma do_add_stages c tk s t ps s' ev e : do_add c s ps = (s', ev, e) ->
  exists s1, pre c tk s (OAdd t ps) s1 e /\ binds c true [] s1 s' ev.
Proof.
  unfold do_add. destruct (add_loop ps (s_pilots s)) as [pl [x|]] eqn:E1.
  - intro H. injection H as <- <- <-. exists (with_pilots s pl). split; [exact (pre_add_rejected c tk s t ps pl x E1)|constructor].
  - fold (docs ps). destruct (update_pilot_states c (with_pilots s pl) (docs ps)) as [[s2 ev2] e2] eqn:E2.
    destruct (update_pilot_states_inv _ _ _ _ _ _ E2) as (pl2 & upd & E & R).
    pose proof (pre_add c tk s t ps pl pl2 upd _ E1 E) as P. pose proof (Resched_binds c true _ _ _ R) as B2.
    destruct e2 as [x|]; [intro H; injection H as <- <- <-; exists (with_pilots s pl2); split; assumption|].
    destruct (flush_loop (s_pilots s2) (map (fun x => fst (fst x)) ps) (s_early s2)) as [[e' b] ev3] eqn:E3.
    rewrite sub_add_eq. match goal with |- context [sub_work c ?x ?l] => destruct (sub_work c x l) as [s4 ev4] eqn:E4 end.
    intro H. injection H as <- <- <-. exists (with_pilots s pl2). split; [exact P|].
    exact (proj2 (pass_chain (bmove c true)) _ _ _ _ _ _ _ B2
             (chain_cons (bmove c true) [] _ _ _ _ _ _ (bm_added c s2 _ e' b ev3 E3) (sub_work_binds _ true _ _ _ _ E4))).
Qed.

Definition is_add (o : op) : bool := match o with OAdd _ _ => true | _ => false end.

Lemma step_at_stages c s0 s o s' ev e : step_at c s0 s o = (s', ev, e) ->
  exists s1, pre c (s_tk s0) s o s1 e /\ binds c (is_add o) (op_tasks o) s1 s' ev.
Proof.
  assert (Stay : forall o, tableless c o -> (s, @nil event, @None serr) = (s', ev, e) ->
                 exists s1, pre c (s_tk s0) s o s1 e /\ binds c (is_add o) [] s1 s' ev)
    by (intros o' Ho H; injection H as <- <- <-; exists s; split; [exact (pre_idle c _ s o' Ho)|constructor]).
  destruct o as [ts|t ps|t pids|ps|ns|]; cbn [step_at step op_tasks].
  - destruct (work c s ts) as [s2 ev2] eqn:E. intro H. injection H as <- <- <-. exists s.
    split; [exact (pre_idle c _ s (OSubmit ts) I)|exact (work_binds _ _ _ _ _ _ E)].
  - destruct t; try (apply Stay; exact I); apply do_add_stages.
  - destruct t; try (apply Stay; exact I); intro H; destruct (do_remove_pre c (s_tk s0) s pids _ _ _ H) as [P ->];
      (exists s'; split; [exact (P _)|constructor]).
  - intro H. destruct (update_pilot_states_inv _ _ _ _ _ _ H) as (pl & upd & E & R). exists (with_pilots s pl).
    split; [exact (pre_pstates c _ s ps pl upd e E)|exact (Resched_binds _ _ _ _ _ R)].
  - destruct (update_tasks c s (map (resolve (s_tk s0)) ns)) as [[s2 ev2] e2] eqn:E. intro H. injection H as <- <- <-.
    destruct (update_tasks_inv _ _ _ _ _ _ E) as [(Hr & -> & -> & ->)|(Hk & pl & b & Eu & R)].
    + exists s. split; [exact (pre_idle c _ s (OTStates ns) Hr)|exact (chain_one _ _ _ _ _ (bm_ntf c _ s _))].
    + exists (with_pilots s pl). split; [exact (pre_tstates c _ s ns pl b e2 Hk Eu)|].
      exact (chain_cons (bmove c _) [] _ _ _ _ _ _ (bm_ntf c _ _ _) (Resched_binds _ _ _ _ _ R)).
  - apply Stay. exact I.
Qed.

Lemma step_stages c s o s' ev e : step c s o = (s', ev, e) ->
  exists s1, pre c (s_tk s) s o s1 e /\ binds c (is_add o) (op_tasks o) s1 s' ev.
Proof. intro H. apply step_at_stages. destruct o; exact H. Qed.
