(* C12: the sequential specification of the linearizability check satisfies
   "exactly once": after a prefix and the two messages of a pair, handled one
   after the other in either order, every submitted task is -- with
   multiplicity -- either held back or handed on. *)
From Coq Require Import ZArith List Lia.
From RP Require Import TmgrSched.Model TmgrSched.Oracle TmgrSched.Lin TmgrSched.Steps TmgrSched.Proofs.
Import ListNotations.
Open Scope Z_scope.

Lemma submitted_app a b : submitted (a ++ b) = submitted a ++ submitted b.
Proof.
  induction a as [|o a IH]; [reflexivity|]. cbn [app]. destruct o; cbn [submitted]; rewrite IH, ?app_assoc; reflexivity.
Qed.

Lemma lin_spec_exactly_once c prefix a b u s1 ev1 e1 s2 ev2 e2 :
  let s0 := fst (run_st c st0 prefix) in
  let ev0 := snd (run_st c st0 prefix) in
  step_at c s0 s0 a = (s1, ev1, e1) -> step_at c s0 s1 b = (s2, ev2, e2) ->
  countz u (uids (submitted (prefix ++ [a; b]))) =
  countz u (waiting s2) + countz u (fwd_uids (ev0 ++ ev1 ++ ev2)).
Proof.
  intros s0 ev0 H1 H2.
  pose proof (run_conservation u c prefix st0 s0 ev0) as H0.
  destruct (run_st c st0 prefix) as [s ev] eqn:E. cbn [fst snd] in s0, ev0. specialize (H0 eq_refl).
  apply (step_at_cons u) in H1. apply (step_at_cons u) in H2.
  rewrite submitted_app, !submitted_split, app_nil_r. rewrite waiting_count.
  change (countz u (fwd_uids (ev0 ++ ev1 ++ ev2))) with (fcnt u (ev0 ++ ev1 ++ ev2)).
  rewrite !fcnt_app. unfold uids. rewrite !map_app, !countz_app.
  change (pcnt u st0) with 0 in H0. unfold cnt, uids in *. subst s0 ev0. lia.
Qed.
