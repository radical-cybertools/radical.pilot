(* C12: backfilling usage accounting.  Over any history with unique task uids
   and non-negative core counts, info['used'] of every pilot is exactly the
   sum of the cores of the tasks placed on it (since it was last added) that
   have not been credited yet; hence update_tasks never raises, and used is 0
   as soon as every placed task has been reported finished. *)
From Coq Require Import ZArith List Bool Lia.
From RP Require Import Common.ListFacts Gen.StatesTables TmgrSched.Model TmgrSched.Oracle
  TmgrSched.Steps TmgrSched.Proofs.
Import ListNotations.
Open Scope Z_scope.

(* cores of the task dict with this uid, as a notification carries it *)
Definition cof (tk : list task) (u : Z) : Z :=
  match find_task u tk with Some t => t_cores t | None => 1 end.
Fixpoint sumz (l : list Z) : Z := match l with [] => 0 | x :: r => x + sumz r end.
Definition term (tk : list task) (done : list Z) (u : Z) : Z :=
  if memz u done then 0 else cof tk u.
(* cores placed on the pilot and not yet credited back *)
Definition outstanding (tk : list task) (i : info) : Z :=
  sumz (map (term tk (i_done i)) (i_tasks i)).
Definition info_of (p : Z) (pl : list (Z * pil)) : option info := p_info (getp p pl).

Definition HeldOK (tk l : list task) : Prop :=
  forall t, In t l -> In (t_uid t) (uids tk) /\ cof tk (t_uid t) = t_cores t.
Definition EarlyOK (tk : list task) (e : list (Z * list task)) : Prop :=
  forall k l, In (k, l) e -> HeldOK tk l.
Definition TkOK (tk : list task) : Prop := forall t, In t tk -> 0 <= t_cores t.
Definition InfoOK (tk : list task) (i : info) : Prop :=
  NoDup (i_tasks i) /\ (forall u, In u (i_tasks i) -> In u (uids tk)) /\
  (forall u, In u (i_done i) -> In u (i_tasks i)) /\ i_used i = outstanding tk i.
Definition PilOK (tk : list task) (pl : list (Z * pil)) : Prop :=
  forall p i, info_of p pl = Some i -> InfoOK tk i.
Definition Disj (wait : list task) (pl : list (Z * pil)) : Prop :=
  forall p i u, info_of p pl = Some i -> In u (i_tasks i) -> ~ In u (uids wait).
Definition Good (s : st) : Prop :=
  NoDup (uids (s_wait s)) /\ HeldOK (s_tk s) (s_wait s) /\ EarlyOK (s_tk s) (s_early s) /\
  TkOK (s_tk s) /\ PilOK (s_tk s) (s_pilots s) /\ Disj (s_wait s) (s_pilots s).

(* what HeldOK and EarlyOK say of each task; EarlyOK tk e is EarlyAll (fun _ => Known tk) e by conversion *)
Definition Known (tk : list task) (t : task) : Prop :=
  In (t_uid t) (uids tk) /\ cof tk (t_uid t) = t_cores t.

Lemma find_task_In u tk t : find_task u tk = Some t -> In t tk /\ t_uid t = u.
Proof.
  unfold find_task. intro H. apply find_some in H. destruct H as [H1 H2].
  apply Z.eqb_eq in H2. tauto.
Qed.

Lemma find_task_none u tk : find_task u tk = None -> ~ In u (uids tk).
Proof.
  unfold find_task. intros H Hin. unfold uids in Hin. apply in_map_iff in Hin.
  destruct Hin as [t [Ht Hi]]. pose proof (find_none _ _ H t Hi) as Hn. cbv beta in Hn.
  rewrite Ht, Z.eqb_refl in Hn. discriminate.
Qed.

Lemma cof_nonneg tk u : TkOK tk -> 0 <= cof tk u.
Proof.
  intro H. unfold cof. destruct (find_task u tk) as [t|] eqn:E; [|lia].
  apply find_task_In in E. apply H. tauto.
Qed.

Lemma cof_app_same l tk u :
  (forall t, In t l -> t_uid t = u -> t_cores t = cof tk u) -> cof (l ++ tk) u = cof tk u.
Proof.
  induction l as [|t l IH]; intro H; [reflexivity|].
  unfold cof, find_task. cbn [app find]. destruct (Z.eqb_spec (t_uid t) u) as [E|E].
  - apply H; [left; reflexivity|exact E].
  - apply IH. intros t' Ht'. apply H. right. exact Ht'.
Qed.

Definition Ext (tk tk' : list task) : Prop :=
  (forall u, In u (uids tk) -> In u (uids tk')) /\
  (forall u, In u (uids tk) -> cof tk' u = cof tk u).

Lemma Ext_refl tk : Ext tk tk.
Proof. split; intros; tauto. Qed.
Lemma uids_app a b : uids (a ++ b) = uids a ++ uids b.
Proof. apply map_app. Qed.
Lemma uids_push l tk u : In u (uids (rev l ++ tk)) <-> In u (uids l) \/ In u (uids tk).
Proof. unfold uids. rewrite map_app, map_rev, in_app_iff, <- in_rev. reflexivity. Qed.

Lemma Ext_app l tk :
  (forall t, In t l -> In (t_uid t) (uids tk) -> t_cores t = cof tk (t_uid t)) -> Ext tk (l ++ tk).
Proof.
  intro H. split; intros u Hu; [rewrite uids_app; apply in_or_app; right; exact Hu|].
  apply cof_app_same. intros t Ht <-. exact (H t Ht Hu).
Qed.

Lemma TkOK_app l tk : (forall t, In t l -> 0 <= t_cores t) -> TkOK tk -> TkOK (l ++ tk).
Proof.
  intros H Hk t Ht. apply in_app_or in Ht. destruct Ht as [Ht|Ht]; [exact (H t Ht)|exact (Hk t Ht)].
Qed.

Lemma HeldOK_Ext tk tk' l : Ext tk tk' -> HeldOK tk l -> HeldOK tk' l.
Proof.
  intros [E1 E2] H t Ht. destruct (H t Ht) as [H1 H2]. split; [exact (E1 _ H1)|].
  rewrite (E2 _ H1). exact H2.
Qed.

Lemma EarlyOK_Ext tk tk' e : Ext tk tk' -> EarlyOK tk e -> EarlyOK tk' e.
Proof. intros E H k l Hin. exact (HeldOK_Ext _ _ _ E (H k l Hin)). Qed.

Lemma outstanding_ext tk tk' i :
  (forall u, In u (i_tasks i) -> cof tk' u = cof tk u) -> outstanding tk' i = outstanding tk i.
Proof.
  intro H. unfold outstanding. f_equal. apply map_ext_in. intros u Hu. unfold term. rewrite (H u Hu). reflexivity.
Qed.

Lemma InfoOK_Ext tk tk' i : Ext tk tk' -> InfoOK tk i -> InfoOK tk' i.
Proof.
  intros [E1 E2] [H1 [H2 [H3 H4]]]. split; [exact H1|split; [|split; [exact H3|]]].
  - intros u Hu. exact (E1 _ (H2 u Hu)).
  - rewrite H4. symmetry. apply outstanding_ext. intros u Hu. exact (E2 _ (H2 u Hu)).
Qed.

Lemma PilOK_Ext tk tk' pl : Ext tk tk' -> PilOK tk pl -> PilOK tk' pl.
Proof. intros E H p i Hi. exact (InfoOK_Ext _ _ _ E (H p i Hi)). Qed.

Definition Fresh (tk ts : list task) : Prop :=
  NoDup (uids ts) /\ forall t, In t ts -> ~ In (t_uid t) (uids tk) /\ 0 <= t_cores t.

Lemma cof_fresh_self ts tk t :
  NoDup (uids ts) -> In t ts -> cof (ts ++ tk) (t_uid t) = t_cores t.
Proof.
  induction ts as [|t0 ts IH]; intros Hn Hin; [destruct Hin|].
  cbn [uids map] in Hn. inversion Hn as [|? ? Hx Hn']; subst.
  unfold cof, find_task. cbn [app find]. destruct Hin as [->|Hin].
  - rewrite Z.eqb_refl. reflexivity.
  - destruct (Z.eqb_spec (t_uid t0) (t_uid t)) as [E|E].
    + exfalso. apply Hx. rewrite E. apply in_map. exact Hin.
    + exact (IH Hn' Hin).
Qed.

Lemma Ext_fresh tk ts :
  Fresh tk ts ->
  Ext tk (rev ts ++ tk) /\ HeldOK (rev ts ++ tk) ts /\ (TkOK tk -> TkOK (rev ts ++ tk)).
Proof.
  intros [Hn Hf]. split; [|split].
  - apply Ext_app. intros t Ht Hu. apply in_rev in Ht. destruct (proj1 (Hf t Ht) Hu).
  - intros t Ht. split.
    + apply uids_push. left. apply in_map. exact Ht.
    + apply cof_fresh_self; [unfold uids; rewrite map_rev; apply NoDup_rev; exact Hn|]. apply in_rev in Ht. exact Ht.
  - apply TkOK_app. intros t Ht. apply in_rev in Ht. exact (proj2 (Hf t Ht)).
Qed.

Lemma sum_notin tk done u l :
  ~ In u l -> sumz (map (term tk (done ++ [u])) l) = sumz (map (term tk done) l).
Proof.
  induction l as [|x l IH]; intro H; [reflexivity|]. cbn [map sumz].
  rewrite IH by (intro; apply H; right; assumption). f_equal.
  unfold term. rewrite memz_app. cbn [memz]. destruct (Z.eqb_spec u x) as [E|E].
  - exfalso. apply H. left. symmetry. exact E.
  - rewrite orb_false_r. reflexivity.
Qed.

Lemma sum_finish tk done u l :
  NoDup l -> In u l -> memz u done = false ->
  sumz (map (term tk (done ++ [u])) l) = sumz (map (term tk done) l) - cof tk u.
Proof.
  induction l as [|x l IH]; intros Hn Hin Hd; [destruct Hin|].
  inversion Hn as [|? ? Hx Hn']; subst. cbn [map sumz]. destruct Hin as [->|Hin].
  - rewrite (sum_notin _ _ _ _ Hx). unfold term at 1 3. rewrite memz_app, Hd. cbn [memz].
    rewrite Z.eqb_refl. cbn [orb]. lia.
  - rewrite (IH Hn' Hin Hd). unfold term at 1 3. rewrite memz_app. cbn [memz].
    destruct (Z.eqb_spec u x) as [E|E]; [subst; tauto|]. rewrite orb_false_r. lia.
Qed.

Lemma term_nonneg tk done u : TkOK tk -> 0 <= term tk done u.
Proof. intro Hk. unfold term. destruct (memz u done); [lia|exact (cof_nonneg tk u Hk)]. Qed.

Lemma sum_nonneg tk done l : TkOK tk -> 0 <= sumz (map (term tk done) l).
Proof.
  intro Hk. induction l as [|x l IH]; cbn [map sumz]; [lia|]. pose proof (term_nonneg tk done x Hk). lia.
Qed.

Lemma sum_ge_term tk done u l :
  TkOK tk -> In u l -> memz u done = false -> cof tk u <= sumz (map (term tk done) l).
Proof.
  intros Hk. induction l as [|x l IH]; intros Hin Hd; [destruct Hin|]. cbn [map sumz].
  destruct Hin as [->|Hin].
  - unfold term at 1. rewrite Hd. pose proof (sum_nonneg tk done l Hk). lia.
  - specialize (IH Hin Hd). pose proof (term_nonneg tk done x Hk). lia.
Qed.

Lemma sum_place tk done u l :
  memz u done = false -> sumz (map (term tk done) (l ++ [u])) = sumz (map (term tk done) l) + cof tk u.
Proof.
  intro Hd. induction l as [|x l IH]; cbn [app map sumz].
  - unfold term. rewrite Hd. lia.
  - rewrite IH. lia.
Qed.

Lemma sum_all_done tk done l :
  (forall u, In u l -> memz u done = true) -> sumz (map (term tk done) l) = 0.
Proof.
  induction l as [|x l IH]; intro H; [reflexivity|]. cbn [map sumz].
  rewrite IH by (intros; apply H; right; assumption).
  unfold term. rewrite (H x (or_introl eq_refl)). reflexivity.
Qed.

Lemma PilOK_keeps tk pl pl' : Keeps p_info pl pl' -> PilOK tk pl -> PilOK tk pl'.
Proof. intros H P p i Hi. unfold info_of in Hi. rewrite (H p) in Hi. exact (P p i Hi). Qed.
Lemma Disj_keeps w pl pl' : Keeps p_info pl pl' -> Disj w pl -> Disj w pl'.
Proof. intros H D p i u Hi. unfold info_of in Hi. rewrite (H p) in Hi. exact (D p i u Hi). Qed.

Lemma info_of_aset pid p' pl q :
  info_of q (aset pid p' pl) = if pid =? q then p_info p' else info_of q pl.
Proof. unfold info_of. rewrite getp_aset. destruct (pid =? q); reflexivity. Qed.

Lemma PilOK_set tk pl pl1 pid i1 :
  (forall q, info_of q pl1 = if pid =? q then Some i1 else info_of q pl) ->
  InfoOK tk i1 -> PilOK tk pl -> PilOK tk pl1.
Proof.
  intros E H1 P q i Hi. rewrite E in Hi. destruct (pid =? q); [injection Hi as <-; exact H1|exact (P q i Hi)].
Qed.

Lemma InfoOK_empty tk h : InfoOK tk (mkInfo h 0 [] []).
Proof. split; [constructor|split; [intros ? []|split; [intros ? []|reflexivity]]]. Qed.

Lemma info_of_set_info c pl pid q :
  info_of q (set_info c pl pid) =
  if pid =? q
  then Some (mkInfo (Z.quot (match p_cores (getp pid pl) with Some n => n | None => 0 end * c_hwm c) 100) 0 [] [])
  else info_of q pl.
Proof. apply info_of_aset. Qed.

Lemma set_info_fold_acct c tk w : forall pids pl,
  PilOK tk pl -> Disj w pl ->
  PilOK tk (fold_left (set_info c) pids pl) /\ Disj w (fold_left (set_info c) pids pl).
Proof.
  induction pids as [|p r IH]; intros pl P D; [split; assumption|]. cbn [fold_left].
  apply IH; [exact (PilOK_set tk _ _ _ _ (info_of_set_info c pl p) (InfoOK_empty tk _) P)|].
  intros q i u Hi Hu. rewrite info_of_set_info in Hi. destruct (p =? q); [|exact (D q i u Hi Hu)].
  injection Hi as <-. destruct Hu.
Qed.

Definition placed (i : info) (uid cores : Z) : info :=
  mkInfo (i_hwm i) (i_used i + cores) (i_tasks i ++ [uid]) (i_done i).

Lemma add_used_none pid uid cores pl : info_of pid pl = None -> add_used pid uid cores pl = pl.
Proof. unfold info_of, add_used. intros ->. reflexivity. Qed.

Lemma info_of_add_used pid uid cores pl i q :
  info_of pid pl = Some i ->
  info_of q (add_used pid uid cores pl) = if pid =? q then Some (placed i uid cores) else info_of q pl.
Proof. unfold info_of at 1, add_used. intros ->. apply info_of_aset. Qed.

Lemma InfoOK_place tk i u c :
  InfoOK tk i -> ~ In u (i_tasks i) -> In u (uids tk) -> cof tk u = c -> InfoOK tk (placed i u c).
Proof.
  intros [A1 [A2 [A3 A4]]] Hnt Hkn Hco. unfold InfoOK, placed. cbn [i_tasks i_done i_used].
  split; [|split; [|split]].
  - apply NoDup_app_iff. split; [exact A1|split; [constructor; [intros []|constructor]|]].
    intros x Hx [<-|[]]. exact (Hnt Hx).
  - intros x Hx. apply in_app_or in Hx. destruct Hx as [Hx|[<-|[]]]; [exact (A2 x Hx)|exact Hkn].
  - intros x Hx. apply in_or_app. left. exact (A3 x Hx).
  - unfold outstanding. cbn [i_tasks i_done]. rewrite sum_place; [rewrite A4, Hco; reflexivity|].
    apply memz_false. intro Hd. exact (Hnt (A3 _ Hd)).
Qed.

(* Disj per uid (Disj_FreshOut), as the placing loop keeps it *)
Definition FreshOut (x : Z) (pl : list (Z * pil)) : Prop :=
  forall p i, info_of p pl = Some i -> ~ In x (i_tasks i).

Lemma Disj_FreshOut w pl : Disj w pl <-> forall x, In x (uids w) -> FreshOut x pl.
Proof.
  split; intro H; [intros x Hx p i Hi Hu; exact (H p i x Hi Hu Hx)|intros p i u Hi Hu Hx; exact (H u Hx p i Hi Hu)].
Qed.

Lemma FreshOut_add_used x pid uid cores pl :
  x <> uid -> FreshOut x pl -> FreshOut x (add_used pid uid cores pl).
Proof.
  intros Hx F q i Hi. destruct (info_of pid pl) as [i0|] eqn:E0;
    [|rewrite (add_used_none _ _ _ _ E0) in Hi; exact (F q i Hi)].
  rewrite (info_of_add_used _ _ _ _ _ q E0) in Hi. destruct (pid =? q); [|exact (F q i Hi)].
  injection Hi as <-. unfold placed. cbn [i_tasks]. rewrite in_app_iff.
  intros [Hu|[Hu|[]]]; [exact (F pid i0 E0 Hu)|exact (Hx (eq_sym Hu))].
Qed.

Lemma PilOK_add_used tk pid u c pl :
  PilOK tk pl -> FreshOut u pl -> In u (uids tk) -> cof tk u = c -> PilOK tk (add_used pid u c pl).
Proof.
  intros P F Hkn Hco. destruct (info_of pid pl) as [i0|] eqn:E0; [|rewrite (add_used_none _ _ _ _ E0); exact P].
  exact (PilOK_set tk _ _ _ _ (fun q => info_of_add_used _ _ _ _ _ q E0)
           (InfoOK_place tk i0 u c (P pid i0 E0) (F pid i0 E0) Hkn Hco) P).
Qed.

Lemma bf_run_acct tk wait elig pl pl' sc un ev :
  NoDup (uids wait) -> HeldOK tk wait -> PilOK tk pl -> (forall x, In x (uids wait) -> FreshOut x pl) ->
  bf_run wait elig pl pl' sc un ev ->
  PilOK tk pl' /\ (forall x, ~ In x (uids sc) -> FreshOut x pl -> FreshOut x pl').
Proof.
  intros Hn Hh P D H. revert Hn Hh P D.
  induction H as [elig pl|t w elig pl pl' sc un ev _ IH|t w elig pl pid b pl' sc un ev _ _ IH]; intros Hn Hh P D.
  - split; [exact P|tauto].
  - cbn [uids map] in Hn. apply NoDup_cons_iff in Hn.
    exact (IH (proj2 Hn) (fun t' Ht' => Hh t' (or_intror Ht')) P (fun x Hw => D x (or_intror Hw))).
  - cbn [uids map] in Hn. apply NoDup_cons_iff in Hn. destruct Hn as [Hx Hn'].
    destruct (Hh t (or_introl eq_refl)) as [Hkn Hco].
    (* t goes to pid: only t's uid is new among the pilots' tasks, and it is not in w *)
    assert (D1 : forall x, In x (uids w) -> FreshOut x (add_used pid (t_uid t) (t_cores t) pl))
      by (intros x Hw; apply FreshOut_add_used; [intros ->; exact (Hx Hw)|exact (D x (or_intror Hw))]).
    destruct (IH Hn' (fun t' Ht' => Hh t' (or_intror Ht'))
                 (PilOK_add_used tk pid _ _ pl P (D _ (or_introl eq_refl)) Hkn Hco) D1) as [B1 B2].
    split; [exact B1|]. intros x Hxn F. apply B2; [intro Hs; apply Hxn; right; exact Hs|].
    apply FreshOut_add_used; [intros ->; apply Hxn; left; reflexivity|exact F].
Qed.

Definition RI (pl pl' : list (Z * pil)) : Prop :=
  forall p, match info_of p pl, info_of p pl' with
            | Some i, Some i' => i_tasks i' = i_tasks i /\ (forall u, In u (i_done i) -> In u (i_done i'))
            | None, None => True
            | _, _ => False
            end.
Lemma RI_refl pl : RI pl pl.
Proof. intro p. destruct (info_of p pl); [split; [reflexivity|tauto]|exact I]. Qed.
Lemma RI_trans a b c : RI a b -> RI b c -> RI a c.
Proof.
  intros H1 H2 p. specialize (H1 p). specialize (H2 p).
  destruct (info_of p a), (info_of p b), (info_of p c); try tauto.
  destruct H1 as [A1 A2]. destruct H2 as [B1 B2]. split; [congruence|auto].
Qed.

(* every finished-notification of the batch for a task placed on its pilot is credited *)
Definition Cred (ns : list (Z * option Z * tstate * Z)) (pl' : list (Z * pil)) : Prop :=
  forall uid p st cores i', In (uid, Some p, st, cores) ns ->
    tvalue T_AGENT_EXECUTING < tvalue st -> info_of p pl' = Some i' ->
    In uid (i_tasks i') -> In uid (i_done i').

Lemma Cred_cons n r pl : Cred [n] pl -> Cred r pl -> Cred (n :: r) pl.
Proof.
  intros H1 H2 uid p st cores i' [Hin|Hin];
    [exact (H1 uid p st cores i' (or_introl Hin))|exact (H2 uid p st cores i' Hin)].
Qed.

Lemma Cred_RI ns pl pl' : RI pl pl' -> Cred ns pl -> Cred ns pl'.
Proof.
  intros R C uid p st cores i' Hin Hs Hi Ht. specialize (R p). rewrite Hi in R.
  destruct (info_of p pl) as [i|] eqn:E; [|destruct R]. destruct R as [R1 R2].
  apply R2. apply (C uid p st cores i Hin Hs E). rewrite <- R1. exact Ht.
Qed.

Lemma ut_miss_Cred pl n : ut_hit pl n = None -> Cred [n] pl.
Proof.
  destruct n as [[[uid op] st] cores]. intros H u0 p0 st0 c0 i' [Hin|[]] Hs Hi Ht.
  injection Hin as -> -> -> ->. revert H Hi. unfold info_of, getp. cbn [ut_hit].
  destruct (aget p0 pl) as [p|]; [|intros _ Hi; discriminate Hi]. intros H Hi. rewrite Hi in H. revert H.
  destruct (memz u0 (i_done i')) eqn:Ed; [intros _; apply memz_In; exact Ed|].
  destruct (Z.leb_spec (tvalue st0) (tvalue T_AGENT_EXECUTING)) as [Hle|_]; [intros _; lia|].
  rewrite (proj2 (memz_In _ _) Ht). cbn [orb negb]. discriminate.
Qed.

Lemma RI_set pl pl1 pid i0 i1 :
  info_of pid pl = Some i0 ->
  (forall q, info_of q pl1 = if pid =? q then Some i1 else info_of q pl) ->
  i_tasks i1 = i_tasks i0 -> (forall u, In u (i_done i0) -> In u (i_done i1)) -> RI pl pl1.
Proof.
  intros E0 E Ht Hd q. rewrite E. destruct (Z.eqb_spec pid q); [|exact (RI_refl pl q)].
  subst q. rewrite E0. split; assumption.
Qed.

Lemma InfoOK_credit tk i u :
  TkOK tk -> InfoOK tk i -> In u (i_tasks i) -> memz u (i_done i) = false ->
  0 <= i_used i - cof tk u /\ InfoOK tk (credited i u (cof tk u)).
Proof.
  intros Hk [A1 [A2 [A3 A4]]] Ht Hd. split.
  - rewrite A4. unfold outstanding. pose proof (sum_ge_term tk (i_done i) u (i_tasks i) Hk Ht Hd). lia.
  - unfold InfoOK, credited. cbn [i_tasks i_done i_used]. split; [exact A1|split; [exact A2|split]].
    + intros x Hx. apply in_app_or in Hx. destruct Hx as [Hx|[<-|[]]]; [exact (A3 x Hx)|exact Ht].
    + unfold outstanding. cbn [i_tasks i_done]. rewrite (sum_finish _ _ _ _ A1 Ht Hd), A4. reflexivity.
Qed.

(* the cores a notification carries are those of the task's latest dict *)
Definition resolved (tk : list task) (n : Z * option Z * tstate * Z) : Prop := snd n = cof tk (fst (fst (fst n))).

Lemma ut_loop_acct tk : TkOK tk -> forall ns, Forall (resolved tk) ns -> forall pl b pl' b' e,
  PilOK tk pl -> ut_loop ns pl b = (pl', b', e) ->
  PilOK tk pl' /\ e = None /\ RI pl pl' /\ Cred ns pl'.
Proof.
  intros Hk ns Hc. induction Hc as [|[[[uid op] st] cores] r Hcores _ IH]; intros pl b pl' b' e P H.
  - injection H as <- <- <-. split; [exact P|split; [reflexivity|split; [apply RI_refl|]]].
    intros ? ? ? ? ? [].
  - unfold resolved in Hcores. cbn [fst snd] in Hcores. subst cores.
    rewrite ut_loop_step in H. destruct (ut_hit pl _) as [[[pid p] i]|] eqn:Eh.
    + destruct (ut_hit_some _ _ _ _ _ _ _ _ Eh) as (-> & Hg & Hi0 & Hd & Hs & Ht).
      assert (Hio : info_of pid pl = Some i) by (unfold info_of; rewrite (getp_aget _ _ _ Hg); exact Hi0).
      apply memz_In in Ht. destruct (InfoOK_credit tk i uid Hk (P pid i Hio) Ht Hd) as [Hge I1].
      cbv zeta in H. destruct (Z.ltb_spec (i_used i - cof tk uid) 0) as [Hlt|_]; [lia|].
      set (pl1 := set_pinfo pid p (credited i uid (cof tk uid)) pl) in *.
      assert (E1 : forall q, info_of q pl1 = if pid =? q then Some (credited i uid (cof tk uid)) else info_of q pl)
        by (intro q; apply info_of_aset).
      pose proof (RI_set _ _ _ _ _ Hio E1 eq_refl (fun u Hu => in_or_app _ _ _ (or_introl Hu))) as R1.
      destruct (IH _ _ _ _ _ (PilOK_set tk _ _ _ _ E1 I1 P) H) as [B1 [B2 [B3 B4]]].
      split; [exact B1|split; [exact B2|split; [exact (RI_trans _ _ _ R1 B3)|]]].
      apply Cred_cons; [|exact B4]. apply (Cred_RI _ _ _ B3).
      intros u0 p0 st0 c0 i' [Hin|[]] _ Hi' _. injection Hin as <- <- <- <-.
      rewrite E1, Z.eqb_refl in Hi'. injection Hi' as <-. unfold credited. cbn [i_done].
      apply in_or_app. right. left. reflexivity.
    + destruct (IH _ _ _ _ _ P H) as [B1 [B2 [B3 B4]]].
      split; [exact B1|split; [exact B2|split; [exact B3|]]].
      apply Cred_cons; [exact (Cred_RI _ _ _ B3 (ut_miss_Cred _ _ Eh))|exact B4].
Qed.

Lemma Disj_RI w pl pl' : RI pl pl' -> Disj w pl -> Disj w pl'.
Proof.
  intros R D p i' u Hi Hu. specialize (R p). rewrite Hi in R.
  destruct (info_of p pl) as [i|] eqn:E; [|destruct R]. destruct R as [R _]. rewrite R in Hu.
  exact (D p i u E Hu).
Qed.

Lemma resolve_cores tk ns : Forall (resolved tk) (map (resolve tk) ns).
Proof. apply Forall_map, Forall_forall. intros [[u s0] ov] _. reflexivity. Qed.

Lemma NoDup_uids_filter f l : NoDup (uids l) -> NoDup (uids (filter f l)).
Proof.
  induction l as [|t l IH]; cbn [filter uids map]; [exact (fun H => H)|]. intro H. apply NoDup_cons_iff in H.
  destruct H as [Hx Hn]. destruct (f t); [|exact (IH Hn)]. apply NoDup_cons; [|exact (IH Hn)].
  intro Hin. exact (Hx (incl_map t_uid (incl_filter f l) _ Hin)).
Qed.

(* a bound task is the dict it was made from, with the pilot filled in *)
Lemma HeldOK_bound tk l b :
  HeldOK tk l -> BoundFrom l b -> HeldOK tk b.
Proof. intros H Hb t Ht. destruct (Hb t Ht) as (t0 & pid & Hin & ->). exact (H t0 Hin). Qed.

Definition KI (s s' : st) (X : list Z) : Prop :=
  forall u, In u (uids (s_tk s')) -> In u (uids (s_tk s)) \/ In u X.

Lemma HeldOK_rev tk l : HeldOK tk l -> forall t, In t (rev l) -> In t l.
Proof. intros _ t Ht. apply in_rev. exact Ht. Qed.

Lemma KI_tk s s' : s_tk s' = s_tk s -> KI s s' [].
Proof. intros H u Hu. left. rewrite <- H. exact Hu. Qed.

Lemma Good_Ext pl e pids idx w tk tk' :
  Ext tk tk' -> TkOK tk' -> Good (mkSt pl e pids idx w tk) -> Good (mkSt pl e pids idx w tk').
Proof.
  intros X K [G1 [G2 [G3 [_ [G5 G6]]]]].
  exact (conj G1 (conj (HeldOK_Ext _ _ _ X G2) (conj (EarlyOK_Ext _ _ _ X G3) (conj K (conj (PilOK_Ext _ _ _ X G5) G6))))).
Qed.

Lemma Good_push pl e pids idx w tk l :
  HeldOK tk l -> Good (mkSt pl e pids idx w tk) -> Good (mkSt pl e pids idx w (rev l ++ tk)).
Proof.
  intros H G. pose proof (proj1 (proj2 (proj2 (proj2 G)))) as Hk.
  assert (Hl : forall t, In t (rev l) -> cof tk (t_uid t) = t_cores t)
    by (intros t Ht; exact (proj2 (H t (HeldOK_rev tk l H t Ht)))).
  apply (Good_Ext _ _ _ _ _ tk); [apply Ext_app; intros t Ht _; symmetry; exact (Hl t Ht)| |exact G].
  apply TkOK_app; [|exact Hk]. intros t Ht. rewrite <- (Hl t Ht). exact (cof_nonneg tk _ Hk).
Qed.

Lemma known_push tk l u : HeldOK tk l -> In u (uids (rev l ++ tk)) -> In u (uids tk).
Proof.
  intros H Hu. apply uids_push in Hu. destruct Hu as [Hu|Hu]; [|exact Hu].
  unfold uids in Hu. apply in_map_iff in Hu. destruct Hu as [t [<- Ht]]. exact (proj1 (H t Ht)).
Qed.

Lemma Good_pilots s pl pids :
  Keeps p_info (s_pilots s) pl -> Good s -> Good (mkSt pl (s_early s) pids (s_idx s) (s_wait s) (s_tk s)).
Proof.
  intros H [G1 [G2 [G3 [G4 [G5 G6]]]]].
  exact (conj G1 (conj G2 (conj G3 (conj G4 (conj (PilOK_keeps _ _ _ H G5) (Disj_keeps _ _ _ H G6)))))).
Qed.

Lemma wait_fresh s l :
  Good s -> NoDup (uids l) -> (forall t, In t l -> ~ In (t_uid t) (uids (s_tk s))) ->
  NoDup (uids (s_wait s ++ l)) /\ Disj (s_wait s ++ l) (s_pilots s).
Proof.
  intros [G1 [G2 [_ [_ [G5 G6]]]]] Hn Hf.
  assert (Hl : forall x, In x (uids l) -> ~ In x (uids (s_tk s))).
  { intros x Hx. unfold uids in Hx. apply in_map_iff in Hx. destruct Hx as [t [<- Ht]]. exact (Hf t Ht). }
  split.
  - rewrite uids_app. apply NoDup_app_iff. split; [exact G1|split; [exact Hn|]].
    intros x Hx Hx2. apply (Hl x Hx2). unfold uids in Hx. apply in_map_iff in Hx.
    destruct Hx as [t [<- Ht]]. exact (proj1 (G2 t Ht)).
  - intros p i u Hi Hu Hin. rewrite uids_app in Hin. apply in_app_or in Hin.
    destruct Hin as [Hin|Hin]; [exact (G6 p i u Hi Hu Hin)|].
    exact (Hl u Hin (proj1 (proj2 (G5 p i Hi)) u Hu)).
Qed.

Definition rel_acct : rel := fun ts s s' ev => Good s -> Fresh (s_tk s) ts -> Good s' /\ KI s s' (uids ts).

Lemma Fresh_nil tk : Fresh tk [].
Proof. split; [constructor|intros t []]. Qed.

Lemma Fresh_split tk tk' a b : Fresh tk (a ++ b) ->
  Fresh tk a /\ ((forall u, In u (uids tk') -> In u (uids tk) \/ In u (uids a)) -> Fresh tk' b).
Proof.
  intros [Hn Hfr]. rewrite uids_app in Hn. apply NoDup_app_iff in Hn. destruct Hn as [N1 [N2 N3]].
  split; [split; [exact N1|intros t Ht; exact (Hfr t (in_or_app _ _ _ (or_introl Ht)))]|].
  intro K. split; [exact N2|]. intros t Ht. destruct (Hfr t (in_or_app _ _ _ (or_intror Ht))) as [Hnew Hc].
  split; [|exact Hc]. intro Hin. destruct (K _ Hin) as [Hin1|Hin1]; [exact (Hnew Hin1)|].
  exact (N3 _ Hin1 (in_map t_uid _ _ Ht)).
Qed.

Lemma pass_acct : pass rel_acct.
Proof.
  split; [exact (fun s G _ => conj G (KI_tk s s eq_refl))|]. intros a b s s1 s2 e1 e2 H1 H2 G F.
  destruct (Fresh_split _ (s_tk s1) _ _ F) as [F1 F2]. destruct (H1 G F1) as [G1 K1]. destruct (H2 G1 (F2 K1)) as [G2 K2].
  split; [exact G2|]. intros u Hu. rewrite uids_app, in_app_iff.
  destruct (K2 u Hu) as [Hu1|Hu1]; [destruct (K1 u Hu1); tauto|tauto].
Qed.

Lemma bmove_acct c a ts s s' ev : c_kind c = BF -> bmove c a ts s s' ev -> rel_acct ts s s' ev.
Proof.
  intros Hk H.
  destruct H as [a s l|a s ts e' bound tosched ev E|s pids e' b ev E|a s w l idx' ok ev Hr _ _ _|a s elig pl' sc un ev _ _ _ R];
    intros G Hf.
  - exact (conj G (KI_tk s s eq_refl)).
  - destruct (Ext_fresh _ _ Hf) as [X1 [X2 X3]]. destruct Hf as [Hn Hfr].
    pose proof G as [G1 [G2 [G3 [G4 [G5 G6]]]]]. set (tk1 := rev ts ++ s_tk s) in *.
    destruct (work_loop_spec (fun _ => True) (fun _ => Known tk1) _ _ _ _ _ _ _
                (fun t pid Ht _ => conj I (X2 t Ht)) (EarlyOK_Ext _ _ _ X1 G3) E) as (-> & A3 & A4 & _).
    pose proof (incl_filter unnamedb ts) as A1.
    destruct (wait_fresh s _ G (NoDup_uids_filter _ ts Hn) (fun t Ht => proj1 (Hfr t (A1 t Ht))))
      as [W1 W2].
    assert (Hb : HeldOK tk1 bound) by exact (HeldOK_bound tk1 ts bound X2 A3).
    (* first the submitted dicts, then the bound ones are pushed onto s_tk *)
    split.
    + apply Good_push; [exact Hb|].
      refine (conj W1 (conj _ (conj A4 (conj (X3 G4) (conj (PilOK_Ext _ _ _ X1 G5) W2))))).
      intros t Ht. apply in_app_or in Ht.
      destruct Ht as [Ht|Ht]; [exact (HeldOK_Ext _ _ _ X1 G2 t Ht)|exact (X2 t (A1 t Ht))].
    + intros u Hu. cbn [enq s_tk] in Hu. apply (known_push _ _ _ Hb), uids_push in Hu. tauto.
  - destruct G as [H1 [H2 [H3 [H4 [H5 H6]]]]].
    destruct (flush_loop_spec (fun _ => True) (fun _ => Known (s_tk s)) _ _ _ _ _ _ (fun _ _ _ => I) H3 E)
      as (F1 & F2' & _).
    assert (F2 : HeldOK (s_tk s) b) by (intros t Ht; destruct (F2' t Ht) as (pid & t0 & Hq & ->); exact Hq).
    split; [|intros u Hu; left; exact (known_push _ _ _ F2 Hu)].
    (* the early list shrinks, the new pilots get empty infos, the flushed dicts are pushed onto s_tk *)
    rewrite Hk. destruct (set_info_fold_acct c _ _ pids _ H5 H6) as [S1 S2]. apply Good_push; [exact F2|].
    exact (conj H1 (conj H2 (conj F1 (conj H4 (conj S1 S2))))).
  - congruence.
  - destruct G as [G1 [G2 [G3 [G4 [G5 G6]]]]].
    pose proof (proj1 (Disj_FreshOut _ _) G6) as DF.
    destruct (bf_run_acct (s_tk s) _ _ _ _ _ _ _ G1 G2 G5 DF R) as [B1 Bf].
    destruct (bf_run_spec (fun _ => True) _ _ _ _ _ _ _ (fun _ _ _ _ _ _ _ => I) R) as (B4 & Bsc & _).
    pose proof (HeldOK_bound _ _ _ G2 Bsc) as B5.
    (* sc and un share out the uids of the wait pool, which are distinct *)
    assert (N : NoDup (uids sc ++ uids un)).
    { apply countz_NoDup. intro u. rewrite countz_app. pose proof (proj1 (bf_run_cons u _ _ _ _ _ _ _ R)).
      pose proof (NoDup_countz _ G1 u). unfold cnt in *. lia. }
    apply NoDup_app_iff in N. destruct N as (_ & B3 & Nd).
    assert (B2 : Disj un pl').
    { apply Disj_FreshOut. intros x Hx. apply Bf; [intro Hs; exact (Nd x Hs Hx)|exact (DF x (incl_map t_uid B4 x Hx))]. }
    split; [|intros u Hu; left; exact (known_push _ _ _ B5 Hu)].
    apply Good_push; [exact B5|].
    exact (conj B3 (conj (fun t Ht => G2 t (B4 t Ht)) (conj G3 (conj G4 (conj B1 B2))))).
Qed.

Lemma binds_acct c a ts s s' ev :
  c_kind c = BF -> binds c a ts s s' ev -> Good s -> Fresh (s_tk s) ts -> Good s' /\ KI s s' (uids ts).
Proof. intro Hk. exact (chain_pass _ _ pass_acct (fun ts0 x y ev0 => bmove_acct c a ts0 x y ev0 Hk) ts s s' ev). Qed.

Lemma Resched_acct c s s' ev : Good s -> Resched c s s' ev -> Good s' /\ KI s s' [].
Proof.
  intros G [[-> ->]|[Hk H]]; [exact (conj G (KI_tk s s eq_refl))|].
  exact (binds_acct c false _ _ _ _ Hk (bf_schedule_binds c false _ _ _ Hk H) G (Fresh_nil _)).
Qed.

(* Backfilling.update_tasks up to the rescheduling *)
Lemma credits_acct s ns pl b e :
  Good s -> ut_loop (map (resolve (s_tk s)) ns) (s_pilots s) false = (pl, b, e) -> Good (with_pilots s pl) /\ e = None.
Proof.
  intros [G1 [G2 [G3 [G4 [G5 G6]]]]] E.
  destruct (ut_loop_acct (s_tk s) G4 _ (resolve_cores (s_tk s) ns) _ _ _ _ _ G5 E) as [A1 [-> [A3 _]]].
  exact (conj (conj G1 (conj G2 (conj G3 (conj G4 (conj A1 (Disj_RI _ _ _ A3 G6)))))) eq_refl).
Qed.

Lemma update_tasks_acct c s ns s' ev e :
  c_kind c = BF -> Good s -> update_tasks c s (map (resolve (s_tk s)) ns) = (s', ev, e) ->
  Good s' /\ KI s s' [] /\ e = None.
Proof.
  intros Hk G H. destruct (update_tasks_inv _ _ _ _ _ _ H) as [(Hr & _)|(_ & pl & b & E & R)]; [congruence|].
  destruct (credits_acct s ns pl b e G E) as [G1 ->]. destruct (Resched_acct c _ _ _ G1 R) as [Gf Kf].
  exact (conj Gf (conj Kf eq_refl)).
Qed.

Lemma pre_acct c s o s1 e : Good s -> pre c (s_tk s) s o s1 e -> Good s1.
Proof.
  intros G H. destruct H as [o Ho|t ps pl x E|t ps pl pl2 upd e E1 E2|t pids pl e1 E|ps pl upd e E|ns pl b e _ E].
  - exact G.
  - exact (Good_pilots s pl _ (add_loop_keeps p_info (fun _ _ _ => eq_refl) _ _ _ _ E) G).
  - exact (Good_pilots s pl2 _ (Keeps_trans p_info _ _ _ (add_loop_keeps p_info (fun _ _ _ => eq_refl) _ _ _ _ E1)
                                  (ups_loop_keeps p_info (fun _ _ => eq_refl) _ _ _ _ _ _ E2)) G).
  - exact (Good_pilots s pl _ (rem_loop_keeps p_info (fun _ _ _ => eq_refl) _ _ _ _ E) G).
  - exact (Good_pilots s pl _ (ups_loop_keeps p_info (fun _ _ => eq_refl) _ _ _ _ _ _ E) G).
  - exact (proj1 (credits_acct s ns pl b e G E)).
Qed.

Lemma step_acct c s o s' ev e :
  c_kind c = BF -> Good s -> Fresh (s_tk s) (op_tasks o) -> step c s o = (s', ev, e) ->
  Good s' /\ KI s s' (uids (op_tasks o)).
Proof.
  intros Hk G Hf H. destruct (step_stages _ _ _ _ _ _ H) as (s1 & P & B).
  destruct (pre_keeps_tasks _ _ _ _ _ _ P) as (_ & _ & Etk). rewrite <- Etk in Hf.
  destruct (binds_acct c _ _ _ _ _ Hk B (pre_acct c s o s1 e G P) Hf) as [G2 K].
  unfold KI in *. rewrite Etk in K. exact (conj G2 K).
Qed.

Lemma update_pilot_states_acct c s ps s' ev e :
  c_kind c = BF -> Good s -> update_pilot_states c s ps = (s', ev, e) -> Good s' /\ KI s s' [].
Proof. intros Hk G H. exact (step_acct c s (OPStates ps) s' ev e Hk G (Fresh_nil _) H). Qed.

Lemma tstates_never_raise c s ns s' ev e :
  Good s -> step c s (OTStates ns) = (s', ev, e) -> e = None.
Proof.
  intros G H. destruct (step_stages _ _ _ _ _ _ H) as (s1 & P & _).
  inversion P as [| | | | |ns0 pl b e0 _ E]; subst; [reflexivity|exact (proj2 (credits_acct s ns pl b e G E))].
Qed.

(* no task state notification leaves the component with an exception *)
Fixpoint tst_ok (ops : list op) (rs : list result) : bool :=
  match ops, rs with
  | o :: ro, r :: rr =>
      (match o, snd (fst r) with OTStates _, Some _ => false | _, _ => true end) && tst_ok ro rr
  | _, _ => true
  end.

Lemma run_acct c : c_kind c = BF -> forall ops s,
  Good s -> Fresh (s_tk s) (submitted ops) ->
  Good (fst (run_st c s ops)) /\ tst_ok ops (run c s ops) = true.
Proof.
  intro Hk. induction ops as [|o ops IH]; intros s G Hf; [split; [exact G|reflexivity]|].
  cbn [run_st run]. destruct (step c s o) as [[s1 ev1] e1] eqn:E1.
  rewrite submitted_split in Hf. destruct (Fresh_split _ (s_tk s1) _ _ Hf) as [F1 F2].
  destruct (step_acct c _ _ _ _ _ Hk G F1 E1) as [G1 K1]. destruct (IH s1 G1 (F2 K1)) as [Gf Tf].
  destruct (run_st c s1 ops) as [s2 ev2] eqn:E2. cbn [fst] in *. split; [exact Gf|].
  cbn [tst_ok fst snd]. rewrite Tf, andb_true_r.
  destruct o; try reflexivity. rewrite (tstates_never_raise c _ _ _ _ _ G E1). reflexivity.
Qed.

Lemma Good0 : Good st0.
Proof.
  unfold Good. cbn. split; [constructor|split; [intros ? []|split; [intros ? ? []|split; [intros ? []|split]]]].
  - intros p i Hi. discriminate.
  - intros p i u Hi. discriminate.
Qed.

Definition UniqueTasks (ops : list op) : Prop :=
  NoDup (uids (submitted ops)) /\ forall t, In t (submitted ops) -> 0 <= t_cores t.

Lemma FreshOps0 ops : UniqueTasks ops -> Fresh (s_tk st0) (submitted ops).
Proof. intros [H1 H2]. split; [exact H1|]. intros t Ht. split; [intros []|exact (H2 t Ht)]. Qed.

(* used is exactly the outstanding load, never negative, and 0 once every placed
   task has been credited; no update_tasks batch raises *)
Lemma bf_used_accounting c ops :
  c_kind c = BF -> UniqueTasks ops ->
  let s := fst (run_st c st0 ops) in
  tst_ok ops (run c st0 ops) = true /\
  forall p i, info_of p (s_pilots s) = Some i ->
    i_used i = outstanding (s_tk s) i /\ 0 <= i_used i /\
    ((forall u, In u (i_tasks i) -> In u (i_done i)) -> i_used i = 0).
Proof.
  intros Hk Hu s. destruct (run_acct c Hk ops st0 Good0 (FreshOps0 ops Hu)) as [G T].
  split; [exact T|]. intros p i Hi. fold s in G. destruct G as [_ [_ [_ [G4 [G5 _]]]]].
  destruct (G5 p i Hi) as [A1 [A2 [A3 A4]]]. split; [exact A4|split].
  - rewrite A4. exact (sum_nonneg _ _ _ G4).
  - intro Hall. rewrite A4. apply sum_all_done. intros u Hu'. apply memz_In. exact (Hall u Hu').
Qed.

(* every finished-notification for a task placed on its pilot is credited,
   whatever else the batch contains *)
Lemma bf_batch_credited c ops ns :
  c_kind c = BF -> UniqueTasks ops ->
  let s := fst (run_st c st0 ops) in
  let rs := map (resolve (s_tk s)) ns in
  exists pl' b, ut_loop rs (s_pilots s) false = (pl', b, None) /\ Cred rs pl'.
Proof.
  intros Hk Hu s rs. destruct (run_acct c Hk ops st0 Good0 (FreshOps0 ops Hu)) as [G _].
  fold s in G. destruct G as [_ [_ [_ [G4 [G5 _]]]]].
  destruct (ut_loop rs (s_pilots s) false) as [[pl' b] e] eqn:E.
  destruct (ut_loop_acct (s_tk s) G4 _ (resolve_cores (s_tk s) ns) _ _ _ _ _ G5 E) as [_ [-> [_ C]]].
  exists pl', b. split; [reflexivity|exact C].
Qed.
