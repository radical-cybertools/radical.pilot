(* Facts about the pieces of the scheduling loop that hold whatever the occupancy, and one walk over the scheduling
   phases of an iteration for every invariant of the state (iterate_pre_along). *)
From Coq Require Import ZArith List Bool Permutation.
From RP Require Import Common.ListFacts Sched.Model.
Import ListNotations.

Lemma zmem_in u l : zmem u l = true <-> In u l.
Proof. apply (existsb_eqb_In _ Z.eqb_eq). Qed.

Lemma in_remove_one u x : forall l, In u (remove_one x l) -> In u l.
Proof.
  induction l as [|y l IH]; simpl; [tauto|]. destruct (y =? x); [tauto|]. simpl. intros [->|K]; auto.
Qed.

Lemma in_remove_one_other u x : forall l, In u l -> u <> x -> In u (remove_one x l).
Proof.
  induction l as [|y l IH]; simpl; [tauto|]. intros [->|K] Hne.
  - destruct (u =? x) eqn:E; [apply Z.eqb_eq in E; contradiction|]. left. reflexivity.
  - destruct (y =? x); [exact K|]. right. auto.
Qed.

Lemma zlookup_zstore {A} k k' (v : A) l :
  zlookup k' (zstore k v l) = if k =? k' then Some v else zlookup k' l.
Proof.
  induction l as [|[k0 v0] l IH]; cbn [zstore zlookup]; [reflexivity|].
  destruct (k0 =? k) eqn:E; cbn [zlookup].
  - apply Z.eqb_eq in E. subst k0. destruct (k =? k'); reflexivity.
  - rewrite IH. destruct (k0 =? k') eqn:E'; [|reflexivity].
    apply Z.eqb_eq in E'. subst k0. rewrite Z.eqb_sym, E. reflexivity.
Qed.

Lemma zmem_zadd_all i : forall ks T, zmem i (zadd_all ks T) = true <-> zmem i T = true \/ In i ks.
Proof.
  induction ks as [|k0 ks IH]; intro T; cbn [zadd_all]; [cbn [In]; tauto|].
  rewrite IH. destruct (zmem k0 T) eqn:E.
  - apply zmem_in in E. rewrite !zmem_in. cbn [In]. split; [tauto|]. intros [H|[<-|H]]; tauto.
  - rewrite !zmem_in, in_app_iff. cbn [In]. tauto.
Qed.

Lemma insert_desc_perm {A} (key : A -> Z) x l : Permutation (insert_desc key x l) (x :: l).
Proof.
  induction l as [|y r IH]; simpl; [reflexivity|].
  destruct (key y <=? key x); [reflexivity|]. rewrite IH. apply perm_swap.
Qed.
Lemma sort_desc_perm {A} (key : A -> Z) l : Permutation (sort_desc key l) l.
Proof.
  unfold sort_desc. induction l as [|x r IH]; simpl; [reflexivity|].
  rewrite insert_desc_perm. constructor. exact IH.
Qed.
Lemma sort_desc_in {A} (key : A -> Z) l y : In y (sort_desc key l) <-> In y l.
Proof. split; apply Permutation_in; [|symmetry]; apply sort_desc_perm. Qed.

Lemma zlookup_in {A} k (l : list (Z * A)) v : zlookup k l = Some v -> In (k, v) l.
Proof.
  induction l as [|[k' v'] r IH]; simpl; [discriminate|].
  destruct (k' =? k) eqn:E; [intro H; injection H as ->; apply Z.eqb_eq in E; subst; left; reflexivity|].
  intro H; right; auto.
Qed.

Lemma find_req_in u l t : find_req u l = Some t -> In t l.
Proof.
  induction l as [|x r IH]; simpl; [discriminate|].
  destruct (r_uid x =? u); [intro H; injection H as ->; left; reflexivity|intro H; right; auto].
Qed.

Definition lk (p : Z) (wp : list (Z * list req)) : list req :=
  match zlookup p wp with Some l => l | None => [] end.

(* One induction for every invariant [I s evs] of the pass over the wait pools: the only thing that happens is a
   replayed bisect on the tasks of one pool that may run, after which the pool is what did not start or fail. *)
Lemma waitpool_loop_inv c (I : sstate -> list event -> Prop) :
  (forall s evs p sv s1 good bad fail,
     let pool := lk p (waitpool s) in
     let to_test := sort_desc ts_product (filter (env_ok s) pool) in
     I s evs -> same_set (map fst sv) (uids to_test) = true ->
     bisect_replay c s to_test sv = Some (s1, good, bad, fail) ->
     I (set_pool s1 (zstore p (bad ++ filter (fun t => negb (env_ok s t)) pool) (waitpool s1)))
       (evs ++ map (fun te => Failed (r_uid (fst te)) ERuntime) fail
            ++ map (fun ts => Started (r_uid (fst ts)) (snd ts)) good)) ->
  forall prios s strat res act evs s' strat' res' act' evs',
    I s evs -> waitpool_loop c s prios strat res act evs = Some (s', strat', res', act', evs') -> I s' evs'.
Proof.
  intro Hstep.
  induction prios as [|p ps IH]; intros s strat res act evs s' strat' res' act' evs' HI H; cbn [waitpool_loop] in H.
  - injection H as <- _ _ _ <-. exact HI.
  - specialize (Hstep s evs p). cbv zeta in Hstep. unfold lk in Hstep.
    destruct (match zlookup p (waitpool s) with Some l => l | None => [] end) as [|t0 pool0]; [eauto|].
    destruct (sort_desc ts_product (filter (env_ok s) (t0 :: pool0))) as [|x xs]; [eauto|].
    destruct strat as [|sv st']; [discriminate|].
    destruct (negb (same_set (map fst sv) (uids (x :: xs)))) eqn:Ess; [discriminate|]. apply negb_false_iff in Ess.
    destruct (bisect_replay c s (x :: xs) sv) as [[[[s1 good] bad] fail]|] eqn:Eb; [|discriminate].
    eapply IH; [|exact H]. eapply Hstep; eassumption.
Qed.

(* One induction for every invariant [I wp bk evs q] of draining the queue (q = the items still ahead): a cancel
   item acts on the pools at once; of a bulk of tasks, one without ranks fails and any other goes to the bucket of
   its priority. *)
Lemma drain_inv (I : list (Z * list req) -> list (Z * list req) -> list event -> list qitem -> Prop) :
  (forall us wp bk evs q wp1 evs1,
     cancel_uids us wp evs = (wp1, evs1) -> I wp bk evs (QCancel us :: q) -> I wp1 bk evs1 q) ->
  (forall t ts wp bk evs q, (r_ranks t <=? 0) = true ->
     I wp bk evs (QSched (t :: ts) :: q) -> I wp bk (evs ++ [Failed (r_uid t) EValue]) (QSched ts :: q)) ->
  (forall t ts wp bk evs q, (r_ranks t <=? 0) = false ->
     I wp bk evs (QSched (t :: ts) :: q) -> I wp (bucket_add (r_prio t) t bk) evs (QSched ts :: q)) ->
  (forall wp bk evs q, I wp bk evs (QSched [] :: q) -> I wp bk evs q) ->
  forall q wp bk evs wp' bk' evs', I wp bk evs q -> drain q wp bk evs = (wp', bk', evs') -> I wp' bk' evs' [].
Proof.
  intros Hc Hf Ha Hd.
  induction q as [|it r IH]; intros wp bk evs wp' bk' evs' HI H; cbn [drain] in H.
  - injection H as <- <- <-. exact HI.
  - destruct it as [ts|us].
    + revert bk evs HI H. induction ts as [|t ts IHt]; intros bk evs HI H; cbn [fold_left] in H.
      * eapply IH; [|exact H]. apply Hd, HI.
      * destruct (r_ranks t <=? 0) eqn:Er; (eapply IHt; [|exact H]); [apply Hf|apply Ha]; assumption.
    + destruct (cancel_uids us wp evs) as [wp1 evs1] eqn:Ec. eapply IH; [|exact H]. eapply Hc; eassumption.
Qed.

(* two loops in a row; with nothing in the buckets the second is the loop over no priorities *)
Lemma schedule_incoming_loops c s q s' ri act evs :
  schedule_incoming c s q = (s', ri, act, evs) ->
  exists wp bk e2 lw,
    drain q (waitpool s) [] [] = (wp, bk, e2) /\
    incoming_prios c (set_pool s wp) bk (prios_desc bk) false e2 = (s', lw, evs).
Proof.
  unfold schedule_incoming. intro H.
  destruct (drain q (waitpool s) [] []) as [[wp bk] e2]. exists wp, bk, e2.
  destruct bk as [|b0 bk'].
  - injection H as <- _ _ <-. exists false. auto.
  - destruct (incoming_prios c (set_pool s wp) (b0 :: bk') (prios_desc (b0 :: bk')) false e2) as [[sx lw] e3].
    injection H as <- _ _ <-. exists lw. auto.
Qed.

(* hence three loops in a row; without `resources` the first is the loop over no priorities as well *)
Lemma iterate_pre_phases c s q strat s2 rw ri evs :
  iterate_pre c s q strat = Some (s2, rw, ri, evs) ->
  exists s1 act e1 wp bk e2 lw e3,
    waitpool_loop c s (if resources s then prios_desc (waitpool s) else []) strat (resources s) false []
    = Some (s1, [], rw, act, e1) /\
    drain q (waitpool s1) [] [] = (wp, bk, e2) /\
    incoming_prios c (set_pool s1 wp) bk (prios_desc bk) false e2 = (s2, lw, e3) /\ evs = e1 ++ e3.
Proof.
  unfold iterate_pre. intro H.
  assert (Hw : (if resources s then schedule_waitpool c s strat else Some (s, strat, false, false, []))
               = waitpool_loop c s (if resources s then prios_desc (waitpool s) else []) strat (resources s) false [])
    by (destruct (resources s); reflexivity).
  rewrite Hw in H.
  destruct (waitpool_loop c s _ strat (resources s) false []) as [[[[[s1 st1] r1] a1] e1]|] eqn:Ew; [|discriminate].
  destruct st1; [|discriminate]. destruct (schedule_incoming c s1 q) as [[[sx rix] ax] e3] eqn:Ei.
  injection H as <- <- _ <-.
  destruct (schedule_incoming_loops _ _ _ _ _ _ _ Ei) as (wp & bk & e2 & lw & Ed & Ep).
  exists s1, a1, e1, wp, bk, e2, lw, e3. auto.
Qed.

(* the cases of try_allocation, each with the state it leaves *)
Inductive tried (c : cfg) (s : sstate) (t : req) : sstate -> tres -> Prop :=
| tried_err e off : schedule_task c s t = inl (e, off) ->
    tried c s t (set_sched s (nodes s) off (colo s) (tagged s) (active_cnt s) (heldg s)) (TFail e)
| tried_none off co tg : schedule_task c s t = inr (off, co, tg, None) ->
    tried c s t (set_sched s (nodes s) off co tg (active_cnt s) (heldg s))
          (if active_cnt s =? 0 then TFail ERuntime else TWait)
| tried_grant off co tg sl : schedule_task c s t = inr (off, co, tg, Some sl) ->
    tried c s t (set_sched s (change_slot_states true sl (nodes s)) off co tg (active_cnt s + 1)
                           (heldg s ++ [(r_uid t, sl)])) (TStarted sl).

Lemma try_allocation_cases c s t s' res : try_allocation c s t = (s', res) -> tried c s t s' res.
Proof.
  unfold try_allocation. destruct (schedule_task c s t) as [[e off]|[[[off co] tg] [sl|]]] eqn:E.
  - intro H. injection H as <- <-. apply tried_err, E.
  - intro H. injection H as <- <-. apply tried_grant, E.
  - pose proof (tried_none c s t off co tg E) as K.
    destruct (active_cnt s =? 0); intro H; injection H as <- <-; exact K.
Qed.

Lemma try_allocation_frame c s t s' res :
  try_allocation c s t = (s', res) -> waitpool s' = waitpool s /\ cancel_list s' = cancel_list s.
Proof. intro H. destruct (try_allocation_cases _ _ _ _ _ H); auto. Qed.

Lemma bisect_replay_frame c pool : forall evs s s' good bad fail,
  bisect_replay c s pool evs = Some (s', good, bad, fail) ->
  waitpool s' = waitpool s /\ cancel_list s' = cancel_list s.
Proof.
  induction evs as [|[v chk] r IH]; intros s s' good bad fail H; cbn [bisect_replay] in H.
  - injection H as <- _ _ _. auto.
  - destruct (find_req v pool) as [t|]; [|discriminate]. destruct chk.
    + destruct (try_allocation c s t) as [s1 res] eqn:Et. destruct (try_allocation_frame _ _ _ _ _ Et) as [F1 F2].
      destruct (bisect_replay c s1 pool r) as [[[[s2 g2] b2] f2]|] eqn:Er; [|discriminate].
      destruct (IH _ _ _ _ _ Er) as [G1 G2]. destruct res; injection H as <- _ _ _; split; congruence.
    + destruct (bisect_replay c s pool r) as [[[[s2 g2] b2] f2]|] eqn:Er; [|discriminate].
      injection H as <- _ _ _. exact (IH _ _ _ _ _ Er).
Qed.

Lemma place_tasks_frame c : forall ts s to_wait evs s' tw' evs',
  place_tasks c s ts to_wait evs = (s', tw', evs') -> waitpool s' = waitpool s /\ cancel_list s' = cancel_list s.
Proof.
  induction ts as [|t r IH]; intros s to_wait evs s' tw' evs' H; cbn [place_tasks] in H.
  - injection H as <- _ _. auto.
  - destruct (negb (env_ok s t)); [eapply IH; eauto|].
    destruct (r_slots t) as [[|sl0 sls]|].
    1,3: destruct (try_allocation c s t) as [s1 res] eqn:Et; destruct (try_allocation_frame _ _ _ _ _ Et) as [F1 F2];
         destruct res; destruct (IH _ _ _ _ _ _ H) as [G1 G2]; split; congruence.
    destruct (negb (forallb (slot_known (nodes s)) (sl0 :: sls))); [eapply IH; eauto|].
    destruct (IH _ _ _ _ _ _ H) as [G1 G2]. split; [rewrite G1|rewrite G2]; reflexivity.
Qed.

Lemma waitpool_loop_cl c prios s strat res act evs s' strat' res' act' evs' :
  waitpool_loop c s prios strat res act evs = Some (s', strat', res', act', evs') ->
  cancel_list s' = cancel_list s.
Proof.
  apply (waitpool_loop_inv c (fun s1 _ => cancel_list s1 = cancel_list s)); [|reflexivity].
  intros s0 e0 p sv s1 good bad fail pool to_test HI _ Eb. unfold set_pool. cbn [cancel_list].
  rewrite <- HI. eapply bisect_replay_frame; eassumption.
Qed.

Lemma unschedule_frame : forall us s,
  waitpool (unschedule us s) = waitpool s /\ cancel_list (unschedule us s) = cancel_list s /\
  colo (unschedule us s) = colo s /\ tagged (unschedule us s) = tagged s.
Proof.
  induction us as [|[v sl] r IH]; intro s; cbn [unschedule]; [auto|].
  match goal with |- context [unschedule r ?sx] => destruct (IH sx) as (A & B & C & D) end.
  rewrite A, B, C, D. auto.
Qed.

Lemma cancel_uids_evs : forall us wp evs wp' evs',
  cancel_uids us wp evs = (wp', evs') -> exists d, evs' = evs ++ d.
Proof.
  induction us as [|u r IH]; intros wp evs wp' evs' H; cbn [cancel_uids] in H.
  - injection H as _ <-. exists []. symmetry. apply app_nil_r.
  - destruct (pool_remove u wp) as [[t|] wp1]; [|eauto].
    destruct (IH _ _ _ _ H) as [d ->]. rewrite <- app_assoc. eauto.
Qed.

Lemma drain_evs q wp bk evs wp' bk' evs' :
  drain q wp bk evs = (wp', bk', evs') -> exists d, evs' = evs ++ d.
Proof.
  apply (drain_inv (fun _ _ e _ => exists d, e = evs ++ d)); [| |auto|auto|exists []; symmetry; apply app_nil_r].
  - intros us wp0 bk0 e0 q0 wp1 e1 Ec [d ->]. destruct (cancel_uids_evs _ _ _ _ _ Ec) as [d1 ->].
    rewrite <- app_assoc. eauto.
  - intros t ts wp0 bk0 e0 q0 _ [d ->]. rewrite <- app_assoc. eauto.
Qed.

Lemma place_tasks_evs c : forall ts s to_wait evs s' tw' evs',
  place_tasks c s ts to_wait evs = (s', tw', evs') -> exists d, evs' = evs ++ d.
Proof.
  induction ts as [|t r IH]; intros s to_wait evs s' tw' evs' H; cbn [place_tasks] in H.
  - injection H as _ _ <-. exists []. symmetry. apply app_nil_r.
  - destruct (negb (env_ok s t)); [eauto|].
    destruct (r_slots t) as [[|sl0 sls]|].
    1,3: destruct (try_allocation c s t) as [s1 []]; destruct (IH _ _ _ _ _ _ H) as [d ->];
         rewrite <- ?app_assoc; eauto.
    destruct (negb (forallb (slot_known (nodes s)) (sl0 :: sls)));
      destruct (IH _ _ _ _ _ _ H) as [d ->]; rewrite <- app_assoc; eauto.
Qed.

Lemma waitpool_loop_evs c prios s strat res act evs s' strat' res' act' evs' :
  waitpool_loop c s prios strat res act evs = Some (s', strat', res', act', evs') ->
  exists d, evs' = evs ++ d.
Proof.
  apply (waitpool_loop_inv c (fun _ e1 => exists d, e1 = evs ++ d)); [|exists []; symmetry; apply app_nil_r].
  intros s0 e0 p sv s1 good bad fail pool to_test [d ->] _ _. rewrite <- app_assoc. eauto.
Qed.

Lemma pool_insert_evs p : forall ts wp cl evs wp' cl' evs',
  pool_insert p ts wp cl evs = (wp', cl', evs') -> exists d, evs' = evs ++ d.
Proof.
  induction ts as [|t r IH]; intros wp cl evs wp' cl' evs' H; cbn [pool_insert] in H.
  - injection H as _ _ <-. exists []. symmetry. apply app_nil_r.
  - destruct (zmem (r_uid t) cl); [|eauto].
    destruct (IH _ _ _ _ _ _ H) as [d ->]. rewrite <- app_assoc. eauto.
Qed.

Section Pools.
  Variable G : req -> Prop.

  Lemma pool_lookup_all wp p : Forall G (concat (map snd wp)) -> Forall G (lk p wp).
  Proof.
    intro H. unfold lk. destruct (zlookup p wp) as [l|] eqn:Hl; [|constructor]. apply zlookup_in in Hl.
    rewrite Forall_forall in *. intros x Hx. apply H. apply in_concat. exists l. split; [|exact Hx].
    apply in_map_iff. exists (p, l). auto.
  Qed.

  Lemma pool_store_all wp p l :
    Forall G (concat (map snd wp)) -> Forall G l -> Forall G (concat (map snd (zstore p l wp))).
  Proof.
    intros H Hl. induction wp as [|[k v] r IH]; simpl.
    - rewrite app_nil_r. exact Hl.
    - simpl in H. apply Forall_app in H as [H1 H2].
      destruct (k =? p); simpl; apply Forall_app; split; auto.
  Qed.

  Lemma pool_remove_all u : forall wp o wp',
    Forall G (concat (map snd wp)) -> pool_remove u wp = (o, wp') -> Forall G (concat (map snd wp')).
  Proof.
    induction wp as [|[p l] r IH]; intros o wp' H E; simpl in E.
    - injection E as _ <-. constructor.
    - simpl in H. apply Forall_app in H as [H1 H2].
      destruct (find_req u l).
      + injection E as _ <-. simpl. apply Forall_app; split; [apply (incl_Forall (incl_filter _ _)); exact H1|exact H2].
      + destruct (pool_remove u r) as [o' r'] eqn:Er. injection E as _ <-. simpl.
        apply Forall_app; split; [exact H1|]. eapply IH; eauto.
  Qed.

  Lemma cancel_uids_all : forall us wp evs wp' evs',
    Forall G (concat (map snd wp)) -> cancel_uids us wp evs = (wp', evs') -> Forall G (concat (map snd wp')).
  Proof.
    induction us as [|u r IH]; intros wp evs wp' evs' H E; simpl in E.
    - injection E as <- _. exact H.
    - destruct (pool_remove u wp) as [[t|] wp1] eqn:Er.
      + eapply IH; [|exact E]. eapply pool_remove_all; eauto.
      + eapply IH; eauto.
  Qed.

  Lemma bucket_add_all p t : forall b,
    Forall G (concat (map snd b)) -> G t -> Forall G (concat (map snd (bucket_add p t b))).
  Proof.
    induction b as [|[p' l] r IH]; intros H Ht; simpl.
    - constructor; [exact Ht|constructor].
    - simpl in H. apply Forall_app in H as [H1 H2].
      destruct (p' =? p); simpl; apply Forall_app; split; auto.
      apply Forall_app; split; [exact H1|constructor; [exact Ht|constructor]].
  Qed.

  Lemma pool_insert_all p : forall ts wp cl evs wp' cl' evs',
    Forall G (concat (map snd wp)) -> Forall G ts -> pool_insert p ts wp cl evs = (wp', cl', evs') ->
    Forall G (concat (map snd wp')).
  Proof.
    induction ts as [|t r IH]; intros wp cl evs wp' cl' evs' HP Hw E; cbn [pool_insert] in E.
    - injection E as <- _ _. exact HP.
    - inversion Hw as [|? ? Ht Hr]; subst.
      assert (Hcur : Forall G (filter (fun x => negb (r_uid x =? r_uid t))
                       match zlookup p wp with Some l => l | None => [] end)).
      { apply (incl_Forall (incl_filter _ _)). exact (pool_lookup_all wp p HP). }
      destruct (zmem (r_uid t) cl).
      + eapply IH; [|exact Hr|exact E]. apply pool_store_all; assumption.
      + eapply IH; [|exact Hr|exact E]. apply pool_store_all; [exact HP|].
        apply Forall_app; split; [exact Hcur|constructor; [exact Ht|constructor]].
  Qed.
End Pools.

(* One walk over the loop for every invariant of the state.
   [R s s'] is what an invariant says of a later state s' given an earlier one s.  If R is reflexive and
   transitive, holds across an allocation attempt for a task with [G] and across a placement the task brought
   along itself, and does not look at the wait pool or the cancel list, then it holds across the two scheduling
   phases of an iteration, provided the tasks of the pools have [G] and those of the queue have [Gq]; and
   the pools still have [G] afterwards. *)
Section Along.
  Variable c : cfg.
  Variable R : sstate -> sstate -> Prop.
  Variables G Gq : req -> Prop.
  Hypothesis R_refl : forall s, R s s.
  Hypothesis R_trans : forall a b d, R a b -> R b d -> R a d.
  Hypothesis Gq_G : forall t, Gq t -> G t.
  Hypothesis R_try : forall s t s' res, G t -> try_allocation c s t = (s', res) -> R s s'.
  Hypothesis R_own : forall s t sl0 sls, Gq t -> r_slots t = Some (sl0 :: sls) ->
    R s (set_sched s (change_slot_states true (sl0 :: sls) (nodes s)) (offset s) (colo s) (tagged s)
                   (active_cnt s + 1) (heldg s ++ [(r_uid t, sl0 :: sls)])).
  Hypothesis R_books : forall s wp cl,
    R s (mkS (nodes s) (offset s) (colo s) (tagged s) wp (active_cnt s) (named_envs s) cl (resources s) (heldg s)).

  Lemma bisect_replay_along pool : Forall G pool ->
    forall evs s s' good bad fail,
      bisect_replay c s pool evs = Some (s', good, bad, fail) -> R s s' /\ incl bad pool.
  Proof.
    intro Hp. rewrite Forall_forall in Hp.
    induction evs as [|[u chk] r IH]; intros s s' good bad fail H; cbn [bisect_replay] in H.
    - injection H as <- _ <- _. split; [apply R_refl|intros x []].
    - destruct (find_req u pool) as [t|] eqn:Ef; [|discriminate].
      pose proof (find_req_in _ _ _ Ef) as Hin.
      destruct chk.
      + destruct (try_allocation c s t) as [s1 res] eqn:Et.
        destruct (bisect_replay c s1 pool r) as [[[[s2 g2] b2] f2]|] eqn:Er; [|discriminate].
        destruct (IH _ _ _ _ _ Er) as [A B].
        pose proof (R_trans _ _ _ (R_try _ _ _ _ (Hp t Hin) Et) A) as A'.
        destruct res; injection H as <- _ <- _; (split; [exact A'|]); auto.
        intros y [<-|Hy]; auto.
      + destruct (bisect_replay c s pool r) as [[[[s2 g2] b2] f2]|] eqn:Er; [|discriminate].
        destruct (IH _ _ _ _ _ Er) as [A B].
        injection H as <- _ <- _. split; [exact A|]. intros y [<-|Hy]; auto.
  Qed.

  Lemma waitpool_loop_along prios s strat res act evs s' strat' res' act' evs' :
    Forall G (concat (map snd (waitpool s))) ->
    waitpool_loop c s prios strat res act evs = Some (s', strat', res', act', evs') ->
    R s s' /\ Forall G (concat (map snd (waitpool s'))).
  Proof.
    intro HP. apply (waitpool_loop_inv c (fun s1 _ => R s s1 /\ Forall G (concat (map snd (waitpool s1))))); [|auto].
    intros s0 e0 p sv s1 good bad fail pool to_test [A0 P0] _ Eb.
    pose proof (pool_lookup_all G _ p P0) as Hpool. fold pool in Hpool.
    assert (Htt : Forall G to_test).
    { unfold to_test. rewrite Forall_forall in *. intros y Hy. apply sort_desc_in, filter_In in Hy as [Hy _]. auto. }
    destruct (bisect_replay_along _ Htt _ _ _ _ _ _ Eb) as [A C].
    destruct (bisect_replay_frame _ _ _ _ _ _ _ _ Eb) as [B _]. split.
    - eapply R_trans; [exact A0|]. eapply R_trans; [exact A|]. apply (R_books s1 _ (cancel_list s1)).
    - unfold set_pool. cbn [waitpool]. rewrite B. apply pool_store_all; [exact P0|].
      apply Forall_app; split; [eapply incl_Forall; eassumption|apply (incl_Forall (incl_filter _ _)); exact Hpool].
  Qed.

  Lemma place_tasks_along : forall ts s to_wait evs s' tw' evs',
    Forall Gq ts -> Forall G to_wait ->
    place_tasks c s ts to_wait evs = (s', tw', evs') -> R s s' /\ Forall G tw'.
  Proof.
    induction ts as [|t r IH]; intros s to_wait evs s' tw' evs' Hg Hw E; cbn [place_tasks] in E.
    - injection E as <- <- _. auto.
    - inversion Hg as [|? ? Ht Hr]; subst.
      assert (Hw' : Forall G (to_wait ++ [t])).
      { apply Forall_app; split; [exact Hw|constructor; [apply Gq_G, Ht|constructor]]. }
      destruct (negb (env_ok s t)); [exact (IH _ _ _ _ _ _ Hr Hw' E)|].
      destruct (r_slots t) as [[|sl0 sls]|] eqn:Esl.
      1,3: destruct (try_allocation c s t) as [s1 res] eqn:Et;
           pose proof (R_try _ _ _ _ (Gq_G _ Ht) Et) as A;
           destruct res; eapply IH in E; try eassumption; destruct E as [A' B'];
           (split; [exact (R_trans _ _ _ A A')|exact B']).
      destruct (negb (forallb (slot_known (nodes s)) (sl0 :: sls))); [exact (IH _ _ _ _ _ _ Hr Hw E)|].
      destruct (IH _ _ _ _ _ _ Hr Hw E) as [A' B']. split; [|exact B'].
      eapply R_trans; [eapply R_own; eassumption|exact A'].
  Qed.

  Lemma incoming_prios_along bk : Forall Gq (concat (map snd bk)) ->
    forall ps s lw evs s' lw' evs',
      Forall G (concat (map snd (waitpool s))) ->
      incoming_prios c s bk ps lw evs = (s', lw', evs') ->
      R s s' /\ Forall G (concat (map snd (waitpool s'))).
  Proof.
    intro HB. induction ps as [|p r IH]; intros s lw evs s' lw' evs' HP E; cbn [incoming_prios] in E.
    - injection E as <- _ _. auto.
    - fold (lk p bk) in E.
      assert (Htasks : Forall Gq (sort_desc r_ranks (lk p bk))).
      { pose proof (pool_lookup_all Gq bk p HB) as Ht.
        rewrite Forall_forall in *. intros x Hx. apply sort_desc_in in Hx. auto. }
      destruct (place_tasks c s (sort_desc r_ranks (lk p bk)) [] evs) as [[s1 to_wait] evs1] eqn:Ep.
      destruct (place_tasks_along _ _ _ _ _ _ _ Htasks (Forall_nil _) Ep) as [A D].
      destruct (place_tasks_frame _ _ _ _ _ _ _ _ Ep) as [B _].
      destruct (pool_insert p to_wait (waitpool s1) (cancel_list s1) evs1) as [[wp cl] evs2] eqn:Ei.
      eapply IH in E.
      + destruct E as [A' P']. split; [|exact P'].
        eapply R_trans; [exact A|]. eapply R_trans; [|exact A']. apply (R_books s1 wp cl).
      + cbn [waitpool]. eapply pool_insert_all; [|exact D|exact Ei]. rewrite B. exact HP.
  Qed.

  Definition queue_all (q : list qitem) : Prop :=
    Forall (fun it => match it with QSched l => Forall Gq l | QCancel _ => True end) q.

  Lemma drain_all q wp bk evs wp' bk' evs' :
    Forall G (concat (map snd wp)) -> queue_all q -> Forall Gq (concat (map snd bk)) ->
    drain q wp bk evs = (wp', bk', evs') ->
    Forall G (concat (map snd wp')) /\ Forall Gq (concat (map snd bk')).
  Proof.
    intros HP HQ HB E.
    assert (H : Forall G (concat (map snd wp')) /\ queue_all [] /\ Forall Gq (concat (map snd bk')));
      [|exact (conj (proj1 H) (proj2 (proj2 H)))].
    revert E. apply (drain_inv (fun wp0 bk0 _ q0 => Forall G (concat (map snd wp0)) /\ queue_all q0 /\
                                                  Forall Gq (concat (map snd bk0)))); [| | | |auto].
    - intros us wp0 bk0 e0 q0 wp1 e1 Ec (A & B & C). inversion B; subst.
      split; [eapply cancel_uids_all; eauto|split; assumption].
    - intros t ts wp0 bk0 e0 q0 _ (A & B & C). inversion B as [|? ? Ht Hq]; inversion Ht; subst.
      split; [exact A|split; [constructor; assumption|exact C]].
    - intros t ts wp0 bk0 e0 q0 _ (A & B & C). inversion B as [|? ? Ht Hq]; inversion Ht; subst.
      split; [exact A|split; [constructor; assumption|apply bucket_add_all; assumption]].
    - intros wp0 bk0 e0 q0 (A & B & C). inversion B; subst. auto.
  Qed.

  Theorem iterate_pre_along s q strat s2 rw ri evs :
    Forall G (concat (map snd (waitpool s))) -> queue_all q ->
    iterate_pre c s q strat = Some (s2, rw, ri, evs) ->
    R s s2 /\ Forall G (concat (map snd (waitpool s2))).
  Proof.
    intros HP HQ E.
    destruct (iterate_pre_phases _ _ _ _ _ _ _ _ E) as (s1 & a1 & e1 & wp & bk & e2 & lw & e3 & Ew & Ed & Ei & _).
    destruct (waitpool_loop_along _ _ _ _ _ _ _ _ _ _ _ HP Ew) as [A B].
    destruct (drain_all q (waitpool s1) [] _ _ _ _ B HQ (Forall_nil _) Ed) as [HP' HB].
    destruct (incoming_prios_along _ HB _ (set_pool s1 wp) _ _ _ _ _ HP' Ei) as [A' P']. split; [|exact P'].
    exact (R_trans _ _ _ A (R_trans _ _ _ (R_books s1 wp (cancel_list s1)) A')).
  Qed.
End Along.
