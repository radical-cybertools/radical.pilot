(* The occupancy invariant of the scheduler: the node map is the initial map
   with exactly the held placements marked, held placements are pairwise
   disjoint, what is held was usable (Free) initially, and no amount is negative. *)
From Coq Require Import ZArith List Bool Lia.
From RP Require Import Sched.Model Sched.NodeMap.
Import ListNotations.

Definition held := list (Z * list slot).
Definition hslots (h : held) : list slot := concat (map snd h).

(* Cores are counted over all held slots (inv_dc).  A GPU may occur several times within ONE task, as shares, so
   GPUs are counted per holding task (count_gt, inv_dg) and the shares bounded within each task (inv_gs). *)
Definition cnt1_c (n : Z) (j : nat) (sl : slot) : Z :=
  if n =? s_node sl then Z.of_nat (count_occ Nat.eq_dec (s_cores sl) j) else 0.
Definition count_c (n : Z) (j : nat) (sls : list slot) : Z :=
  fold_right (fun sl a => cnt1_c n j sl + a) 0 sls.

(* GPU share (units of 1/64) of GPU j of node n handed out by a list of slots *)
Fixpoint gsh (j : nat) (gl : list (nat * Z)) : Z :=
  match gl with [] => 0 | (i, u) :: r => (if Nat.eqb i j then u else 0) + gsh j r end.
Definition gshare_at (n : Z) (j : nat) (sls : list slot) : Z :=
  fold_right (fun sl a => (if n =? s_node sl then gsh j (s_gpus sl) else 0) + a) 0 sls.

Definition count_gt (n : Z) (j : nat) (h : held) : Z :=
  fold_right (fun e a => (if touched_g n j (snd e) then 1 else 0) + a) 0 h.

Record Inv (ns0 ns : list node) (h : held) : Prop := {
  inv_c : forall n j, core_at ns n j =
            match core_at ns0 n j with None => None
            | Some o => if touched_c n j (hslots h) then Some Busy else Some o end;
  inv_g : forall n j, gpu_at ns n j =
            match gpu_at ns0 n j with None => None
            | Some o => if touched_g n j (hslots h) then Some Busy else Some o end;
  inv_l : forall n, lfs_at ns n = option_map (fun x => x - sum_lfs n (hslots h)) (lfs_at ns0 n);
  inv_m : forall n, mem_at ns n = option_map (fun x => x - sum_mem n (hslots h)) (mem_at ns0 n);
  inv_c0 : forall n j, touched_c n j (hslots h) = true -> core_at ns0 n j = Some Free;
  inv_g0 : forall n j, touched_g n j (hslots h) = true -> gpu_at ns0 n j = Some Free;
  inv_dc : forall n j, count_c n j (hslots h) <= 1;
  inv_dg : forall n j, count_gt n j h <= 1;
  inv_gs : forall e, In e h -> forall n j, gshare_at n j (snd e) <= 64;
  inv_ln : forall n x, lfs_at ns n = Some x -> 0 <= x;
  inv_mn : forall n x, mem_at ns n = Some x -> 0 <= x;
  inv_nn : forall s, In s (hslots h) -> 0 <= s_lfs s /\ 0 <= s_mem s /\
                                         forall i u, In (i, u) (s_gpus s) -> 0 <= u
}.

Record fresh (ns : list node) (sl : list slot) : Prop := {
  fr_c : forall n j, touched_c n j sl = true -> core_at ns n j = Some Free;
  fr_dc : forall n j, count_c n j sl <= 1;
  fr_g : forall n j, touched_g n j sl = true -> gpu_at ns n j = Some Free;
  fr_gs : forall n j, gshare_at n j sl <= 64;
  fr_l : forall n x, lfs_at ns n = Some x -> sum_lfs n sl <= x;
  fr_m : forall n x, mem_at ns n = Some x -> sum_mem n sl <= x;
  fr_nn : forall s, In s sl -> 0 <= s_lfs s /\ 0 <= s_mem s /\ forall i u, In (i, u) (s_gpus s) -> 0 <= u
}.

Lemma count_c_app n j a b : count_c n j (a ++ b) = count_c n j a + count_c n j b.
Proof. unfold count_c. induction a as [|x a IH]; cbn [fold_right app]; [reflexivity|]. rewrite IH. lia. Qed.
Lemma gshare_at_app n j a b : gshare_at n j (a ++ b) = gshare_at n j a + gshare_at n j b.
Proof. unfold gshare_at. induction a as [|x a IH]; cbn [fold_right app]; [reflexivity|]. rewrite IH. lia. Qed.
Lemma count_gt_app n j a b : count_gt n j (a ++ b) = count_gt n j a + count_gt n j b.
Proof. unfold count_gt. induction a as [|x a IH]; cbn [fold_right app]; [reflexivity|]. rewrite IH. lia. Qed.

Lemma hslots_app a b : hslots (a ++ b) = hslots a ++ hslots b.
Proof. unfold hslots. rewrite map_app, concat_app. reflexivity. Qed.
Lemma hslots_cons e r : hslots (e :: r) = snd e ++ hslots r.
Proof. reflexivity. Qed.
Lemma count_gt_cons n j e r : count_gt n j (e :: r) = (if touched_g n j (snd e) then 1 else 0) + count_gt n j r.
Proof. reflexivity. Qed.

Lemma cnt1_c_nonneg n j sl : 0 <= cnt1_c n j sl.
Proof. unfold cnt1_c. destruct (n =? s_node sl); lia. Qed.

Lemma count_c_nonneg n j sls : 0 <= count_c n j sls.
Proof.
  unfold count_c. induction sls as [|x r IH]; cbn [fold_right]; [lia|].
  pose proof (cnt1_c_nonneg n j x). lia.
Qed.

Lemma count_gt_nonneg n j h : 0 <= count_gt n j h.
Proof. unfold count_gt. induction h as [|x r IH]; cbn [fold_right]; [lia|]. destruct (touched_g n j (snd x)); lia. Qed.

Lemma count_occ_pos_existsb l j : (0 < count_occ Nat.eq_dec l j)%nat <-> existsb (Nat.eqb j) l = true.
Proof.
  split.
  - intro H. apply existsb_exists. exists j.
    split; [apply (count_occ_In Nat.eq_dec); exact H|apply Nat.eqb_refl].
  - intro H. apply existsb_exists in H as (x & Hx & E). apply Nat.eqb_eq in E. subst.
    apply (count_occ_In Nat.eq_dec) in Hx. exact Hx.
Qed.

Lemma touched_c_count n j sls : touched_c n j sls = true <-> 0 < count_c n j sls.
Proof.
  unfold touched_c. induction sls as [|x r IH].
  - simpl. split; [discriminate|unfold count_c; simpl; lia].
  - change (count_c n j (x :: r)) with (cnt1_c n j x + count_c n j r).
    cbn [existsb]. rewrite orb_true_iff, IH.
    pose proof (count_c_nonneg n j r). pose proof (cnt1_c_nonneg n j x).
    assert (K : touch_c n j x = true <-> 0 < cnt1_c n j x).
    { unfold touch_c, cnt1_c. destruct (n =? s_node x); simpl.
      - rewrite <- count_occ_pos_existsb. lia.
      - split; [discriminate|lia]. }
    rewrite K. lia.
Qed.

Lemma false_iff_zero (b : bool) z : (b = true <-> 0 < z) -> 0 <= z -> (b = false <-> z = 0).
Proof. destruct b; intros [H1 H2] Hz; split; intro K; try discriminate; try reflexivity; [specialize (H1 eq_refl)|]; lia. Qed.

Lemma touched_c_false_count n j sls : touched_c n j sls = false <-> count_c n j sls = 0.
Proof. apply false_iff_zero; [apply touched_c_count|apply count_c_nonneg]. Qed.

Lemma touched_g_hslots n j h : touched_g n j (hslots h) = true <-> 0 < count_gt n j h.
Proof.
  induction h as [|e r IH].
  - unfold hslots, count_gt. simpl. split; [discriminate|lia].
  - rewrite hslots_cons, count_gt_cons, touched_g_app, orb_true_iff, IH.
    pose proof (count_gt_nonneg n j r).
    destruct (touched_g n j (snd e)).
    + split; intro K; [lia|left; reflexivity].
    + split; intro K; [destruct K as [K|K]; [discriminate|lia]|right; lia].
Qed.

Lemma touched_g_hslots_false n j h : touched_g n j (hslots h) = false <-> count_gt n j h = 0.
Proof. apply false_iff_zero; [apply touched_g_hslots|apply count_gt_nonneg]. Qed.

Lemma hslots_single u sl : hslots [(u, sl)] = sl.
Proof. unfold hslots. simpl. apply app_nil_r. Qed.

Lemma amt_sum_nonneg q n sls : (forall s, In s sls -> 0 <= amt_need q s) -> 0 <= amt_sum q n sls.
Proof.
  unfold amt_sum. induction sls as [|x r IH]; cbn [fold_right]; intro H; [lia|].
  assert (0 <= amt_need q x) by (apply H; left; reflexivity).
  assert (0 <= fold_right (fun sl a => if n =? s_node sl then amt_need q sl + a else a) 0 r)
    by (apply IH; intros s Hs; apply H; right; exact Hs).
  destruct (n =? s_node x); lia.
Qed.

(* the clauses for cores and for GPUs say the same of one entry of the map: [a0] what it was initially,
   [th] whether something held touches it.  inv_c and inv_g spell it out, so the lemmas below apply to them by
   conversion only. *)
Definition marked (a0 : option occ) (th : bool) : option occ :=
  match a0 with None => None | Some o => if th then Some Busy else Some o end.

Lemma marked_busy a0 (th ts : bool) :
  match marked a0 th with None => None | Some o => if ts then Some (occ_of true) else Some o end
  = marked a0 (th || ts).
Proof. destruct a0, th, ts; reflexivity. Qed.

Lemma marked_free a0 th : marked a0 th = Some Free -> a0 = Some Free /\ th = false.
Proof. destruct a0 as [o|], th; simpl; intro H; try discriminate; auto. Qed.

Lemma marked_release a0 (ta ts tb : bool) :
  (ts = true -> ta = false /\ tb = false /\ a0 = Some Free) ->
  match marked a0 (ta || (ts || tb)) with None => None | Some o => if ts then Some (occ_of false) else Some o end
  = marked a0 (ta || tb).
Proof.
  destruct ts; [intro H; destruct (H eq_refl) as (-> & -> & ->); reflexivity|].
  intros _. destruct a0, ta, tb; reflexivity.
Qed.

(* the two clauses of Inv about one amount: the map has the initial capacity less what is held, and that is not
   negative *)
Definition booked (q : amount) (ns0 ns : list node) (sls : list slot) : Prop :=
  (forall n, amt_at q ns n = option_map (fun x => x - amt_sum q n sls) (amt_at q ns0 n)) /\
  (forall n x, amt_at q ns n = Some x -> 0 <= x).

Lemma inv_booked q ns0 ns h : Inv ns0 ns h -> booked q ns0 ns (hslots h).
Proof. intro I. destruct q; split; apply I. Qed.

Lemma fresh_amt q ns sl : fresh ns sl -> forall n x, amt_at q ns n = Some x -> amt_sum q n sl <= x.
Proof. intro F. destruct q; apply F. Qed.

(* marking (b = true) or clearing (b = false) the slots [sl], when the books [sls'] differ from [sls] by them and
   the map can bear it *)
Lemma booked_css q b ns0 ns sls sls' sl :
  booked q ns0 ns sls ->
  (forall n, amt_sum q n sls' = amt_sum q n sls - sgn b * amt_sum q n sl) ->
  (forall n x, amt_at q ns n = Some x -> 0 <= x + sgn b * amt_sum q n sl) ->
  booked q ns0 (change_slot_states b sl ns) sls'.
Proof.
  intros [B N] Hs Hx. split; intros n; rewrite amt_at_css.
  - rewrite (B n), (Hs n). destruct (amt_at q ns0 n); cbn [option_map]; [f_equal; lia|reflexivity].
  - destruct (amt_at q ns n) as [y|] eqn:E; cbn [option_map]; [|discriminate].
    intros x K. injection K as <-. exact (Hx n y E).
Qed.

Lemma inv_free_c ns0 ns h n j :
  Inv ns0 ns h -> core_at ns n j = Some Free -> core_at ns0 n j = Some Free /\ touched_c n j (hslots h) = false.
Proof. intros I H. apply marked_free. rewrite <- H. symmetry. apply (inv_c _ _ _ I). Qed.
Lemma inv_free_g ns0 ns h n j :
  Inv ns0 ns h -> gpu_at ns n j = Some Free -> gpu_at ns0 n j = Some Free /\ touched_g n j (hslots h) = false.
Proof. intros I H. apply marked_free. rewrite <- H. symmetry. apply (inv_g _ _ _ I). Qed.

Theorem inv_grant ns0 ns h u sl :
  Inv ns0 ns h -> fresh ns sl -> Inv ns0 (change_slot_states true sl ns) (h ++ [(u, sl)]).
Proof.
  intros I F.
  assert (HS : hslots (h ++ [(u, sl)]) = hslots h ++ sl) by (rewrite hslots_app, hslots_single; reflexivity).
  pose proof (fun n j H => inv_free_c _ _ _ n j I (fr_c _ _ F n j H)) as Fc.
  pose proof (fun n j H => inv_free_g _ _ _ n j I (fr_g _ _ F n j H)) as Fg.
  assert (A : forall q, booked q ns0 (change_slot_states true sl ns) (hslots h ++ sl)).
  { intro q. apply (booked_css q true ns0 ns (hslots h)); [exact (inv_booked q _ _ _ I)| |].
    - intro n. rewrite amt_sum_app. change (sgn true) with (-1). lia.
    - intros n x E. pose proof (fresh_amt q _ _ F n x E). change (sgn true) with (-1). lia. }
  constructor; try rewrite HS.
  - intros n j. rewrite core_at_css, (inv_c _ _ _ I n j), touched_c_app. apply marked_busy.
  - intros n j. rewrite gpu_at_css, (inv_g _ _ _ I n j), touched_g_app. apply marked_busy.
  - exact (proj1 (A Lfs)).
  - exact (proj1 (A Mem)).
  - intros n j. rewrite touched_c_app, orb_true_iff. intros [H|H]; [apply (inv_c0 _ _ _ I), H|apply Fc, H].
  - intros n j. rewrite touched_g_app, orb_true_iff. intros [H|H]; [apply (inv_g0 _ _ _ I), H|apply Fg, H].
  - intros n j. rewrite count_c_app.
    pose proof (inv_dc _ _ _ I n j). pose proof (fr_dc _ _ F n j).
    destruct (touched_c n j sl) eqn:Et.
    + destruct (Fc n j Et) as [_ Eh]. apply touched_c_false_count in Eh. lia.
    + apply touched_c_false_count in Et. lia.
  - intros n j. rewrite count_gt_app, count_gt_cons. cbn [snd]. change (count_gt n j []) with 0.
    pose proof (inv_dg _ _ _ I n j).
    destruct (touched_g n j sl) eqn:Et; [|lia].
    destruct (Fg n j Et) as [_ Eh]. apply touched_g_hslots_false in Eh. lia.
  - intros e He n j. apply in_app_iff in He as [He|[<-|[]]]; [apply (inv_gs _ _ _ I e He)|].
    simpl. apply (fr_gs _ _ F).
  - exact (proj2 (A Lfs)).
  - exact (proj2 (A Mem)).
  - intros s Hs. apply in_app_iff in Hs as [Hs|Hs]; [apply (inv_nn _ _ _ I s Hs)|apply (fr_nn _ _ F s Hs)].
Qed.

Fixpoint first_with (u : Z) (h : held) : option (list slot) :=
  match h with [] => None | (k, sl) :: r => if k =? u then Some sl else first_with u r end.

Lemma first_with_split u h sl :
  first_with u h = Some sl ->
  exists a b, h = a ++ (u, sl) :: b /\ drop_first u h = a ++ b.
Proof.
  induction h as [|[k s] r IH]; simpl; [discriminate|].
  destruct (k =? u) eqn:E.
  - intro H. injection H as ->. apply Z.eqb_eq in E. subst k. exists [], r. auto.
  - intro H. destruct (IH H) as (a & b & -> & Hd). exists ((k, s) :: a), b. simpl. rewrite Hd. auto.
Qed.

Theorem inv_release ns0 ns h u sl :
  Inv ns0 ns h -> first_with u h = Some sl ->
  Inv ns0 (change_slot_states false sl ns) (drop_first u h).
Proof.
  intros I Hf. destruct (first_with_split _ _ _ Hf) as (a & b & -> & ->).
  assert (HS : hslots (a ++ (u, sl) :: b) = hslots a ++ sl ++ hslots b).
  { rewrite hslots_app, hslots_cons. reflexivity. }
  assert (HS' : hslots (a ++ b) = hslots a ++ hslots b) by apply hslots_app.
  pose proof (inv_c _ _ _ I) as Ic. pose proof (inv_g _ _ _ I) as Ig.
  pose proof (inv_dc _ _ _ I) as Idc. pose proof (inv_dg _ _ _ I) as Idg.
  pose proof (inv_c0 _ _ _ I) as Ic0. pose proof (inv_g0 _ _ _ I) as Ig0.
  pose proof (inv_nn _ _ _ I) as Inn.
  rewrite HS in *.
  assert (A : forall q, booked q ns0 (change_slot_states false sl ns) (hslots a ++ hslots b)).
  { intro q. apply (booked_css q false ns0 ns (hslots a ++ sl ++ hslots b)).
    - rewrite <- HS. exact (inv_booked q _ _ _ I).
    - intro n. rewrite !amt_sum_app. change (sgn false) with 1. lia.
    - intros n x E. pose proof (proj2 (inv_booked q _ _ _ I) n x E).
      assert (0 <= amt_sum q n sl).
      { apply amt_sum_nonneg. intros s Hs. destruct q; apply Inn; rewrite !in_app_iff; auto. }
      change (sgn false) with 1. lia. }
  constructor; try rewrite HS'.
  - intros n j. rewrite core_at_css, Ic, !touched_c_app. apply marked_release. intro Et.
    specialize (Idc n j). rewrite !count_c_app in Idc.
    pose proof (count_c_nonneg n j (hslots a)). pose proof (count_c_nonneg n j (hslots b)).
    assert (0 < count_c n j sl) by (apply touched_c_count; exact Et).
    split; [apply touched_c_false_count; lia|]. split; [apply touched_c_false_count; lia|].
    apply Ic0. rewrite !touched_c_app, Et. apply orb_true_r.
  - intros n j. rewrite gpu_at_css, Ig, !touched_g_app. apply marked_release. intro Et.
    specialize (Idg n j). rewrite count_gt_app, count_gt_cons in Idg. cbn [snd] in Idg. rewrite Et in Idg.
    pose proof (count_gt_nonneg n j a). pose proof (count_gt_nonneg n j b).
    split; [apply touched_g_hslots_false; lia|]. split; [apply touched_g_hslots_false; lia|].
    apply Ig0. rewrite !touched_g_app, Et. apply orb_true_r.
  - exact (proj1 (A Lfs)).
  - exact (proj1 (A Mem)).
  - intros n j H. apply Ic0. rewrite !touched_c_app in *.
    apply orb_true_iff in H as [H|H]; rewrite H; rewrite ?orb_true_r; reflexivity.
  - intros n j H. apply Ig0. rewrite !touched_g_app in *.
    apply orb_true_iff in H as [H|H]; rewrite H; rewrite ?orb_true_r; reflexivity.
  - intros n j. specialize (Idc n j). rewrite !count_c_app in *.
    pose proof (count_c_nonneg n j sl). lia.
  - intros n j. specialize (Idg n j). rewrite count_gt_app, count_gt_cons in *.
    destruct (touched_g n j (snd (u, sl))); lia.
  - intros e He. apply (inv_gs _ _ _ I). rewrite in_app_iff in *. simpl. tauto.
  - exact (proj2 (A Lfs)).
  - exact (proj2 (A Mem)).
  - intros s Hs. apply Inn. rewrite !in_app_iff in *. tauto.
Qed.

Theorem inv_init ns0 :
  (forall nd, In nd ns0 -> 0 <= n_lfs nd /\ 0 <= n_mem nd) -> Inv ns0 ns0 [].
Proof.
  intro H.
  assert (A : forall q, booked q ns0 ns0 []).
  { intro q. split; intro n; unfold amt_at.
    - destruct (find_node n ns0); simpl; [f_equal; lia|reflexivity].
    - destruct (find_node n ns0) as [nd|] eqn:E; simpl; [|discriminate].
      intros x K. injection K as <-. destruct q; apply H, (find_node_some _ _ _ E). }
  constructor; unfold hslots; simpl.
  - intros n j. destruct (core_at ns0 n j); reflexivity.
  - intros n j. destruct (gpu_at ns0 n j); reflexivity.
  - exact (proj1 (A Lfs)).
  - exact (proj1 (A Mem)).
  - discriminate.
  - discriminate.
  - intros; unfold count_c; simpl; lia.
  - intros; unfold count_gt; simpl; lia.
  - intros e [].
  - exact (proj2 (A Lfs)).
  - exact (proj2 (A Mem)).
  - intros s [].
Qed.

Lemma gsh_untouched j gl : existsb (fun ig => Nat.eqb j (fst ig)) gl = false -> gsh j gl = 0.
Proof.
  induction gl as [|[i u] r IH]; simpl; intro H; [reflexivity|].
  apply orb_false_iff in H as [H1 H2]. rewrite (Nat.eqb_sym j i) in H1. rewrite H1, (IH H2). lia.
Qed.

Lemma gshare_untouched n j sls : touched_g n j sls = false -> gshare_at n j sls = 0.
Proof.
  unfold touched_g, gshare_at. induction sls as [|x r IH]; cbn [existsb fold_right]; intro H; [reflexivity|].
  apply orb_false_iff in H as [H1 H2]. rewrite (IH H2). unfold touch_g in H1.
  destruct (n =? s_node x); simpl in H1; [rewrite (gsh_untouched _ _ H1)|]; lia.
Qed.

Lemma gshare_hslots_zero n j h : count_gt n j h = 0 -> gshare_at n j (hslots h) = 0.
Proof.
  induction h as [|e r IH]; intro H; [reflexivity|].
  rewrite hslots_cons, gshare_at_app. rewrite count_gt_cons in H.
  pose proof (count_gt_nonneg n j r).
  destruct (touched_g n j (snd e)) eqn:E; [lia|].
  rewrite (gshare_untouched _ _ _ E), IH; lia.
Qed.

Theorem inv_gpu_total ns0 ns h : Inv ns0 ns h -> forall n j, gshare_at n j (hslots h) <= 64.
Proof.
  intros I n j. pose proof (inv_dg _ _ _ I n j) as D. pose proof (inv_gs _ _ _ I) as G.
  clear I. induction h as [|e r IH]; [unfold hslots, gshare_at; simpl; lia|].
  rewrite hslots_cons, gshare_at_app. rewrite count_gt_cons in D.
  pose proof (count_gt_nonneg n j r).
  destruct (touched_g n j (snd e)) eqn:E.
  - rewrite (gshare_hslots_zero n j r) by lia. specialize (G e (or_introl eq_refl) n j). lia.
  - rewrite (gshare_untouched _ _ _ E). rewrite Z.add_0_l. apply IH; [lia|].
    intros e' He'. apply G. right. exact He'.
Qed.

Theorem inv_amt_total q ns0 ns h : Inv ns0 ns h ->
  forall n c, amt_at q ns0 n = Some c -> amt_sum q n (hslots h) <= c.
Proof.
  intros I n c H. destruct (inv_booked q _ _ _ I) as [B N]. pose proof (B n) as L. rewrite H in L. simpl in L.
  pose proof (N n _ L). lia.
Qed.

(* C03 *)
Theorem inv_quiescent ns0 ns : Inv ns0 ns [] ->
  (forall n j, core_at ns n j = core_at ns0 n j) /\ (forall n j, gpu_at ns n j = gpu_at ns0 n j) /\
  (forall n, lfs_at ns n = lfs_at ns0 n) /\ (forall n, mem_at ns n = mem_at ns0 n).
Proof.
  intro I.
  assert (A : forall q n, amt_at q ns n = amt_at q ns0 n).
  { intros q n. rewrite (proj1 (inv_booked q _ _ _ I) n). unfold hslots; simpl.
    destruct (amt_at q ns0 n); simpl; [f_equal; lia|reflexivity]. }
  repeat split; intros.
  - rewrite (inv_c _ _ _ I). unfold hslots; simpl. destruct (core_at ns0 n j); reflexivity.
  - rewrite (inv_g _ _ _ I). unfold hslots; simpl. destruct (gpu_at ns0 n j); reflexivity.
  - apply (A Lfs).
  - apply (A Mem).
Qed.
