(* C08, scheduler side, for whole histories: a named task does not wait once its request has been consumed.
   MInv: a task that waits in a pool AND is on the cancel list has its CANCEL queue item still pending, or belongs
   to a request of which only the registration half has happened so far (ghost multiset [half]).
   JInv: a registered uid stays on the cancel list until it has a terminal event.
   With conservation (ConsProofs: a uid with unique arrival is in at most one place) they give named_not_waiting. *)
From Coq Require Import ZArith List Lia.
From RP Require Import Sched.Model Sched.Loop Sched.ConsProofs.
Import ListNotations.

Definition QC (q : list qitem) : list Z :=
  concat (map (fun it => match it with QSched _ => [] | QCancel us => us end) q).

Lemma QC_app a b : QC (a ++ b) = QC a ++ QC b.
Proof. unfold QC. rewrite map_app, concat_app. reflexivity. Qed.

Fixpoint remove_all (us : list Z) (l : list Z) : list Z :=
  match us with [] => l | u :: r => remove_all r (remove_one u l) end.

(* ghost: uids registered by a CancelReg whose CancelQ has not happened yet *)
Definition half_step (o : op) (h : list Z) : list Z :=
  match o with CancelReg us => h ++ us | CancelQ us => remove_all us h | _ => h end.
Definition half (ops : list op) (h : list Z) : list Z := fold_left (fun h o => half_step o h) ops h.

Definition reg_step (o : op) (r : list Z) : list Z :=
  match o with CancelReg us => r ++ us | CancelMsg us => r ++ us | _ => r end.
Definition registered (ops : list op) (r : list Z) : list Z := fold_left (fun r o => reg_step o r) ops r.

Lemma QC_cancel us : QC [QCancel us] = us.
Proof. apply app_nil_r. Qed.

Lemma cz_remove_one u x : forall l,
  cz u (remove_one x l) + (if zmem x l then cz u [x] else 0) = cz u l.
Proof.
  induction l as [|y l IH]; cbn [zmem existsb remove_one]; [reflexivity|]. fold (zmem x l).
  rewrite (Z.eqb_sym x y). destruct (y =? x) eqn:E; cbn [orb].
  - apply Z.eqb_eq in E. subst. rewrite (cz_cons u x l), cz_cons, cz_nil. lia.
  - rewrite !(cz_cons u y), <- IH. lia.
Qed.

Lemma cz_remove_all u : forall us l, cz u l <= cz u (remove_all us l) + cz u us.
Proof.
  induction us as [|x r IH]; intro l; cbn [remove_all]; [rewrite cz_nil; lia|].
  specialize (IH (remove_one x l)). pose proof (cz_remove_one u x l) as H. rewrite (cz_cons u x r).
  rewrite cz_cons, cz_nil in H. destruct (zmem x l), (u =? x); lia.
Qed.

Lemma cz_zero_notin u l : cz u l <= 0 -> ~ In u l.
Proof. intros H K. apply cz_pos_in in K. lia. Qed.

(* as long as u waits, its CANCEL item is still ahead in the queue *)
Lemma drain_M u q wp bk evs wp' bk' evs' :
  drain q wp bk evs = (wp', bk', evs') ->
  cz u (P wp') <= cz u (P wp) /\
  (0 < cz u (QC q) -> cz u (P wp) <= 1 -> cz u (P wp') = 0).
Proof.
  intro H.
  assert (K : cz u (P wp') <= cz u (P wp) /\
              (0 < cz u (QC q) -> cz u (P wp) <= 1 -> cz u (P wp') = 0 \/ 0 < cz u (QC []))).
  2: { destruct K as [A B]. split; [exact A|]. intros Hq Hle. destruct (B Hq Hle) as [K|K]; [exact K|discriminate K]. }
  revert H. apply (drain_inv (fun wp0 _ _ q0 => cz u (P wp0) <= cz u (P wp) /\
                      (0 < cz u (QC q) -> cz u (P wp) <= 1 -> cz u (P wp0) = 0 \/ 0 < cz u (QC q0)))); auto.
  - intros us wp0 bk0 e0 q0 wp1 e1 Ec [A B]. destruct (cancel_uids_cz u _ _ _ _ _ Ec) as (_ & M & G).
    split; [lia|]. intros Hq Hle. destruct (B Hq Hle) as [B0|B1]; [left; cz_lia|].
    change (QC (QCancel us :: q0)) with (us ++ QC q0) in B1. rewrite cz_app in B1.
    destruct (Z_lt_le_dec 0 (cz u us)) as [Hus|Hus]; [left; apply G; [apply cz_pos_in, Hus|lia]|right; lia].
  - split; [lia|auto].
Qed.

Lemma drain_E u : forall q wp bk evs wp' bk' evs',
  drain q wp bk evs = (wp', bk', evs') -> In u (E evs) -> In u (E evs').
Proof.
  intros q wp bk evs wp' bk' evs' H Hin. destruct (drain_evs _ _ _ _ _ _ _ H) as [d ->].
  rewrite E_app. apply in_app_iff. left. exact Hin.
Qed.

Lemma intake_J u : forall ts cl evs keep cl' evs',
  intake ts cl evs = (keep, cl', evs') ->
  cz u cl' <= cz u cl /\ cz u cl + cz u (E evs) <= cz u cl' + cz u (E evs').
Proof.
  induction ts as [|t r IH]; intros cl evs keep cl' evs' H; cbn [intake] in H.
  - injection H as _ <- <-. lia.
  - pose proof (cz_remove_one u (r_uid t) cl) as Hr. destruct (zmem (r_uid t) cl).
    + destruct (IH _ _ _ _ _ H) as [A B]. rewrite cz_E_snoc in B. cbn [ev_uid] in B. cz_lia.
    + destruct (intake r cl evs) as [[k c0] e0] eqn:Ei. injection H as _ <- <-. eapply IH; eassumption.
Qed.

Lemma pool_insert_MJ u p : forall ts wp cl evs wp' cl' evs',
  pool_insert p ts wp cl evs = (wp', cl', evs') ->
  cz u cl' <= cz u cl /\ cz u cl + cz u (E evs) <= cz u cl' + cz u (E evs') /\
  (0 < cz u cl' -> cz u (P wp') <= cz u (P wp)).
Proof.
  induction ts as [|t r IH]; intros wp cl evs wp' cl' evs' H; cbn [pool_insert] in H.
  - injection H as <- <- <-. lia.
  - fold (lk p wp) in H.
    pose proof (filter_split_cz u (fun x => negb (r_uid x =? r_uid t)) (lk p wp)) as Hle.
    pose proof (cz_remove_one u (r_uid t) cl) as Hr.
    destruct (zmem (r_uid t) cl) eqn:Em; destruct (IH _ _ _ _ _ _ H) as (A & B & C); rewrite P_lookup_store in C.
    + rewrite cz_E_snoc in B. cbn [ev_uid] in B. cz_lia.
    + (* u is listed, the task parked is not: they differ *)
      rewrite cz_uids_snoc, cz_cons, cz_nil in C. destruct (u =? r_uid t) eqn:Eu; [|cz_lia].
      apply Z.eqb_eq in Eu. subst u.
      assert (cz (r_uid t) cl = 0) by (apply cz_notin; rewrite <- zmem_in, Em; discriminate). cz_lia.
Qed.

Lemma incoming_prios_MJ u c bk : forall ps s lw evs s' lw' evs',
  incoming_prios c s bk ps lw evs = (s', lw', evs') ->
  cz u (cancel_list s') <= cz u (cancel_list s) /\
  cz u (cancel_list s) + cz u (E evs) <= cz u (cancel_list s') + cz u (E evs') /\
  (0 < cz u (cancel_list s') -> cz u (P (waitpool s')) <= cz u (P (waitpool s))).
Proof.
  induction ps as [|p r IH]; intros s lw evs s' lw' evs' H; cbn [incoming_prios] in H.
  - injection H as <- _ <-. lia.
  - destruct (place_tasks c s (sort_desc r_ranks (match zlookup p bk with Some l => l | None => [] end)) [] evs)
      as [[s1 to_wait] evs1] eqn:Ep.
    destruct (place_tasks_frame _ _ _ _ _ _ _ _ Ep) as [F1 F2].
    destruct (place_tasks_evs _ _ _ _ _ _ _ _ Ep) as [d ->].
    destruct (pool_insert p to_wait (waitpool s1) (cancel_list s1) (evs ++ d)) as [[wp cl] evs2] eqn:Ei.
    pose proof (pool_insert_MJ u _ _ _ _ _ _ _ _ Ei) as I. rewrite F1, F2, E_app, cz_app in I.
    pose proof (IH _ _ _ _ _ _ H) as A. cbn [waitpool cancel_list] in A. cz_lia.
Qed.

Theorem iterate_MJ u c s q unq strat s' evs :
  iterate c s q unq strat = Some (s', evs) ->
  cz u (cancel_list s') <= cz u (cancel_list s) /\
  cz u (cancel_list s) <= cz u (cancel_list s') + cz u (E evs) /\
  (0 < cz u (cancel_list s') ->
   cz u (P (waitpool s')) <= cz u (P (waitpool s)) /\
   (0 < cz u (QC q) -> cz u (P (waitpool s)) <= 1 -> cz u (P (waitpool s')) = 0)).
Proof.
  unfold iterate. intro H.
  destruct (iterate_pre c s q strat) as [[[[s2 rw] ri] e]|] eqn:Ep; [|discriminate]. injection H as <- <-.
  destruct (iterate_pre_phases _ _ _ _ _ _ _ _ Ep) as (s1 & a1 & e1 & wp & bk & e2 & lw & e3 & Ew & Ed & Ei & ->).
  pose proof (waitpool_loop_cl _ _ _ _ _ _ _ _ _ _ _ _ Ew) as W1.
  pose proof (waitpool_loop_cz u _ _ _ _ _ _ _ _ _ _ _ _ Ew) as W2. change (E []) with (@nil Z) in W2. rewrite cz_nil in W2.
  destruct (drain_M u _ _ _ _ _ _ _ Ed) as [D1 D2].
  pose proof (incoming_prios_MJ u _ _ _ _ _ _ _ _ _ Ei) as A. unfold set_pool in A. cbn [waitpool cancel_list] in A.
  unfold set_res. cbn [waitpool cancel_list].
  destruct (unschedule_frame unq s2) as (-> & -> & _). rewrite E_app, cz_app, <- W1. cz_lia.
Qed.

(* both speak of one uid, like the counts they are stated with *)
Definition MInv (u : Z) (w : world) (h : list Z) : Prop :=
  0 < cz u (P (waitpool (st w))) -> 0 < cz u (cancel_list (st w)) -> 0 < cz u (QC (q_sched w)) + cz u h.
Definition JInv (u : Z) (w : world) (r : list Z) : Prop :=
  0 < cz u r -> 0 < cz u (cancel_list (st w)) + cz u (E (log w)).

Theorem step_MJ u c w o w' h r :
  step c w o = Some w' -> total u w <= 1 ->
  MInv u w h -> JInv u w r -> MInv u w' (half_step o h) /\ JInv u w' (reg_step o r).
Proof.
  unfold MInv, JInv. intros H Ht M J.
  destruct o as [ts|us|us|e|strat|us|us]; cbn [step] in H; cbn [half_step reg_step].
  3,4: injection H as <-; exact (conj M J).
  - (* Arrive: listings only leave, each against a CANCELED event (intake_J) *)
    destruct (intake ts (cancel_list (st w)) []) as [[keep cl] evs] eqn:Ei. injection H as <-.
    unfold set_cl. cbn [st waitpool cancel_list q_sched log].
    pose proof (intake_J u _ _ _ _ _ _ Ei) as A. change (E []) with (@nil Z) in A. rewrite cz_nil in A.
    rewrite QC_app, E_app, !cz_app. change (QC [QSched keep]) with (@nil Z). cz_lia.
  - (* CancelMsg: each new listing comes with its CANCEL item *)
    injection H as <-. unfold set_cl. cbn [st waitpool cancel_list q_sched log].
    rewrite QC_app, QC_cancel, !cz_app. cz_lia.
  - (* Iterate: who waits and is listed now did so before, and had its CANCEL item been in the queue
       it would not wait any more; so it is the ghost [h] that accounts for it *)
    destruct (iterate c (st w) (q_sched w) (q_unsched w) strat) as [[s' evs]|] eqn:Eit; [|discriminate].
    injection H as <-. cbn [st q_sched log]. unfold total in Ht.
    pose proof (iterate_MJ u _ _ _ _ _ _ _ Eit) as A. rewrite E_app, cz_app. change (QC []) with (@nil Z). cz_lia.
  - (* CancelReg: the ghost takes the new listings *)
    injection H as <-. unfold set_cl. cbn [st waitpool cancel_list q_sched log]. rewrite !cz_app. cz_lia.
  - (* CancelQ: what leaves the ghost is now a CANCEL item *)
    injection H as <-. cbn [st q_sched]. split; [|exact J].
    pose proof (cz_remove_all u us h). rewrite QC_app, QC_cancel, cz_app. cz_lia.
Qed.

Theorem run_MJ u c : forall ops w w' h r,
  run c w ops = Some w' -> total u w + cz u (arrivals ops) <= 1 ->
  MInv u w h -> JInv u w r -> MInv u w' (half ops h) /\ JInv u w' (registered ops r).
Proof.
  induction ops as [|o rest IH]; intros w w' h r H Ht M J; cbn [run] in H.
  - injection H as <-. auto.
  - destruct (step c w o) as [w1|] eqn:Es; [|discriminate].
    destruct (step_cz u _ _ _ _ Es) as [A _]. rewrite arrivals_cons, cz_app in Ht.
    assert (Ht0 : total u w <= 1) by cz_lia.
    destruct (step_MJ u _ _ _ _ _ _ Es Ht0 M J) as [M1 J1].
    unfold half, registered. cbn [fold_left]. apply (IH w1 w' _ _ H); [lia|exact M1|exact J1].
Qed.

(* after ANY history of arrivals (unique uids), requests -- delivered at once or
   in two halves in either order --, releases and iterations: a uid that was
   registered for cancellation and still waits in a pool has its CANCEL item
   pending in the queue, or belongs to a request whose queue item has not been
   issued yet.  In particular (next corollary) after an iteration no task named
   by a completely delivered request waits. *)
Theorem named_not_waiting c ns0 ops w' u :
  run c (init_world ns0) ops = Some w' -> NoDup (arrivals ops) ->
  In u (registered ops []) -> In u (P (waitpool (st w'))) ->
  In u (QC (q_sched w')) \/ In u (half ops []).
Proof.
  intros H Hn Hr HP.
  pose proof (cz_NoDup u _ Hn).
  destruct (run_MJ u c ops _ _ [] [] H) as [M J].
  { change (total u (init_world ns0)) with 0. lia. }
  { intros Hv. discriminate Hv. }
  { intros Hv. discriminate Hv. }
  (* listed: MInv; not listed any more: it has an event, so by conservation it does not wait *)
  destruct (no_loss_no_duplication c ns0 ops w' u H) as [A _]. unfold total in A. unfold MInv, JInv in *.
  rewrite <- !cz_pos_in in *. cz_lia.
Qed.

Lemma run_app c : forall a b w,
  run c w (a ++ b) = match run c w a with Some w1 => run c w1 b | None => None end.
Proof.
  induction a as [|o a IH]; intros b w; cbn [app run]; [reflexivity|].
  destruct (step c w o); [apply IH|reflexivity].
Qed.

Corollary named_not_waiting_after_iteration c ns0 ops strat w' u :
  run c (init_world ns0) (ops ++ [Iterate strat]) = Some w' -> NoDup (arrivals ops) ->
  In u (registered ops []) -> ~ In u (half ops []) ->
  ~ In u (P (waitpool (st w'))).
Proof.
  intros H Hn Hr Hh HP.
  assert (Ha : arrivals (ops ++ [Iterate strat]) = arrivals ops).
  { unfold arrivals. rewrite map_app, concat_app. simpl. apply app_nil_r. }
  assert (Hreg : registered (ops ++ [Iterate strat]) [] = registered ops []).
  { unfold registered. rewrite fold_left_app. reflexivity. }
  assert (Hhalf : half (ops ++ [Iterate strat]) [] = half ops []).
  { unfold half. rewrite fold_left_app. reflexivity. }
  destruct (named_not_waiting c ns0 _ w' u H) as [K|K]; rewrite ?Ha, ?Hreg; auto.
  - (* the queue is empty after an iteration *)
    rewrite run_app in H. destruct (run c (init_world ns0) ops) as [w1|]; [|discriminate].
    cbn [run step] in H. destruct (iterate c (st w1) (q_sched w1) (q_unsched w1) strat) as [[s' evs]|]; [|discriminate].
    injection H as <-. destruct K.
  - rewrite Hhalf in K. contradiction.
Qed.
