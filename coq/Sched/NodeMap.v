(* Pointwise view of the node list and how _change_slot_states acts on it. *)
From Coq Require Import ZArith List Bool Lia.
From RP Require Import Sched.Model.
Import ListNotations.
Local Open Scope nat_scope.

Fixpoint find_node (n : Z) (ns : list node) : option node :=
  match ns with [] => None | nd :: r => if Z.eqb (n_idx nd) n then Some nd else find_node n r end.

Definition core_at (ns : list node) (n : Z) (j : nat) : option occ :=
  match find_node n ns with Some nd => nth_error (n_cores nd) j | None => None end.
Definition gpu_at (ns : list node) (n : Z) (j : nat) : option occ :=
  match find_node n ns with Some nd => nth_error (n_gpus nd) j | None => None end.
Definition lfs_at (ns : list node) (n : Z) : option Z := option_map n_lfs (find_node n ns).
Definition mem_at (ns : list node) (n : Z) : option Z := option_map n_mem (find_node n ns).

Lemma find_node_in ns : NoDup (map n_idx ns) -> forall nd, In nd ns -> find_node (n_idx nd) ns = Some nd.
Proof.
  induction ns as [|x r IH]; simpl; intros Hn nd Hin; [contradiction|].
  inversion Hn as [|? ? Hx Hr]; subst.
  destruct Hin as [->|Hin]; [rewrite Z.eqb_refl; reflexivity|].
  destruct (Z.eqb (n_idx x) (n_idx nd)) eqn:E; [|apply IH; assumption].
  apply Z.eqb_eq in E. exfalso. apply Hx. rewrite E. apply in_map. exact Hin.
Qed.

Lemma find_node_some ns n nd : find_node n ns = Some nd -> In nd ns /\ n_idx nd = n.
Proof.
  induction ns as [|x r IH]; simpl; [discriminate|].
  destruct (Z.eqb (n_idx x) n) eqn:E.
  - intro H. injection H as ->. apply Z.eqb_eq in E. auto.
  - intro H. destruct (IH H). auto.
Qed.

Lemma nth_error_set_nth {A} (l : list A) : forall i v j,
  nth_error (set_nth i v l) j =
  match nth_error l j with None => None | Some x => if Nat.eqb i j then Some v else Some x end.
Proof.
  induction l as [|x l IH]; intros i v j.
  - destruct i; destruct j; reflexivity.
  - destruct i as [|i]; destruct j as [|j]; simpl; try reflexivity.
    + destruct (nth_error l j); reflexivity.
    + apply IH.
Qed.

Lemma nth_error_fold_set {A B} (f : B -> nat) (is : list B) (v : A) : forall (l : list A) j,
  nth_error (fold_left (fun l i => set_nth (f i) v l) is l) j =
  match nth_error l j with None => None
  | Some x => if existsb (fun i => Nat.eqb j (f i)) is then Some v else Some x end.
Proof.
  induction is as [|i is IH]; intros l j; simpl.
  - destruct (nth_error l j); reflexivity.
  - rewrite IH, nth_error_set_nth. destruct (nth_error l j) as [x|]; [|reflexivity].
    rewrite (Nat.eqb_sym j (f i)). destruct (Nat.eqb (f i) j); simpl; [|reflexivity].
    destruct (existsb (fun i => Nat.eqb j (f i)) is); reflexivity.
Qed.

Lemma find_node_mark_slot b sl ns : forall n,
  find_node n (mark_slot b sl ns) =
  if Z.eqb n (s_node sl) then option_map (mark_slot_node b sl) (find_node n ns) else find_node n ns.
Proof.
  induction ns as [|nd r IH]; intros n; simpl.
  - destruct (Z.eqb n (s_node sl)); reflexivity.
  - destruct (Z.eqb (n_idx nd) (s_node sl)) eqn:E.
    + apply Z.eqb_eq in E. simpl.
      destruct (Z.eqb (n_idx nd) n) eqn:E2.
      * apply Z.eqb_eq in E2. replace (Z.eqb n (s_node sl)) with true by (symmetry; apply Z.eqb_eq; lia).
        reflexivity.
      * destruct (Z.eqb n (s_node sl)) eqn:E3; [|reflexivity].
        apply Z.eqb_eq in E3. apply Z.eqb_neq in E2. lia.
    + simpl. destruct (Z.eqb (n_idx nd) n) eqn:E2.
      * apply Z.eqb_eq in E2. apply Z.eqb_neq in E.
        replace (Z.eqb n (s_node sl)) with false by (symmetry; apply Z.eqb_neq; lia). reflexivity.
      * apply IH.
Qed.

Definition touch_c (n : Z) (j : nat) (sl : slot) : bool :=
  Z.eqb n (s_node sl) && existsb (Nat.eqb j) (s_cores sl).
Definition touch_g (n : Z) (j : nat) (sl : slot) : bool :=
  Z.eqb n (s_node sl) && existsb (fun ig => Nat.eqb j (fst ig)) (s_gpus sl).
Definition occ_of (b : bool) : occ := if b then Busy else Free.

Lemma core_at_mark_slot b sl ns n j :
  core_at (mark_slot b sl ns) n j =
  match core_at ns n j with None => None
  | Some o => if touch_c n j sl then Some (occ_of b) else Some o end.
Proof.
  unfold core_at, touch_c. rewrite find_node_mark_slot.
  destruct (Z.eqb n (s_node sl)); simpl.
  - destruct (find_node n ns) as [nd|]; simpl; [|reflexivity].
    rewrite (nth_error_fold_set (fun i => i)). destruct b; reflexivity.
  - destruct (find_node n ns) as [nd|]; [|reflexivity]. destruct (nth_error (n_cores nd) j); reflexivity.
Qed.

Lemma gpu_at_mark_slot b sl ns n j :
  gpu_at (mark_slot b sl ns) n j =
  match gpu_at ns n j with None => None
  | Some o => if touch_g n j sl then Some (occ_of b) else Some o end.
Proof.
  unfold gpu_at, touch_g. rewrite find_node_mark_slot.
  destruct (Z.eqb n (s_node sl)); simpl.
  - destruct (find_node n ns) as [nd|]; simpl; [|reflexivity].
    rewrite (nth_error_fold_set fst). destruct b; reflexivity.
  - destruct (find_node n ns) as [nd|]; [|reflexivity]. destruct (nth_error (n_gpus nd) j); reflexivity.
Qed.

Definition sgn (b : bool) : Z := if b then (-1)%Z else 1%Z.

(* Local disk and memory are two amounts of one kind: a node has a capacity of each and a slot takes some of
   each.  lfs_at / mem_at and sum_lfs / sum_mem are amt_at and amt_sum at Lfs / Mem, by computation. *)
Inductive amount := Lfs | Mem.
Definition amt_cap (q : amount) (nd : node) : Z := match q with Lfs => n_lfs nd | Mem => n_mem nd end.
Definition amt_need (q : amount) (sl : slot) : Z := match q with Lfs => s_lfs sl | Mem => s_mem sl end.
Definition amt_at (q : amount) (ns : list node) (n : Z) : option Z := option_map (amt_cap q) (find_node n ns).
Definition amt_sum (q : amount) (n : Z) (sls : list slot) : Z :=
  fold_right (fun sl a => if Z.eqb n (s_node sl) then (amt_need q sl + a)%Z else a) 0%Z sls.

Lemma amt_at_mark_slot q b sl ns n :
  amt_at q (mark_slot b sl ns) n =
  option_map (fun x => if Z.eqb n (s_node sl) then (x + sgn b * amt_need q sl)%Z else x) (amt_at q ns n).
Proof.
  unfold amt_at. rewrite find_node_mark_slot.
  destruct (Z.eqb n (s_node sl)); destruct (find_node n ns); simpl; try reflexivity.
  destruct q, b; reflexivity.
Qed.

Definition touched_c (n : Z) (j : nat) (sls : list slot) : bool := existsb (touch_c n j) sls.
Definition touched_g (n : Z) (j : nat) (sls : list slot) : bool := existsb (touch_g n j) sls.
Definition sum_lfs (n : Z) (sls : list slot) : Z :=
  fold_right (fun sl a => if Z.eqb n (s_node sl) then (s_lfs sl + a)%Z else a) 0%Z sls.
Definition sum_mem (n : Z) (sls : list slot) : Z :=
  fold_right (fun sl a => if Z.eqb n (s_node sl) then (s_mem sl + a)%Z else a) 0%Z sls.

Lemma core_at_css b sls : forall ns n j,
  core_at (change_slot_states b sls ns) n j =
  match core_at ns n j with None => None
  | Some o => if touched_c n j sls then Some (occ_of b) else Some o end.
Proof.
  unfold change_slot_states, touched_c.
  induction sls as [|sl r IH]; intros ns n j; simpl.
  - destruct (core_at ns n j); reflexivity.
  - rewrite IH, core_at_mark_slot. destruct (core_at ns n j); [|reflexivity].
    destruct (touch_c n j sl); simpl; [|reflexivity].
    destruct (existsb (touch_c n j) r); reflexivity.
Qed.

Lemma gpu_at_css b sls : forall ns n j,
  gpu_at (change_slot_states b sls ns) n j =
  match gpu_at ns n j with None => None
  | Some o => if touched_g n j sls then Some (occ_of b) else Some o end.
Proof.
  unfold change_slot_states, touched_g.
  induction sls as [|sl r IH]; intros ns n j; simpl.
  - destruct (gpu_at ns n j); reflexivity.
  - rewrite IH, gpu_at_mark_slot. destruct (gpu_at ns n j); [|reflexivity].
    destruct (touch_g n j sl); simpl; [|reflexivity].
    destruct (existsb (touch_g n j) r); reflexivity.
Qed.

Lemma amt_at_css q b sls : forall ns n,
  amt_at q (change_slot_states b sls ns) n =
  option_map (fun x => (x + sgn b * amt_sum q n sls)%Z) (amt_at q ns n).
Proof.
  unfold change_slot_states.
  induction sls as [|sl r IH]; intros ns n; simpl.
  - destruct (amt_at q ns n); simpl; [f_equal; lia|reflexivity].
  - rewrite IH, amt_at_mark_slot. destruct (amt_at q ns n); simpl; [|reflexivity].
    f_equal. destruct (Z.eqb n (s_node sl)); lia.
Qed.

Lemma touched_c_app n j a b : touched_c n j (a ++ b) = touched_c n j a || touched_c n j b.
Proof. unfold touched_c. apply existsb_app. Qed.
Lemma touched_g_app n j a b : touched_g n j (a ++ b) = touched_g n j a || touched_g n j b.
Proof. unfold touched_g. apply existsb_app. Qed.
Lemma amt_sum_app q n a b : amt_sum q n (a ++ b) = (amt_sum q n a + amt_sum q n b)%Z.
Proof. unfold amt_sum. induction a as [|x a IH]; simpl; [reflexivity|]. destruct (Z.eqb n (s_node x)); lia. Qed.
