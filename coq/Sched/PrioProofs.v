(* C04, last sentence: "when a release lets only one of two waiting tasks run,
   the one with the higher priority is started" *)
From Coq Require Import ZArith List Lia.
From RP Require Import Sched.Model Sched.Loop.
Import ListNotations.

Lemma same_set_single u : same_set [u] [u] = true.
Proof. unfold same_set, zcount. cbn. rewrite Z.eqb_refl. reflexivity. Qed.

Lemma prios_two pH pL (a b : list req) : pL < pH ->
  prios_desc [(pH, a); (pL, b)] = [pH; pL] /\ prios_desc [(pL, b); (pH, a)] = [pH; pL].
Proof.
  intros Hlt. unfold prios_desc, sort_desc. cbn [map fst fold_right insert_desc]. split.
  - destruct (pL <=? pH) eqn:E; [reflexivity|]. apply Z.leb_gt in E. lia.
  - destruct (pH <=? pL) eqn:E; [|reflexivity]. apply Z.leb_le in E. lia.
Qed.

(* two waiting tasks in two pools: the higher-priority one is tried first, on
   the state exactly as the release left it (before any grant of this pass);
   if it fits there it is started in this pass *)
Theorem higher_priority_tried_first c s H L pH pL :
  pL < pH ->
  (waitpool s = [(pH, [H]); (pL, [L])] \/ waitpool s = [(pL, [L]); (pH, [H])]) ->
  r_env H = None ->
  forall s' rest res act evs,
    schedule_waitpool c s [[(r_uid H, true)]; [(r_uid L, true)]] = Some (s', rest, res, act, evs) ->
    match snd (try_allocation c s H) with
    | TStarted slH => In (Started (r_uid H) slH) evs
    | _ => True
    end.
Proof.
  intros Hlt Hwp HeH s' rest res act evs Hrun.
  destruct (snd (try_allocation c s H)) as [slH| |e] eqn:Hres; [|exact I|exact I].
  unfold schedule_waitpool in Hrun.
  assert (Hpr : prios_desc (waitpool s) = [pH; pL]).
  { destruct (prios_two pH pL [H] [L] Hlt) as [P1 P2]. destruct Hwp as [-> | ->]; assumption. }
  rewrite Hpr in Hrun. remember [pL] as ps. cbn [waitpool_loop] in Hrun.
  assert (Hlk : zlookup pH (waitpool s) = Some [H]).
  { destruct Hwp as [-> | ->]; cbn [zlookup].
    - rewrite Z.eqb_refl. reflexivity.
    - destruct (pL =? pH) eqn:E; [apply Z.eqb_eq in E; lia|]. rewrite Z.eqb_refl. reflexivity. }
  rewrite Hlk in Hrun.
  assert (Hok : env_ok s H = true) by (unfold env_ok; rewrite HeH; reflexivity).
  cbn [filter] in Hrun. rewrite Hok in Hrun. cbn [negb filter] in Hrun.
  change (sort_desc ts_product [H]) with [H] in Hrun.
  cbn [map fst uids] in Hrun. rewrite same_set_single in Hrun. cbn [negb] in Hrun.
  cbn [bisect_replay find_req] in Hrun. rewrite Z.eqb_refl in Hrun.
  destruct (try_allocation c s H) as [s1 rH] eqn:Hta. cbn [snd] in Hres. subst rH.
  apply waitpool_loop_evs in Hrun. destruct Hrun as [tail ->].
  cbn [map fst snd app]. left. reflexivity.
Qed.

(* ... but NOT in general: with more tasks in the higher-priority pool, the
   recorded behaviour of ru.lazy_bisect leaves tasks unchecked ("skipped")
   when tasks near them in the size-sorted pool failed; a skipped task that
   fits the idle pilot keeps waiting while a lower-priority task is started.
   Witness: the minimised history found by the correspondence harness on the
   real scheduler (replays/findings/C04-bisect-skips-fitting-higher-priority.json) *)
Definition rq (u ranks cpr gpr lfs mem rpn prio : Z) (colo : option Z) (excl : bool) : req :=
  mkReq u ranks cpr gpr lfs mem rpn prio colo excl None None.
Definition wit_cfg := mkCfg 4 2 100 64 true.
Definition wit_H := rq 17 1 0 0 0 40 2 1 None false.
Definition wit_L := rq 9 1 0 64 100 0 0 (-1) (Some 1) true.
Definition wit_state : sstate :=
  mkS [mkNode 0 [Free; Free; Free; Free] [Free; Free] 100 64] 0 [] []
      [(-1, [wit_L]);
       (1, [rq 8 2 4 32 10 64 1 1 None false; rq 16 6 1 0 0 0 3 1 None false; rq 12 4 1 128 0 0 1 1 None false;
            wit_H; rq 21 6 1 0 0 0 0 1 None false; rq 23 2 1 96 100 64 0 1 None false])]
      0 [] [] true [].
Definition wit_strat : list (list (Z * bool)) :=
  [[(21, true); (16, true); (17, false); (23, true); (8, true); (12, true)]; [(9, true)]].

Theorem higher_priority_first_refuted :
  exists s' rest res act evs slL slH,
    schedule_waitpool wit_cfg wit_state wit_strat = Some (s', rest, res, act, evs) /\
    r_prio wit_L < r_prio wit_H /\
    In (Started (r_uid wit_L) slL) evs /\
    (forall sl, ~ In (Started (r_uid wit_H) sl) evs) /\
    In wit_H (concat (map snd (waitpool s'))) /\
    snd (try_allocation wit_cfg wit_state wit_H) = TStarted slH.
Proof.
  remember (schedule_waitpool wit_cfg wit_state wit_strat) as r eqn:Hr.
  vm_compute in Hr.
  destruct r as [[[[[s' rest] res] act] evs]|]; [|discriminate].
  injection Hr as -> -> -> -> ->.
  do 5 eexists.
  exists [mkSlot 0 [0%nat] [(0%nat, 64)] 100 0].
  eexists.
  split; [reflexivity|]. split; [reflexivity|].
  split; [cbn; tauto|].
  split.
  - intros sl Hin. cbn in Hin. repeat (destruct Hin as [Hin|Hin]; [discriminate Hin|]). exact Hin.
  - split; [cbn; tauto|]. vm_compute. reflexivity.
Qed.
