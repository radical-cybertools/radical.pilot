(* The occupancy invariant holds in every state reachable by the scheduler
   loop, for every sequence of operations and every bisect strategy. *)
From Coq Require Import ZArith List Lia.
From RP Require Import Sched.Model Sched.Loop Sched.NodeMap Sched.Inv Sched.SchedProofs.
Import ListNotations.

Lemma mark_slot_idx b sl ns : map n_idx (mark_slot b sl ns) = map n_idx ns.
Proof.
  induction ns as [|nd r IH]; simpl; [reflexivity|].
  destruct (n_idx nd =? s_node sl); simpl; [reflexivity|]. rewrite IH. reflexivity.
Qed.

Lemma css_idx b sls : forall ns, map n_idx (change_slot_states b sls ns) = map n_idx ns.
Proof.
  unfold change_slot_states. induction sls as [|sl r IH]; intros ns; simpl; [reflexivity|].
  rewrite IH, mark_slot_idx. reflexivity.
Qed.

(* distinct node indices: so that a slot names one node *)
Definition SInv (ns0 : list node) (s : sstate) : Prop :=
  Inv ns0 (nodes s) (heldg s) /\ NoDup (map n_idx (nodes s)) /\
  active_cnt s = Z.of_nat (length (heldg s)).

Lemma sinv_nonneg ns0 s : SInv ns0 s -> nodes_nonneg (nodes s).
Proof.
  intros (I & Hnd & _) nd Hin. pose proof (find_node_in _ Hnd nd Hin) as Hf. split.
  - apply (inv_ln _ _ _ I (n_idx nd)). unfold lfs_at. rewrite Hf. reflexivity.
  - apply (inv_mn _ _ _ I (n_idx nd)). unfold mem_at. rewrite Hf. reflexivity.
Qed.

Lemma sinv_frame ns0 s s' :
  nodes s' = nodes s -> heldg s' = heldg s -> active_cnt s' = active_cnt s -> SInv ns0 s -> SInv ns0 s'.
Proof. unfold SInv. intros -> -> ->. auto. Qed.

Theorem try_allocation_sinv ns0 c s t s' res :
  SInv ns0 s -> wf_req t -> try_allocation c s t = (s', res) -> SInv ns0 s'.
Proof.
  intros HI Hw H. destruct (try_allocation_cases _ _ _ _ _ H) as [e off E|off co tg E|off co tg sl E].
  1,2: eapply sinv_frame; [| | |exact HI]; reflexivity.
  pose proof (sinv_nonneg _ _ HI) as Hnn. destruct HI as (I & Hnd & Hac).
  split; [|split]; cbn [nodes heldg active_cnt set_sched].
  - apply inv_grant; [exact I|]. eapply schedule_task_fresh; eauto.
  - rewrite css_idx. exact Hnd.
  - rewrite app_length. simpl. lia.
Qed.

(* PWf is Loop's `Forall G (concat (map snd wp))` at wf_req, QWf is Loop.queue_all good, both by conversion *)
Definition pool_reqs (wp : list (Z * list req)) : list req := concat (map snd wp).
Definition PWf (wp : list (Z * list req)) : Prop := Forall wf_req (pool_reqs wp).

Definition no_pre (t : req) : Prop := match r_slots t with Some (_ :: _) => False | _ => True end.
Definition good (t : req) : Prop := wf_req t /\ no_pre t.
Definition QWf (q : list qitem) : Prop :=
  Forall (fun it => match it with QSched l => Forall good l | QCancel _ => True end) q.

Lemma good_wf l : Forall good l -> Forall wf_req l.
Proof. intro H. rewrite Forall_forall in *. intros x Hx. apply (H x Hx). Qed.

Fixpoint disciplined (us : list (Z * list slot)) (h : held) : Prop :=
  match us with
  | [] => True
  | (u, sl) :: r => first_with u h = Some sl /\ disciplined r (drop_first u h)
  end.

Lemma drop_first_length u h sl : first_with u h = Some sl -> length h = S (length (drop_first u h)).
Proof.
  induction h as [|[k s] r IH]; simpl; [discriminate|].
  destruct (k =? u); [reflexivity|]. intro H. simpl. rewrite (IH H). reflexivity.
Qed.

Lemma unschedule_ok ns0 : forall us s,
  SInv ns0 s -> disciplined us (heldg s) -> SInv ns0 (unschedule us s).
Proof.
  induction us as [|[u sl] r IH]; intros s HI HD; cbn [unschedule]; [exact HI|].
  destruct HD as [H1 H2]. destruct HI as (I & Hnd & Hac). apply IH; [|exact H2].
  split; [|split]; cbn [nodes heldg active_cnt set_sched];
    [apply inv_release; assumption|rewrite css_idx; exact Hnd|].
  rewrite (drop_first_length _ _ _ H1) in Hac. lia.
Qed.

(* the two scheduling phases: the walk of Loop.iterate_pre_along with "SInv is kept" for R *)
Theorem iterate_pre_ok ns0 c s q strat s2 rw ri evs :
  SInv ns0 s -> PWf (waitpool s) -> QWf q ->
  iterate_pre c s q strat = Some (s2, rw, ri, evs) ->
  SInv ns0 s2 /\ PWf (waitpool s2).
Proof.
  intros HI HP HQ E.
  assert (H : (SInv ns0 s -> SInv ns0 s2) /\ PWf (waitpool s2)); [|exact (conj (proj1 H HI) (proj2 H))].
  refine (iterate_pre_along c (fun a b => SInv ns0 a -> SInv ns0 b) wf_req good _ _ _ _ _ _
                            s q strat s2 rw ri evs HP HQ E).
  - auto.
  - auto.
  - intros t [H _]. exact H.
  - intros a t a' res Ht Ea Ha. eapply try_allocation_sinv; eauto.
  - (* good tasks bring no placement of their own *)
    intros a t sl0 sls [_ Hnp] Hsl. unfold no_pre in Hnp. rewrite Hsl in Hnp. contradiction.
  - intros a wp cl. apply sinv_frame; reflexivity.
Qed.

Definition WInv (ns0 : list node) (w : world) : Prop :=
  SInv ns0 (st w) /\ PWf (waitpool (st w)) /\ QWf (q_sched w).

(* environment assumptions along a history: arriving requests are well formed
   and carry no application-supplied slots; *)
Definition op_good (o : op) : Prop :=
  match o with Arrive l => Forall good l | _ => True end.

(* unschedule messages name tasks that hold exactly those slots when they are
   processed, i.e. after the iteration's scheduling phases *)
Fixpoint run_disciplined (c : cfg) (w : world) (ops : list op) : Prop :=
  match ops with
  | [] => True
  | o :: r =>
      match o with
      | Iterate strat =>
          match iterate_pre c (st w) (q_sched w) strat with
          | Some (s2, _, _, _) => disciplined (q_unsched w) (heldg s2)
          | None => True
          end
      | _ => True
      end /\
      match step c w o with Some w' => run_disciplined c w' r | None => True end
  end.

Lemma intake_good : forall ts cl evs keep cl' evs',
  Forall good ts -> intake ts cl evs = (keep, cl', evs') -> Forall good keep.
Proof.
  induction ts as [|t r IH]; intros cl evs keep cl' evs' Hg E; cbn [intake] in E.
  - injection E as <- _ _. constructor.
  - inversion Hg as [|? ? Ht Hr]; subst. destruct (zmem (r_uid t) cl).
    + eapply IH; eauto.
    + destruct (intake r cl evs) as [[k c0] e0] eqn:Ei. injection E as <- _ _.
      constructor; [exact Ht|eapply IH; eauto].
Qed.

Lemma QWf_snoc q it :
  QWf q -> match it with QSched l => Forall good l | QCancel _ => True end -> QWf (q ++ [it]).
Proof. intros HQ Hit. apply Forall_app; split; [exact HQ|constructor; [exact Hit|constructor]]. Qed.

Theorem step_ok ns0 c w o w' :
  WInv ns0 w -> op_good o ->
  match o with
  | Iterate strat =>
      match iterate_pre c (st w) (q_sched w) strat with
      | Some (s2, _, _, _) => disciplined (q_unsched w) (heldg s2)
      | None => True
      end
  | _ => True
  end ->
  step c w o = Some w' -> WInv ns0 w'.
Proof.
  intros (HI & HP & HQ) Hg Hd E. destruct o as [ts|us|us|e|strat|us|us]; cbn [step] in E.
  - destruct (intake ts (cancel_list (st w)) []) as [[keep cl] evs] eqn:Ei. injection E as <-.
    split; [eapply sinv_frame; [| | |exact HI]; reflexivity|]. split; [exact HP|].
    apply QWf_snoc; [exact HQ|]. eapply intake_good; eauto.
  - injection E as <-.
    split; [eapply sinv_frame; [| | |exact HI]; reflexivity|]. split; [exact HP|apply QWf_snoc; [exact HQ|exact I]].
  - injection E as <-. exact (conj HI (conj HP HQ)).
  - injection E as <-. exact (conj HI (conj HP HQ)).
  - unfold iterate in E.
    destruct (iterate_pre c (st w) (q_sched w) strat) as [[[[s2 rw] ri] evs]|] eqn:Ep; [|discriminate].
    destruct (iterate_pre_ok _ _ _ _ _ _ _ _ _ HI HP HQ Ep) as [A B].
    pose proof (unschedule_ok ns0 _ _ A Hd) as C. injection E as <-.
    split; [eapply sinv_frame; [| | |exact C]; reflexivity|]. split; [|constructor].
    unfold set_res. cbn [st waitpool]. rewrite (proj1 (unschedule_frame _ _)). exact B.
  - injection E as <-. split; [eapply sinv_frame; [| | |exact HI]; reflexivity|exact (conj HP HQ)].
  - injection E as <-. split; [exact HI|]. split; [exact HP|apply QWf_snoc; [exact HQ|exact I]].
Qed.

Theorem run_ok ns0 c : forall ops w w',
  WInv ns0 w -> Forall op_good ops -> run_disciplined c w ops ->
  run c w ops = Some w' -> WInv ns0 w'.
Proof.
  induction ops as [|o r IH]; intros w w' HW Hg Hd E; cbn [run] in E.
  - injection E as <-. exact HW.
  - inversion Hg as [|? ? Ho Hr]; subst. cbn [run_disciplined] in Hd. destruct Hd as [Hd1 Hd2].
    destruct (step c w o) as [w1|] eqn:Es; [|discriminate].
    eapply IH; [|exact Hr|exact Hd2|exact E].
    eapply step_ok; eauto.
Qed.

Theorem winv_init ns0 :
  NoDup (map n_idx ns0) -> (forall nd, In nd ns0 -> 0 <= n_lfs nd /\ 0 <= n_mem nd) ->
  WInv ns0 (init_world ns0).
Proof.
  intros Hnd Hnn. split; [|split].
  - split; [apply inv_init; exact Hnn|split; [exact Hnd|reflexivity]].
  - constructor.
  - constructor.
Qed.

Theorem held_not_offered ns0 c s t off co tg sl :
  SInv ns0 s -> wf_req t -> schedule_task c s t = inr (off, co, tg, Some sl) ->
  forall n j, (touched_c n j sl = true -> touched_c n j (hslots (heldg s)) = false) /\
              (touched_g n j sl = true -> touched_g n j (hslots (heldg s)) = false).
Proof.
  intros HI Hw H n j. pose proof (sinv_nonneg _ _ HI) as Hnn. destruct HI as (I & Hnd & _).
  pose proof (schedule_task_fresh _ _ _ _ _ _ _ Hnd Hnn Hw H) as F. split; intro Ht.
  - apply (inv_free_c _ _ _ n j I (fr_c _ _ F n j Ht)).
  - apply (inv_free_g _ _ _ n j I (fr_g _ _ F n j Ht)).
Qed.

(* the clauses of C01 for the held set of a state satisfying the invariant *)
Definition no_oversubscription (ns0 : list node) (h : held) : Prop :=
  (forall n j, count_c n j (hslots h) <= 1) /\
  (forall n j, gshare_at n j (hslots h) <= 64) /\
  (forall n cap, lfs_at ns0 n = Some cap -> sum_lfs n (hslots h) <= cap) /\
  (forall n cap, mem_at ns0 n = Some cap -> sum_mem n (hslots h) <= cap) /\
  (forall n j, touched_c n j (hslots h) = true -> core_at ns0 n j = Some Free) /\
  (forall n j, touched_g n j (hslots h) = true -> gpu_at ns0 n j = Some Free).

Theorem inv_no_oversubscription ns0 ns h : Inv ns0 ns h -> no_oversubscription ns0 h.
Proof.
  intro I. repeat split.
  - apply (inv_dc _ _ _ I).
  - apply (inv_gpu_total _ _ _ I).
  - apply (inv_amt_total Lfs _ _ _ I).
  - apply (inv_amt_total Mem _ _ _ I).
  - apply (inv_c0 _ _ _ I).
  - apply (inv_g0 _ _ _ I).
Qed.

