(* Specification of Continuous._find_resources (model: take_free, take_share,
   find_loop, find_resources), and how schedule_task's loop over the nodes uses it. *)
From Coq Require Import ZArith List Bool Lia.
From RP Require Import Sched.Model Sched.ListAux Sched.Inv.
Import ListNotations.
Local Open Scope nat_scope.

Lemma take_free_spec (L : list occ) : forall l base need r nx,
  skipn base L = l -> take_free l base need = (r, nx) ->
  incr_from base r /\ all_lt nx r /\ base <= nx /\
  (forall i, In i r -> nth_error L i = Some Free) /\ length r <= need.
Proof.
  induction l as [|c l IH]; intros base need r nx HL H; simpl in H.
  - injection H as <- <-. simpl. repeat split; auto; try lia. intros x [].
  - destruct (skipn_cons_inv _ _ _ _ HL) as [Hc HL'].
    destruct c.
    2,3: destruct (IH _ _ _ _ HL' H) as (A & B & C & F & G); repeat split; auto; try lia;
         apply (incr_from_weaken r (S base)); [lia|exact A].
    destruct need as [|[|n']].
    + injection H as <- <-. simpl. repeat split; auto; try lia. intros x [].
    + injection H as <- <-. simpl. repeat split; auto; try lia.
      * intros x [<-|[]]. lia.
      * intros x [<-|[]]. exact Hc.
    + destruct (take_free l (S base) (S n')) as [r' nx'] eqn:E.
      injection H as <- <-.
      destruct (IH _ _ _ _ HL' E) as (A & B & C & F & G).
      simpl. repeat split; auto; try lia.
      * intros x [<-|Hx]; [lia|apply B, Hx].
      * intros x [<-|Hx]; [exact Hc|apply F, Hx].
Qed.

Lemma take_share_spec (G : list occ) (U : list Z) g : forall l base k nx,
  skipn base G = l -> take_share l (skipn base U) base g = (Some k, nx) ->
  base <= k /\ nx = k /\
  exists o uu, nth_error G k = Some o /\ occ_units o = Some uu /\ (g <= 64 - uu - nth k U 0)%Z.
Proof.
  induction l as [|o l IH]; intros base k nx HL H; cbn [take_share] in H; [discriminate|].
  destruct (skipn_cons_inv _ _ _ _ HL) as [Ho HL']. rewrite tl_skipn, skipn_head in H.
  destruct (occ_units o) as [uu|] eqn:Eo.
  - cbv zeta in H.
    destruct (g <=? 64 - uu - nth base U 0)%Z eqn:Eg.
    + injection H as <- <-. split; [lia|]. split; [reflexivity|].
      exists o, uu. repeat split; auto. apply Z.leb_le in Eg. exact Eg.
    + destruct (IH _ _ _ HL' H) as (A & B & C). split; [lia|]. split; auto.
  - destruct (IH _ _ _ HL' H) as (A & B & C). split; [lia|]. split; auto.
Qed.

Lemma nth_add_used (u : list Z) : forall j g k, j < length u ->
  nth k (add_used u j g) 0%Z = Z.add (nth k u 0%Z) (if Nat.eqb k j then g else 0%Z).
Proof.
  induction u as [|x u IH]; intros j g k Hj; simpl in Hj; [lia|].
  destruct j as [|j], k as [|k]; simpl; try lia. apply IH. lia.
Qed.

Lemma length_add_used (u : list Z) : forall j g, length (add_used u j g) = length u.
Proof. induction u as [|x u IH]; intros [|j] g; simpl; auto. Qed.

Definition core_free (nd : node) (i : nat) : Prop := nth_error (n_cores nd) i = Some Free.
Definition gpu_free (nd : node) (k : nat) : Prop := nth_error (n_gpus nd) k = Some Free.

(* find_one's three ways with GPUs, by g: none; g/64 whole free ones; a share of one, booked in gused *)
Definition gpus_ok (nd : node) (g : Z) (gi : nat) (gused : list Z) (s : slot)
  (gi' : nat) (gu' : list Z) : Prop :=
  ((g <= 0)%Z /\ s_gpus s = [] /\ gi' = gi /\ gu' = gused) \/
  ((64 <= g)%Z /\ (g mod 64 = 0)%Z /\ gu' = gused /\
   exists gp, s_gpus s = map (fun i => (i, 64%Z)) gp /\ length gp = Z.to_nat (g / 64) /\
              incr_from gi gp /\ all_lt gi' gp /\ gi <= gi' /\ forall k, In k gp -> gpu_free nd k) \/
  ((0 < g < 64)%Z /\
   exists k, s_gpus s = [(k, g)] /\ gi <= k /\ gi' = k /\ gu' = add_used gused k g /\
             k < length (n_gpus nd) /\
             exists o uu, nth_error (n_gpus nd) k = Some o /\ occ_units o = Some uu /\
                          (g <= 64 - uu - nth k gused 0)%Z).

Lemma find_one_spec nd cps g lfs mem ci gi lu mu gused s ci' gi' gu' :
  find_one nd cps g lfs mem ci gi lu mu gused = OneSlot s ci' gi' gu' ->
  s_node s = n_idx nd /\ s_lfs s = lfs /\ s_mem s = mem /\
  length (s_cores s) = cps /\ incr_from ci (s_cores s) /\ all_lt ci' (s_cores s) /\ ci <= ci' /\
  (forall i, In i (s_cores s) -> core_free nd i) /\
  (lfs <= n_lfs nd - lu)%Z /\ (mem <= n_mem nd - mu)%Z /\
  gpus_ok nd g gi gused s gi' gu'.
Proof.
  unfold find_one. intro H.
  destruct ((n_lfs nd - lu <? lfs)%Z || (n_mem nd - mu <? mem)%Z) eqn:E0; [discriminate|].
  apply orb_false_iff in E0 as [E0a E0b]. apply Z.ltb_ge in E0a. apply Z.ltb_ge in E0b.
  destruct (take_free (skipn ci (n_cores nd)) ci cps) as [cores cn] eqn:Ec.
  destruct (take_free_spec _ _ _ _ _ _ eq_refl Ec) as (C1 & C2 & C3 & C4 & C5).
  destruct (length cores <? cps) eqn:El; [discriminate|]. apply Nat.ltb_ge in El.
  assert (Hlen : length cores = cps) by lia.
  destruct (64 <=? g)%Z eqn:E64.
  - apply Z.leb_le in E64.
    destruct (negb (g mod 64 =? 0)%Z) eqn:Em; [discriminate|].
    apply negb_false_iff in Em. apply Z.eqb_eq in Em.
    destruct (take_free (skipn gi (n_gpus nd)) gi (Z.to_nat (g / 64))) as [gp gn] eqn:Eg.
    destruct (take_free_spec _ _ _ _ _ _ eq_refl Eg) as (G1 & G2 & G3 & G4 & G5).
    destruct (length gp <? Z.to_nat (g / 64)) eqn:Elg; [discriminate|]. apply Nat.ltb_ge in Elg.
    injection H as <- <- <- <-. simpl. repeat split; auto.
    right; left. repeat split; auto. exists gp. repeat split; auto. lia.
  - apply Z.leb_gt in E64.
    destruct (0 <? g)%Z eqn:Ep.
    + apply Z.ltb_lt in Ep.
      destruct (take_share (skipn gi (n_gpus nd)) (skipn gi gused) gi g) as [[k|] gn] eqn:Es; [|discriminate].
      injection H as <- <- <- <-. simpl. repeat split; auto.
      right; right. split; [lia|].
      destruct (take_share_spec (n_gpus nd) gused _ _ _ _ _ eq_refl Es) as (S1 & S2 & o & uu & S3 & S4 & S5).
      exists k. repeat split; auto.
      * apply nth_error_Some. rewrite S3. discriminate.
      * exists o, uu. auto.
    + apply Z.ltb_ge in Ep.
      injection H as <- <- <- <-. simpl. repeat split; auto.
      left. auto.
Qed.

Definition all_cores (sl : list slot) : list nat := concat (map s_cores sl).

(* share_on is gshare_at within one node (SchedProofs.gshare_at_same) *)
Fixpoint share_on (k : nat) (sl : list slot) : Z :=
  match sl with [] => 0%Z | s :: r => Z.add (gsh k (s_gpus s)) (share_on k r) end.

Definition slot_local_ok (nd : node) (cps : nat) (g lfs mem : Z) (s : slot) : Prop :=
  s_node s = n_idx nd /\ s_lfs s = lfs /\ s_mem s = mem /\ length (s_cores s) = cps /\
  (forall i, In i (s_cores s) -> core_free nd i).

Lemma find_loop_basic nd cps g lfs mem : forall n ci gi lu mu gused sl,
  find_loop nd n cps g lfs mem ci gi lu mu gused = inr sl ->
  length sl <= n /\
  Forall (slot_local_ok nd cps g lfs mem) sl /\
  incr_from ci (all_cores sl) /\
  (sl = [] \/ (lu + lfs * Z.of_nat (length sl) <= n_lfs nd)%Z) /\
  (sl = [] \/ (mu + mem * Z.of_nat (length sl) <= n_mem nd)%Z).
Proof.
  induction n as [|n IH]; intros ci gi lu mu gused sl H; cbn [find_loop] in H.
  - injection H as <-. simpl. repeat split; auto.
  - destruct (find_one nd cps g lfs mem ci gi lu mu gused) as [e| |s ci' gi' gu'] eqn:E1; [discriminate| |].
    + injection H as <-. simpl. repeat split; auto. lia.
    + destruct (find_loop nd n cps g lfs mem ci' gi' (lu + lfs) (mu + mem) gu') as [e|r] eqn:E2; [discriminate|].
      injection H as <-.
      destruct (find_one_spec _ _ _ _ _ _ _ _ _ _ _ _ _ _ E1)
        as (S1 & S2 & S3 & S4 & S5 & S6 & S7 & S8 & S9 & S10 & S11).
      destruct (IH _ _ _ _ _ _ E2) as (A & B & C & D & F).
      simpl. repeat split.
      * lia.
      * constructor; [repeat split; auto|exact B].
      * unfold all_cores. simpl. apply (incr_from_app _ ci ci'); auto.
      * right. destruct D as [->|D]; simpl; [lia|]. simpl in D. lia.
      * right. destruct F as [->|F]; simpl; [lia|]. simpl in F. lia.
Qed.

Lemma all_cores_NoDup nd cps g lfs mem n ci gi lu mu gused sl :
  (0 <= lfs)%Z -> (0 <= mem)%Z ->
  find_loop nd n cps g lfs mem ci gi lu mu gused = inr sl -> NoDup (all_cores sl).
Proof.
  intros _ _ H. destruct (find_loop_basic _ _ _ _ _ _ _ _ _ _ _ _ H) as (_ & _ & C & _).
  eapply incr_from_NoDup; exact C.
Qed.

Definition slot_gpu_amount (s : slot) : Z := fold_right (fun ig a => Z.add (snd ig) a) 0%Z (s_gpus s).

(* whole GPUs picked between lo and hi take all of each and nothing outside *)
Lemma gsh_whole k gp : forall lo hi, incr_from lo gp -> all_lt hi gp ->
  (gsh k (map (fun i => (i, 64)) gp) <= if Nat.ltb k lo then 0 else if Nat.ltb k hi then 64 else 0)%Z.
Proof.
  induction gp as [|x r IH]; intros lo hi Hi Hl; simpl.
  - destruct (k <? lo), (k <? hi); lia.
  - destruct Hi as [H1 H2]. specialize (IH (S x) hi H2 (fun y Hy => Hl y (or_intror Hy))).
    pose proof (Hl x (or_introl eq_refl)).
    destruct (Nat.eqb_spec x k), (Nat.ltb_spec k lo), (Nat.ltb_spec k hi), (Nat.ltb_spec k (S x)); lia.
Qed.

Lemma gidx_whole gp : map fst (map (fun i : nat => (i, 64%Z)) gp) = gp.
Proof. induction gp; simpl; congruence. Qed.

Lemma amount_whole gp : fold_right (fun ig a => Z.add (snd ig) a) 0%Z (map (fun i : nat => (i, 64%Z)) gp)
                        = (64 * Z.of_nat (length gp))%Z.
Proof. induction gp as [|i r IH]; [reflexivity|]. cbn [map fold_right snd length]. rewrite IH. lia. Qed.

(* the invariant of the per-call share table (all zero for whole GPUs: only shares are booked) *)
Definition gused_ok (nd : node) (g : Z) (gused : list Z) : Prop :=
  (forall k, 0 <= nth k gused 0 <= 64)%Z /\ ((64 <= g)%Z -> forall k, nth k gused 0%Z = 0%Z) /\
  length gused = length (n_gpus nd).

(* what the scan may still hand out of GPU k: nothing below its position gi, else what the table leaves *)
Definition room (gi : nat) (gused : list Z) (k : nat) : Z := if k <? gi then 0%Z else (64 - nth k gused 0)%Z.

Lemma room_nonneg nd g gused gi k : gused_ok nd g gused -> (0 <= room gi gused k)%Z.
Proof. intros (Hu & _). unfold room. specialize (Hu k). destruct (k <? gi); lia. Qed.

(* one slot's GPUs are free, amount to g, and come out of the room there was *)
Lemma gpus_ok_books nd g gi gused s gi' gu' :
  (0 <= g)%Z -> gused_ok nd g gused -> gpus_ok nd g gi gused s gi' gu' ->
  gused_ok nd g gu' /\
  (forall k u, In (k, u) (s_gpus s) -> gpu_free nd k /\ (0 < u <= 64)%Z) /\
  (slot_gpu_amount s = g /\ NoDup (map fst (s_gpus s))) /\
  forall k, (gsh k (s_gpus s) + room gi' gu' k <= room gi gused k)%Z.
Proof.
  intros Hg Hok GO. pose proof Hok as (Hu & Hz & HL). unfold slot_gpu_amount.
  destruct GO as [(G0 & G1 & -> & ->) | [(G0 & G1 & -> & gp & G3 & G4 & G5 & G6 & G7 & G8) |
                  (G0 & k0 & G1 & G2 & -> & -> & G5 & o & uu & G6 & G7 & G8)]].
  - (* no GPUs *)
    rewrite G1. split; [exact Hok|]. split; [intros k u []|]. split; [split; [simpl; lia|constructor]|].
    intro k. simpl. lia.
  - (* whole GPUs, with indices from gi up to gi', where the table is zero *)
    assert (Hnd : NoDup gp) by (eapply incr_from_NoDup; exact G5).
    rewrite G3, gidx_whole. split; [exact Hok|]. split; [|split].
    + intros k u Hin. apply in_map_iff in Hin as (i & Hi & Hin). injection Hi as <- <-.
      split; [apply G8; exact Hin|lia].
    + rewrite amount_whole, G4, Z2Nat.id by (apply Z.div_pos; lia). split; [|exact Hnd].
      pose proof (Z.div_mod g 64). lia.
    + intro k. pose proof (gsh_whole k gp gi gi' G5 G6). unfold room. rewrite (Hz G0 k).
      destruct (Nat.ltb_spec k gi), (Nat.ltb_spec k gi'); lia.
  - (* a share of GPU k0, booked in the table; the scan stays at k0 *)
    assert (Huu : uu = 0%Z /\ o = Free).
    { specialize (Hu k0). destruct o; simpl in G7; try discriminate; injection G7 as <-; [auto|lia]. }
    destruct Huu as [-> ->]. rewrite G1.
    split; [|split; [|split]].
    + split; [|split; [lia|rewrite length_add_used; exact HL]].
      intro k. rewrite nth_add_used by lia. specialize (Hu k). destruct (Nat.eqb_spec k k0) as [->|Hk]; lia.
    + intros k u [Hin|[]]. injection Hin as <- <-. split; [exact G6|lia].
    + simpl. split; [lia|]. constructor; [intros []|constructor].
    + intro k. unfold room. rewrite nth_add_used by lia. cbn [gsh]. rewrite (Nat.eqb_sym k0 k). specialize (Hu k).
      destruct (Nat.eqb_spec k k0) as [->|Hk].
      * rewrite Nat.ltb_irrefl. destruct (Nat.ltb_spec k0 gi); lia.
      * destruct (Nat.ltb_spec k k0), (Nat.ltb_spec k gi); lia.
Qed.

Lemma find_loop_gpus nd cps g lfs mem : forall n ci gi lu mu gused sl,
  (0 <= g)%Z -> gused_ok nd g gused ->
  find_loop nd n cps g lfs mem ci gi lu mu gused = inr sl ->
  (forall s, In s sl -> forall k u, In (k, u) (s_gpus s) -> gpu_free nd k /\ (0 < u <= 64)%Z) /\
  (forall k, share_on k sl <= room gi gused k)%Z /\
  Forall (fun s => slot_gpu_amount s = g /\ NoDup (map fst (s_gpus s))) sl.
Proof.
  induction n as [|n IH]; intros ci gi lu mu gused sl Hg Hok H; cbn [find_loop] in H.
  - injection H as <-. split; [intros s []|]. split; [intro k; exact (room_nonneg _ _ _ _ _ Hok)|constructor].
  - destruct (find_one nd cps g lfs mem ci gi lu mu gused) as [e| |s ci' gi' gu'] eqn:E1; [discriminate| |].
    + injection H as <-. split; [intros s []|]. split; [intro k; exact (room_nonneg _ _ _ _ _ Hok)|constructor].
    + destruct (find_loop nd n cps g lfs mem ci' gi' (lu + lfs) (mu + mem) gu') as [e|r] eqn:E2; [discriminate|].
      injection H as <-.
      destruct (find_one_spec _ _ _ _ _ _ _ _ _ _ _ _ _ _ E1) as (_ & _ & _ & _ & _ & _ & _ & _ & _ & _ & GO).
      destruct (gpus_ok_books _ _ _ _ _ _ _ Hg Hok GO) as (Hok' & P & Q & R).
      destruct (IH _ _ _ _ _ _ Hg Hok' E2) as (A & B & D).
      split; [|split].
      * intros s' [<-|Hs]; [exact P|exact (A s' Hs)].
      * intro k. cbn [share_on]. specialize (B k). specialize (R k). lia.
      * constructor; [exact Q|exact D].
Qed.

(* the call find_resources makes: nothing handed out yet *)
Lemma zeros_nth (l : list occ) k : nth k (map (fun _ => 0%Z) l) 0%Z = 0%Z.
Proof. revert k. induction l as [|x l IH]; intros [|k]; simpl; auto. Qed.

Lemma find_loop_gpus_fresh nd cps g lfs mem n sl :
  (0 <= g)%Z ->
  find_loop nd n cps g lfs mem 0 0 0 0 (map (fun _ => 0%Z) (n_gpus nd)) = inr sl ->
  (forall s, In s sl -> forall k u, In (k, u) (s_gpus s) -> gpu_free nd k /\ (0 < u <= 64)%Z) /\
  (forall k, share_on k sl <= 64)%Z /\
  Forall (fun s => slot_gpu_amount s = g /\ NoDup (map fst (s_gpus s))) sl.
Proof.
  intros Hg Hf.
  destruct (find_loop_gpus nd cps g lfs mem n 0 0 0%Z 0%Z (map (fun _ => 0%Z) (n_gpus nd)) sl Hg)
    as (G1 & G2 & G4); [|exact Hf|].
  { split; [intro k; rewrite zeros_nth; lia|]. split; [intros _; apply zeros_nth|apply map_length]. }
  split; [exact G1|]. split; [|exact G4].
  intro k. specialize (G2 k). unfold room in G2. rewrite zeros_nth in G2. exact G2.
Qed.

Lemma find_resources_loop nd n cps g lfs mem partial l :
  find_resources nd n cps g lfs mem partial = inr (Some l) ->
  find_loop nd n cps g lfs mem 0 0 0 0 (map (fun _ => 0%Z) (n_gpus nd)) = inr l.
Proof.
  unfold find_resources.
  destruct (find_loop nd n cps g lfs mem 0 0 0 0 (map (fun _ => 0%Z) (n_gpus nd))) as [e|sl]; [discriminate|].
  destruct (negb partial && (length sl <? n)%nat); [discriminate|]. intro H. injection H as ->. reflexivity.
Qed.

(* node_loop passes over a node that a known tag does not name, or that an exclusive new tag must avoid *)
Definition passed_over (hist : option (list Z)) (ne : bool) (tg : list Z) (nn : nat) (nd : node) : bool :=
  match hist with
  | Some h => negb (zmem (n_idx nd) h)
  | None => ne && zmem (n_idx nd) tg && (length tg <? nn)%nat
  end.

(* One induction for every invariant [I rest alc rem] of the slots collected so far (rest = nodes not yet
   visited): it may forget a node, start again from nothing, and take what find_loop returns on a node
   that is not skipped. *)
Lemma node_loop_inv (I : list node -> list slot -> Z -> Prop) c hist ne tg nn mpi spn rq cps g lfs mem :
  (forall nd rest a r, I (nd :: rest) a r -> I rest a r) ->
  (forall nd rest a r, I (nd :: rest) a r -> I rest [] rq) ->
  (forall nd rest a r new,
     passed_over hist ne tg nn nd = false ->
     I (nd :: rest) a r ->
     find_loop nd (Z.to_nat (Z.min r spn)) cps g lfs mem 0 0 0 0 (map (fun _ => 0%Z) (n_gpus nd)) = inr new ->
     new <> [] -> I rest (a ++ new) (r - Z.of_nat (length new))%Z) ->
  forall visit k st st' k',
    I visit (alc st) (rem st) ->
    node_loop c hist ne tg nn mpi spn rq cps g lfs mem visit k st = inr (st', k') ->
    I [] (alc st') (rem st').
Proof.
  intros Hskip Hreset Hstep.
  assert (Hdown : forall rest a r, I rest a r -> I [] a r) by (induction rest; eauto).
  induction visit as [|nd0 rest IH]; intros k st st' k' Hst H; cbn [node_loop] in H.
  - injection H as <- _. exact Hst.
  - match type of H with (if ?b then _ else _) = _ => destruct b eqn:Esk end.
    { eapply IH; eauto. }
    match type of H with
    | match find_resources ?a ?b ?cc ?d ?e ?f ?pp with _ => _ end = _ =>
        destruct (find_resources a b cc d e f pp) as [e0|r] eqn:Ef; [discriminate|]
    end.
    destruct r as [[|s0 new]|].
    1,3: eapply IH; [|exact H]; destruct (scattered c); cbn [alc rem]; eauto.
    apply find_resources_loop in Ef.
    pose proof (Hstep _ _ _ _ _ Esk Hst Ef (fun K => nil_cons (eq_sym K))) as Hs.
    cbn [alc rem] in H.
    match type of H with (if ?b then _ else _) = _ => destruct b end.
    + injection H as <- _. exact (Hdown _ _ _ Hs).
    + eapply IH; [|exact H]. exact Hs.
Qed.

(* schedule_task's `slots_per_node` *)
Definition spn_of (c : cfg) (t : req) : Z :=
  let cps := if (r_cpr t =? 0)%Z then 1%Z else r_cpr t in
  let spn0 := (cpn c / cps)%Z in
  let spn1 := if (r_rpn t =? 0)%Z then spn0 else Z.min spn0 (r_rpn t) in
  let spn2 := if (r_gpr t =? 0)%Z then spn1 else Z.min spn1 ((64 * gpn c) / r_gpr t) in
  let spn3 := if (r_lfs t =? 0)%Z then spn2 else Z.min spn2 (lfs_pn c / r_lfs t) in
  if (r_mem t =? 0)%Z then spn3 else Z.min spn3 (mem_pn c / r_mem t).

(* schedule_task's first four checks *)
Definition oversize (c : cfg) (t : req) : bool :=
  negb ((if r_cpr t =? 0 then 1 else r_cpr t) <=? cpn c)%Z || negb (r_gpr t <=? 64 * gpn c)%Z ||
  negb (r_lfs t <=? lfs_pn c)%Z || negb (r_mem t <=? mem_pn c)%Z.

(* schedule_task's walk over the nodes, and the offset after k resumptions *)
Definition search (c : cfg) (s : sstate) (t : req) : (ferr * nat) + (sloop * nat) :=
  node_loop c (match r_colo t with Some tag => zlookup tag (colo s) | None => None end)
            (match r_colo t with Some _ => r_excl t | None => false end)
            (tagged s) (length (nodes s)) (1 <? r_ranks t)%Z (spn_of c t) (r_ranks t)
            (Z.to_nat (if (r_cpr t =? 0)%Z then 1%Z else r_cpr t)) (r_gpr t) (r_lfs t) (r_mem t)
            (rotate (offset s) (nodes s)) 0 (mkL [] (r_ranks t) true false).
Definition offset_after (s : sstate) (k : nat) : nat :=
  match length (nodes s) with O => O | _ => Nat.modulo (offset s + k) (length (nodes s)) end.

(* the cases of schedule_task; all but the first know that no size check failed *)
Inductive scheduled (c : cfg) (s : sstate) (t : req)
  : (ferr * nat) + (nat * list (Z * list Z) * list Z * option (list slot)) -> Prop :=
| sched_oversize : oversize c t = true -> scheduled c s t (inl (EAssert, offset s))
| sched_ranks : oversize c t = false -> (spn_of c t < r_ranks t <= 1)%Z -> scheduled c s t (inl (EValue, offset s))
| sched_err e k : oversize c t = false -> search c s t = inl (e, k) -> scheduled c s t (inl (e, offset_after s k))
| sched_short st k : oversize c t = false -> search c s t = inr (st, k) -> (0 < rem st)%Z ->
    scheduled c s t (inr (offset_after s k, colo s, tagged s, None))
| sched_grant st k co tg : oversize c t = false -> search c s t = inr (st, k) -> (rem st <= 0)%Z ->
    (co, tg) = match r_colo t with
               | Some tag => (zstore tag (map s_node (alc st)) (colo s), zadd_all (map s_node (alc st)) (tagged s))
               | None => (colo s, tagged s)
               end ->
    scheduled c s t (inr (offset_after s k, co, tg, Some (alc st))).

Lemma schedule_task_cases c s t : scheduled c s t (schedule_task c s t).
Proof.
  unfold schedule_task. fold (spn_of c t). cbv zeta. fold (search c s t).
  destruct ((if r_cpr t =? 0 then 1 else r_cpr t) <=? cpn c)%Z eqn:E1, (r_gpr t <=? 64 * gpn c)%Z eqn:E2,
           (r_lfs t <=? lfs_pn c)%Z eqn:E3, (r_mem t <=? mem_pn c)%Z eqn:E4; cbn [negb];
    try (apply sched_oversize; unfold oversize; rewrite E1, E2, E3, E4; reflexivity).
  assert (Eo : oversize c t = false) by (unfold oversize; rewrite E1, E2, E3, E4; reflexivity).
  destruct (negb (1 <? r_ranks t)%Z && (spn_of c t <? r_ranks t)%Z) eqn:Er.
  - apply andb_true_iff in Er as [Er1 Er2]. apply negb_true_iff, Z.ltb_ge in Er1. apply Z.ltb_lt in Er2.
    apply sched_ranks; [exact Eo|lia].
  - destruct (search c s t) as [[e k]|[st k]] eqn:En; fold (offset_after s k).
    + apply sched_err; assumption.
    + destruct (0 <? rem st)%Z eqn:E0.
      * apply (sched_short c s t st k); [exact Eo|exact En|apply Z.ltb_lt, E0].
      * apply Z.ltb_ge in E0. destruct (r_colo t) eqn:Ec; apply sched_grant; auto; rewrite Ec; reflexivity.
Qed.


Lemma schedule_task_grant c s t off co tg sl :
  schedule_task c s t = inr (off, co, tg, Some sl) ->
  exists st k,
    search c s t = inr (st, k) /\ sl = alc st /\ (rem st <= 0)%Z /\
    (co, tg) = match r_colo t with
               | Some tag => (zstore tag (map s_node sl) (colo s), zadd_all (map s_node sl) (tagged s))
               | None => (colo s, tagged s)
               end.
Proof.
  intro H. pose proof (schedule_task_cases c s t) as K. rewrite H in K.
  inversion K as [| | | |st k co' tg' _ En Er Hct]; subst. exists st, k. auto.
Qed.
