(* C02: the shape of what schedule_task returns, and that an oversized request is refused. *)
From Coq Require Import ZArith List Bool Lia.
From RP Require Import Common.ListFacts Sched.Model Sched.ListAux Sched.FindProofs Sched.SchedProofs.
Import ListNotations.

Definition count_on (n : Z) (sl : list slot) : Z :=
  Z.of_nat (length (filter (fun s => s_node s =? n) sl)).

Lemma count_on_app n a b : count_on n (a ++ b) = count_on n a + count_on n b.
Proof. unfold count_on. rewrite filter_app, app_length. lia. Qed.

Lemma count_on_other n sl : (forall s, In s sl -> s_node s <> n) -> count_on n sl = 0.
Proof.
  unfold count_on. induction sl as [|x r IH]; simpl; intro H; [reflexivity|].
  assert (s_node x <> n) by (apply H; left; reflexivity).
  destruct (s_node x =? n) eqn:E; [apply Z.eqb_eq in E; contradiction|].
  apply IH. intros s Hs. apply H. right. exact Hs.
Qed.

Lemma count_on_le n sl : count_on n sl <= Z.of_nat (length sl).
Proof.
  unfold count_on. apply inj_le. induction sl as [|x r IH]; simpl; [lia|].
  destruct (s_node x =? n); simpl; lia.
Qed.

Lemma NoDup_concat_part {A} (parts : list (list A)) :
  NoDup (concat parts) -> forall p, In p parts -> NoDup p.
Proof.
  induction parts as [|x r IH]; simpl; intros H p Hp; [contradiction|].
  apply NoDup_app_iff in H as (Hx & Hr & _).
  destruct Hp as [->|Hp]; [exact Hx | exact (IH Hr p Hp)].
Qed.

Definition shape_ok (ns : list node) (cps : nat) (g lfs mem : Z) (hist : option (list Z)) (s : slot) : Prop :=
  length (s_cores s) = cps /\ NoDup (s_cores s) /\
  slot_gpu_amount s = g /\ NoDup (map fst (s_gpus s)) /\
  s_lfs s = lfs /\ s_mem s = mem /\
  (exists nd, In nd ns /\ s_node s = n_idx nd /\
              (forall i, In i (s_cores s) -> (i < length (n_cores nd))%nat)) /\
  (forall h, hist = Some h -> zmem (s_node s) h = true).

Lemma find_loop_len nd n cps g lfs mem ci gi lu mu gu sl :
  find_loop nd n cps g lfs mem ci gi lu mu gu = inr sl -> (length sl <= n)%nat.
Proof. intro H. apply (find_loop_basic _ _ _ _ _ _ _ _ _ _ _ _ H). Qed.

Record sh_ok (ns : list node) (cps : nat) (g lfs mem : Z) (hist : option (list Z))
  (spn rq : Z) (alc : list slot) (rem : Z) : Prop := {
  sh_rem : rem = rq - Z.of_nat (length alc) /\ 0 <= rem;
  sh_s : forall s, In s alc -> shape_ok ns cps g lfs mem hist s;
  sh_cnt : forall n, count_on n alc <= Z.max 0 spn }.

Lemma sh_step ns nd0 cps g lfs mem hist spn rq alc rem new :
  0 <= g -> (forall h, hist = Some h -> zmem (n_idx nd0) h = true) -> new <> [] ->
  In nd0 ns -> (forall s, In s alc -> s_node s <> n_idx nd0) ->
  sh_ok ns cps g lfs mem hist spn rq alc rem ->
  find_loop nd0 (Z.to_nat (Z.min rem spn)) cps g lfs mem 0 0 0 0 (map (fun _ => 0) (n_gpus nd0)) = inr new ->
  sh_ok ns cps g lfs mem hist spn rq (alc ++ new) (rem - Z.of_nat (length new)).
Proof.
  intros Hg Hh Hne Hin Halc_node [[A1 A2] B C] Hf.
  destruct (find_loop_basic _ _ _ _ _ _ _ _ _ _ _ _ Hf) as (F0 & F1 & F2 & _ & _).
  destruct (find_loop_gpus_fresh _ _ _ _ _ _ _ Hg Hf) as (_ & _ & G4).
  rewrite Forall_forall in F1, G4.
  assert (Hnew_len : Z.of_nat (length new) <= Z.min rem spn).
  { destruct new as [|x r]; [congruence|].
    destruct (Z.min rem spn) eqn:Emin; simpl in F0; try lia. simpl length. lia. }
  constructor.
  - rewrite app_length, Nat2Z.inj_add. split; lia.
  - intros s Hs. apply in_app_iff in Hs as [Hs|Hs]; [exact (B s Hs)|].
    destruct (F1 s Hs) as (S1 & S2 & S3 & S4 & S5). destruct (G4 s Hs) as [S6 S7].
    unfold shape_ok. repeat split; auto.
    + apply (NoDup_concat_part (map s_cores new)); [eapply incr_from_NoDup; exact F2|].
      apply in_map. exact Hs.
    + exists nd0. repeat split; auto. intros i Hi0. apply nth_error_Some. rewrite (S5 i Hi0). discriminate.
    + intros h Hh'. rewrite S1. apply Hh. exact Hh'.
  - intro n0. rewrite count_on_app.
    destruct (Z.eq_dec n0 (n_idx nd0)) as [->|Hne0].
    + rewrite (count_on_other _ alc Halc_node). pose proof (count_on_le (n_idx nd0) new). lia.
    + rewrite (count_on_other n0 new) by (intros s Hs; rewrite (proj1 (F1 s Hs)); congruence).
      specialize (C n0). lia.
Qed.

Lemma sh_reset ns cps g lfs mem hist spn rq : 0 <= rq -> sh_ok ns cps g lfs mem hist spn rq [] rq.
Proof.
  intro H. constructor.
  - simpl. split; lia.
  - intros s [].
  - intro n. unfold count_on. simpl. lia.
Qed.

Definition hist_of (s : sstate) (t : req) : option (list Z) :=
  match r_colo t with Some tag => zlookup tag (colo s) | None => None end.
Definition cps_of (t : req) : Z := if r_cpr t =? 0 then 1 else r_cpr t.

Theorem schedule_task_shape c s t off co tg sl :
  NoDup (map n_idx (nodes s)) -> wf_req t -> 0 <= r_ranks t ->
  schedule_task c s t = inr (off, co, tg, Some sl) ->
  Z.of_nat (length sl) = r_ranks t /\
  (forall x, In x sl ->
     shape_ok (nodes s) (Z.to_nat (cps_of t)) (r_gpr t) (r_lfs t) (r_mem t) (hist_of s t) x) /\
  (0 < r_rpn t -> forall n, count_on n sl <= r_rpn t).
Proof.
  intros Hnd (Hg & _) Hrq H.
  destruct (schedule_task_grant _ _ _ _ _ _ _ H) as (st' & k' & En & -> & Er & _).
  assert (Hsh : sh_ok (nodes s) (Z.to_nat (cps_of t)) (r_gpr t) (r_lfs t) (r_mem t) (hist_of s t)
                      (spn_of c t) (r_ranks t) (alc st') (rem st')).
  { refine (node_loop_walk (sh_ok (nodes s) _ _ _ _ (hist_of s t) _ _) (nodes s) _ _ _ _ _ _ _ _ _ _ _ _
              _ _ _ _ _ _ _ _ _ En).
    - intros _ _ _. exact (sh_reset _ _ _ _ _ _ _ _ Hrq).
    - intros nd a r new Esk Hin Hoff Ha Hf Hne. apply (sh_step _ nd); auto.
      intros h Eh. unfold hist_of in Eh. rewrite Eh in Esk. apply negb_false_iff in Esk. exact Esk.
    - exact (walked_start _ _ Hnd).
    - exact (sh_reset _ _ _ _ _ _ _ _ Hrq). }
  destruct Hsh as [[A1 A2] B C]. split; [lia|]. split.
  - exact B.
  - intros Hr n. specialize (C n).
    assert (spn_of c t <= r_rpn t).
    { unfold spn_of. replace (r_rpn t =? 0) with false by (symmetry; apply Z.eqb_neq; lia).
      repeat match goal with |- context [if ?b then _ else _] => destruct b end; lia. }
    lia.
Qed.

Theorem oversize_rejected c s t :
  cpn c < cps_of t \/ 64 * gpn c < r_gpr t \/ lfs_pn c < r_lfs t \/ mem_pn c < r_mem t ->
  exists off, schedule_task c s t = inl (EAssert, off).
Proof.
  intro H. destruct (schedule_task_cases c s t) as [Eo|Eo _|e k Eo _|st k Eo _ _|st k co tg Eo _ _ _]; [eauto|..].
  (* no check failed, so none of the four bounds is exceeded *)
  all: unfold oversize in Eo; fold (cps_of t) in Eo; repeat apply orb_false_iff in Eo as [Eo ?];
    repeat match goal with K : negb _ = false |- _ => apply negb_false_iff, Z.leb_le in K end; lia.
Qed.
