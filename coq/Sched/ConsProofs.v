(* C04: no task is lost and no task is duplicated by the scheduling loop.
   For every uid u and every reachable world:
     (#terminal events for u) + (#entries for u in the wait pools) + (#entries for u in the queue)
       <= #arrivals of u                                             (nothing is duplicated)
   and if u arrived at all, it is in at least one of the three places (nothing is lost).
   Every lemma below is about that one count, operation by operation. *)
From Coq Require Import ZArith List Lia Permutation.
From RP Require Import Sched.Model Sched.Loop Sched.RunProofs.
Import ListNotations.

Definition cz (u : Z) (l : list Z) : Z := Z.of_nat (length (filter (Z.eqb u) l)).

(* a count may fall (pool_insert and pool_remove drop every entry with the uid), but not to zero *)
Definition kept (before after : Z) : Prop := after <= before /\ (0 < before -> 0 < after).

(* a count is a Z.of_nat: unfolded, lia knows it is not negative *)
Ltac cz_lia := unfold kept, cz in *; lia.

Lemma cz_app u a b : cz u (a ++ b) = cz u a + cz u b.
Proof. unfold cz. rewrite filter_app, app_length. lia. Qed.
Lemma cz_nonneg u l : 0 <= cz u l.
Proof. cz_lia. Qed.
Lemma cz_nil u : cz u [] = 0.
Proof. reflexivity. Qed.
Lemma cz_cons u x l : cz u (x :: l) = (if u =? x then 1 else 0) + cz u l.
Proof. unfold cz. cbn [filter]. destruct (u =? x); cbn [length]; lia. Qed.
Lemma cz_pos_in u l : 0 < cz u l <-> In u l.
Proof.
  induction l as [|x l IH]; [unfold cz; simpl; split; [lia|tauto]|].
  rewrite cz_cons. pose proof (cz_nonneg u l). simpl.
  destruct (u =? x) eqn:E.
  - apply Z.eqb_eq in E. subst. split; [auto|lia].
  - apply Z.eqb_neq in E. rewrite Z.add_0_l, IH. split; [auto|intros [K|K]; [congruence|exact K]].
Qed.
Lemma cz_notin u l : ~ In u l -> cz u l = 0.
Proof. rewrite <- cz_pos_in. cz_lia. Qed.
Lemma cz_NoDup u l : NoDup l -> cz u l <= 1.
Proof.
  induction 1 as [|x l Hx _ IH]; [rewrite cz_nil; lia|]. rewrite cz_cons.
  destruct (u =? x) eqn:E; [|lia]. apply Z.eqb_eq in E. subst. rewrite (cz_notin _ _ Hx). lia.
Qed.

Definition ev_uid (e : event) : Z :=
  match e with Started u _ => u | Failed u _ => u | Canceled u => u end.
Definition E (evs : list event) : list Z := map ev_uid evs.
Definition P (wp : list (Z * list req)) : list Z := uids (pool_reqs wp).
Definition Q (q : list qitem) : list Z :=
  concat (map (fun it => match it with QSched l => uids l | QCancel _ => [] end) q).

Lemma E_app a b : E (a ++ b) = E a ++ E b.
Proof. unfold E. apply map_app. Qed.
Lemma uids_app a b : uids (a ++ b) = uids a ++ uids b.
Proof. unfold uids. apply map_app. Qed.
Lemma Q_app a b : Q (a ++ b) = Q a ++ Q b.
Proof. unfold Q. rewrite map_app, concat_app. reflexivity. Qed.
Lemma Q_cancel us : Q [QCancel us] = [].
Proof. reflexivity. Qed.
Lemma P_cons p l r : P ((p, l) :: r) = uids l ++ P r.
Proof. unfold P, pool_reqs. simpl. apply uids_app. Qed.

Lemma cz_uids_cons u t l : cz u (uids (t :: l)) = cz u [r_uid t] + cz u (uids l).
Proof. apply (cz_app u [r_uid t]). Qed.
Lemma cz_uids_snoc u l t : cz u (uids (l ++ [t])) = cz u (uids l) + cz u [r_uid t].
Proof. rewrite uids_app. apply cz_app. Qed.
Lemma cz_E_snoc u evs e : cz u (E (evs ++ [e])) = cz u (E evs) + cz u [ev_uid e].
Proof. rewrite E_app. apply cz_app. Qed.

#[export] Hint Rewrite cz_nil cz_uids_cons cz_uids_snoc cz_E_snoc E_app uids_app Q_app P_cons cz_app : cz.

Lemma filter_split_cz u (f : req -> bool) l :
  cz u (uids (filter f l)) + cz u (uids (filter (fun t => negb (f t)) l)) = cz u (uids l).
Proof.
  induction l as [|x r IH]; cbn [filter]; [reflexivity|].
  destruct (f x); cbn [negb]; autorewrite with cz; lia.
Qed.
Lemma cz_filter_uid u v l :
  cz u (uids (filter (fun x => negb (r_uid x =? v)) l)) = if u =? v then 0 else cz u (uids l).
Proof.
  induction l as [|x l IH]; cbn [filter]; [destruct (u =? v); reflexivity|].
  destruct (Z.eqb_spec (r_uid x) v) as [Ex|Ex]; cbn [negb]; autorewrite with cz; rewrite IH, cz_cons, cz_nil;
    destruct (Z.eqb_spec u v), (Z.eqb_spec u (r_uid x)); congruence || reflexivity.
Qed.

Lemma find_req_cz u l :
  match find_req u l with
  | Some t => r_uid t = u /\ 0 < cz u (uids l)
  | None => cz u (uids l) = 0
  end.
Proof.
  induction l as [|x l IH]; cbn [find_req]; [reflexivity|].
  rewrite cz_uids_cons, cz_cons, cz_nil, (Z.eqb_sym u). destruct (r_uid x =? u) eqn:Ex.
  - split; [apply Z.eqb_eq; exact Ex|cz_lia].
  - destruct (find_req u l); [split; [apply IH|]|]; cz_lia.
Qed.

Lemma P_lookup_store u p l wp :
  cz u (P (zstore p l wp)) = cz u (P wp) - cz u (uids (lk p wp)) + cz u (uids l).
Proof.
  unfold lk. induction wp as [|[k v] r IH]; cbn [zstore zlookup].
  - autorewrite with cz. lia.
  - destruct (k =? p); autorewrite with cz; [lia|]. rewrite IH. lia.
Qed.

Lemma P_lookup_le u p wp : cz u (uids (lk p wp)) <= cz u (P wp).
Proof.
  unfold lk. induction wp as [|[k v] r IH]; cbn [zlookup]; [reflexivity|].
  autorewrite with cz. destruct (k =? p); cz_lia.
Qed.

Lemma pool_remove_cz u : forall wp o wp',
  pool_remove u wp = (o, wp') ->
  (forall v, v <> u -> cz v (P wp') = cz v (P wp)) /\
  match o with Some _ => cz u (P wp') < cz u (P wp) | None => cz u (P wp) = 0 end.
Proof.
  induction wp as [|[p l] r IH]; intros o wp' Er; cbn [pool_remove] in Er.
  - injection Er as <- <-. split; reflexivity.
  - pose proof (find_req_cz u l) as Hf. destruct (find_req u l) as [t|].
    + injection Er as <- <-. split.
      * intros v Hv. autorewrite with cz. rewrite cz_filter_uid, (proj2 (Z.eqb_neq _ _) Hv). reflexivity.
      * autorewrite with cz. rewrite cz_filter_uid, Z.eqb_refl. lia.
    + destruct (pool_remove u r) as [o' r'] eqn:E2. injection Er as <- <-.
      destruct (IH _ _ eq_refl) as [A B]. split.
      * intros v Hv. autorewrite with cz. rewrite (A v Hv). reflexivity.
      * destruct o'; autorewrite with cz; lia.
Qed.

Lemma cancel_uids_cz v : forall us wp evs wp' evs',
  cancel_uids us wp evs = (wp', evs') ->
  kept (cz v (E evs) + cz v (P wp)) (cz v (E evs') + cz v (P wp')) /\
  cz v (P wp') <= cz v (P wp) /\
  (In v us -> cz v (P wp) <= 1 -> cz v (P wp') = 0).
Proof.
  induction us as [|u r IH]; intros wp evs wp' evs' Ec; cbn [cancel_uids] in Ec.
  - injection Ec as <- <-. split; [cz_lia|]. split; [lia|intros []].
  - destruct (pool_remove u wp) as [[t|] wp1] eqn:Er;
      destruct (pool_remove_cz _ _ _ _ Er) as [A B]; destruct (IH _ _ _ _ Ec) as (K & M & G).
    + rewrite cz_E_snoc, cz_cons, cz_nil in K. cbn [ev_uid] in K.
      destruct (Z.eq_dec v u) as [->|Hne].
      * rewrite Z.eqb_refl in K. split; [cz_lia|]. split; [cz_lia|]. intros _ Hle. cz_lia.
      * rewrite (A v Hne) in K, M, G. rewrite (proj2 (Z.eqb_neq v u) Hne) in K.
        split; [cz_lia|]. split; [exact M|]. intros [->|Hin]; [contradiction|exact (G Hin)].
    + split; [exact K|]. split; [exact M|]. intros [->|Hin] Hle; [cz_lia|exact (G Hin Hle)].
Qed.

Lemma P_bucket_add u p t bk : cz u (P (bucket_add p t bk)) = cz u (P bk) + cz u [r_uid t].
Proof.
  induction bk as [|[k l] r IH]; cbn [bucket_add].
  - autorewrite with cz. lia.
  - destruct (k =? p); autorewrite with cz; [|rewrite IH]; lia.
Qed.

Lemma drain_cz u q wp bk evs wp' bk' evs' :
  drain q wp bk evs = (wp', bk', evs') ->
  kept (cz u (E evs) + cz u (P wp) + cz u (P bk) + cz u (Q q)) (cz u (E evs') + cz u (P wp') + cz u (P bk')).
Proof.
  intro H.
  assert (K : kept (cz u (E evs) + cz u (P wp) + cz u (P bk) + cz u (Q q))
                   (cz u (E evs') + cz u (P wp') + cz u (P bk') + cz u (Q [])));
    [|change (Q []) with (@nil Z) in K; rewrite cz_nil in K; cz_lia].
  revert H. apply (drain_inv (fun wp0 bk0 e0 q0 => kept (cz u (E evs) + cz u (P wp) + cz u (P bk) + cz u (Q q))
                                                       (cz u (E e0) + cz u (P wp0) + cz u (P bk0) + cz u (Q q0))));
    [| | |auto|cz_lia].
  - intros us wp0 bk0 e0 q0 wp1 e1 Ec K. destruct (cancel_uids_cz u _ _ _ _ _ Ec) as [C _].
    change (Q (QCancel us :: q0)) with (Q q0) in K. cz_lia.
  - intros t ts wp0 bk0 e0 q0 _ K.
    change (Q (QSched (t :: ts) :: q0)) with ([r_uid t] ++ Q (QSched ts :: q0)) in K.
    rewrite cz_app in K. rewrite cz_E_snoc. cbn [ev_uid]. cz_lia.
  - intros t ts wp0 bk0 e0 q0 _ K.
    change (Q (QSched (t :: ts) :: q0)) with ([r_uid t] ++ Q (QSched ts :: q0)) in K.
    rewrite cz_app in K. rewrite P_bucket_add. cz_lia.
Qed.

Lemma place_tasks_cz u c : forall ts s to_wait evs s' tw' evs',
  place_tasks c s ts to_wait evs = (s', tw', evs') ->
  cz u (E evs') + cz u (uids tw') = cz u (E evs) + cz u (uids to_wait) + cz u (uids ts).
Proof.
  induction ts as [|t r IH]; intros s to_wait evs s' tw' evs' H; cbn [place_tasks] in H.
  - injection H as _ <- <-. change (uids []) with (@nil Z). rewrite cz_nil. lia.
  - rewrite cz_uids_cons.
    destruct (negb (env_ok s t)); [rewrite (IH _ _ _ _ _ _ H), cz_uids_snoc; lia|].
    destruct (r_slots t) as [[|sl0 sls]|].
    1,3: destruct (try_allocation c s t) as [s1 []];
         rewrite (IH _ _ _ _ _ _ H), ?cz_E_snoc, ?cz_uids_snoc; cbn [ev_uid]; lia.
    destruct (negb (forallb (slot_known (nodes s)) (sl0 :: sls)));
      rewrite (IH _ _ _ _ _ _ H), cz_E_snoc; cbn [ev_uid]; lia.
Qed.

Lemma pool_insert_cz u p : forall ts wp cl evs wp' cl' evs',
  pool_insert p ts wp cl evs = (wp', cl', evs') ->
  kept (cz u (E evs) + cz u (P wp) + cz u (uids ts)) (cz u (E evs') + cz u (P wp')).
Proof.
  induction ts as [|t r IH]; intros wp cl evs wp' cl' evs' H; cbn [pool_insert] in H.
  - injection H as <- _ <-. change (uids []) with (@nil Z). rewrite cz_nil. cz_lia.
  - fold (lk p wp) in H.
    pose proof (cz_filter_uid u (r_uid t) (lk p wp)) as Hne.
    pose proof (P_lookup_le u p wp) as Hcur.
    rewrite cz_uids_cons.
    (* the entries with t's uid leave t's pool, nobody else's do (Hne); t itself becomes one CANCELED
       event or one entry of the pool *)
    destruct (zmem (r_uid t) cl); specialize (IH _ _ _ _ _ _ H);
      rewrite P_lookup_store, ?cz_E_snoc, ?cz_uids_snoc in IH; cbn [ev_uid] in IH;
      rewrite cz_cons, cz_nil in *;
      (destruct (Z.eq_dec u (r_uid t)) as [->|Hn];
       [rewrite Z.eqb_refl in *|rewrite (proj2 (Z.eqb_neq _ _) Hn) in *]); cz_lia.
Qed.

Lemma bisect_replay_cz u c pool : forall evs s s' good bad fail,
  bisect_replay c s pool evs = Some (s', good, bad, fail) ->
  cz u (uids (map fst good)) + cz u (uids bad) + cz u (uids (map fst fail)) = cz u (map fst evs).
Proof.
  induction evs as [|[v chk] r IH]; intros s s' good bad fail H; cbn [bisect_replay] in H.
  - injection H as _ <- <- <-. reflexivity.
  - pose proof (find_req_cz v pool) as Hu. destruct (find_req v pool) as [t|]; [|discriminate].
    destruct Hu as [<- _]. change (map fst ((r_uid t, chk) :: r)) with ([r_uid t] ++ map fst r). rewrite cz_app.
    destruct chk.
    + destruct (try_allocation c s t) as [s1 res].
      destruct (bisect_replay c s1 pool r) as [[[[s2 g2] b2] f2]|] eqn:Er; [|discriminate].
      specialize (IH _ _ _ _ _ Er).
      destruct res; injection H as _ <- <- <-; cbn [map fst]; rewrite cz_uids_cons; lia.
    + destruct (bisect_replay c s pool r) as [[[[s2 g2] b2] f2]|] eqn:Er; [|discriminate].
      specialize (IH _ _ _ _ _ Er). injection H as _ <- <- <-. rewrite cz_uids_cons. lia.
Qed.

Lemma same_set_cz a b : same_set a b = true -> forall u, cz u a = cz u b.
Proof.
  unfold same_set. intros H u. rewrite forallb_forall in H.
  destruct (in_dec Z.eq_dec u (a ++ b)) as [Hin|Hn].
  - specialize (H u Hin). apply Nat.eqb_eq in H. unfold zcount in H. unfold cz. lia.
  - rewrite in_app_iff in Hn. rewrite !cz_notin; tauto.
Qed.

Lemma cz_perm u a b : Permutation a b -> cz u a = cz u b.
Proof. induction 1; rewrite ?cz_cons; lia. Qed.

Lemma sort_desc_cz (key : req -> Z) u l : cz u (uids (sort_desc key l)) = cz u (uids l).
Proof. apply cz_perm, Permutation_map, sort_desc_perm. Qed.

Lemma E_map_fst {B} (f : req * B -> event) l :
  (forall x, ev_uid (f x) = r_uid (fst x)) -> E (map f l) = uids (map fst l).
Proof. intro H. unfold E, uids. rewrite !map_map. apply map_ext, H. Qed.

Lemma waitpool_loop_cz u c prios s strat res act evs s' strat' res' act' evs' :
  waitpool_loop c s prios strat res act evs = Some (s', strat', res', act', evs') ->
  cz u (E evs') + cz u (P (waitpool s')) = cz u (E evs) + cz u (P (waitpool s)).
Proof.
  apply (waitpool_loop_inv c (fun s1 e1 => cz u (E e1) + cz u (P (waitpool s1)) = cz u (E evs) + cz u (P (waitpool s))));
    [|reflexivity].
  intros s0 e0 p sv s1 good bad fail pool to_test <- Ess Eb.
  destruct (bisect_replay_frame _ _ _ _ _ _ _ _ Eb) as [Hf _].
  pose proof (bisect_replay_cz u _ _ _ _ _ _ _ _ Eb) as Hb. rewrite (same_set_cz _ _ Ess u) in Hb.
  unfold to_test in Hb. rewrite sort_desc_cz in Hb.
  pose proof (filter_split_cz u (env_ok s0) pool) as Hs. pose proof (P_lookup_le u p (waitpool s0)) as Hle.
  unfold set_pool. cbn [waitpool].
  rewrite P_lookup_store, Hf, !E_app, !cz_app, !E_map_fst, uids_app, cz_app by reflexivity. fold pool. lia.
Qed.

(* what the pass over the buckets still has ahead *)
Definition sumf (bk : list (Z * list req)) (u : Z) (ps : list Z) : Z :=
  fold_right (fun p a => cz u (uids (lk p bk)) + a) 0 ps.

Lemma sumf_nonneg bk u ps : 0 <= sumf bk u ps.
Proof. induction ps as [|p r IH]; cbn [sumf fold_right]; [lia|]. fold (sumf bk u r). cz_lia. Qed.

Lemma incoming_prios_cz u c bk : forall ps s lw evs s' lw' evs',
  incoming_prios c s bk ps lw evs = (s', lw', evs') ->
  kept (cz u (E evs) + cz u (P (waitpool s)) + sumf bk u ps) (cz u (E evs') + cz u (P (waitpool s'))).
Proof.
  induction ps as [|p r IH]; intros s lw evs s' lw' evs' H; cbn [incoming_prios] in H.
  - injection H as <- _ <-. unfold sumf. simpl. cz_lia.
  - fold (lk p bk) in H.
    destruct (place_tasks c s (sort_desc r_ranks (lk p bk)) [] evs) as [[s1 to_wait] evs1] eqn:Ep.
    pose proof (place_tasks_cz u _ _ _ _ _ _ _ _ Ep) as Hp. destruct (place_tasks_frame _ _ _ _ _ _ _ _ Ep) as [F1 _].
    change (uids []) with (@nil Z) in Hp. rewrite cz_nil, sort_desc_cz in Hp.
    destruct (pool_insert p to_wait (waitpool s1) (cancel_list s1) evs1) as [[wp cl] evs2] eqn:Ei.
    pose proof (pool_insert_cz u _ _ _ _ _ _ _ _ Ei) as Hi. rewrite F1 in Hi.
    specialize (IH _ _ _ _ _ _ H). cbn [waitpool] in IH.
    change (sumf bk u (p :: r)) with (cz u (uids (lk p bk)) + sumf bk u r). pose proof (sumf_nonneg bk u r). cz_lia.
Qed.

Lemma zlookup_cons_other {A} k p (l : A) r : k <> p -> zlookup p ((k, l) :: r) = zlookup p r.
Proof. intro H. simpl. destruct (k =? p) eqn:E1; [apply Z.eqb_eq in E1; congruence|reflexivity]. Qed.

(* buckets have unique keys, so summing over the keys counts every bucket once *)
Lemma sumf_keys bk u : NoDup (map fst bk) -> sumf bk u (map fst bk) = cz u (P bk).
Proof.
  induction bk as [|[k l] r IH]; intro Hn; [reflexivity|].
  inversion Hn as [|? ? Hk Hr]; subst. rewrite P_cons, cz_app. unfold sumf. cbn [map fst fold_right].
  unfold lk at 1. simpl. rewrite Z.eqb_refl. f_equal.
  rewrite <- (IH Hr). unfold sumf.
  assert (Hx : forall ps, (forall p, In p ps -> p <> k) ->
            fold_right (fun p a => cz u (uids (lk p ((k, l) :: r))) + a) 0 ps =
            fold_right (fun p a => cz u (uids (lk p r)) + a) 0 ps).
  { induction ps as [|p ps IHp]; intro Hp; [reflexivity|]. cbn [fold_right].
    rewrite IHp by (intros q Hq; apply Hp; right; exact Hq).
    unfold lk. rewrite zlookup_cons_other by (intro K; apply (Hp p (or_introl eq_refl)); auto). reflexivity. }
  apply Hx. intros p Hp K. subst. contradiction.
Qed.

Lemma sumf_perm bk u a b : Permutation a b -> sumf bk u a = sumf bk u b.
Proof. unfold sumf. induction 1; cbn [fold_right]; lia. Qed.

Lemma bucket_add_keys p t : forall bk, NoDup (map fst bk) -> NoDup (map fst (bucket_add p t bk)).
Proof.
  induction bk as [|[k l] r IH]; simpl; intro H; [constructor; [intros []|constructor]|].
  inversion H as [|? ? Hk Hr]; subst. destruct (k =? p) eqn:E1; simpl; [exact H|].
  constructor; [|apply IH; exact Hr].
  intro K. apply Hk. clear -K E1. induction r as [|[k' l'] r IHr]; simpl in *; [destruct K as [K|[]]; apply Z.eqb_neq in E1; congruence|].
  destruct (k' =? p); simpl in *; [exact K|]. destruct K as [K|K]; [left; exact K|right; auto].
Qed.

Lemma drain_keys q wp bk evs wp' bk' evs' :
  drain q wp bk evs = (wp', bk', evs') -> NoDup (map fst bk) -> NoDup (map fst bk').
Proof.
  intros H Hn. revert H. apply (drain_inv (fun _ bk0 _ _ => NoDup (map fst bk0))); auto.
  intros t ts wp0 bk0 e0 q0 _. apply bucket_add_keys.
Qed.

Theorem iterate_cz u c s q unq strat s' evs :
  iterate c s q unq strat = Some (s', evs) ->
  kept (cz u (P (waitpool s)) + cz u (Q q)) (cz u (E evs) + cz u (P (waitpool s'))).
Proof.
  unfold iterate. intro H.
  destruct (iterate_pre c s q strat) as [[[[s2 rw] ri] e]|] eqn:Ep; [|discriminate]. injection H as <- <-.
  destruct (iterate_pre_phases _ _ _ _ _ _ _ _ Ep) as (s1 & a1 & e1 & wp & bk & e2 & lw & e3 & Ew & Ed & Ei & ->).
  pose proof (waitpool_loop_cz u _ _ _ _ _ _ _ _ _ _ _ _ Ew) as Hw.
  pose proof (drain_cz u _ _ _ _ _ _ _ Ed) as Hd.
  assert (Hk : NoDup (map fst bk)) by (eapply drain_keys; [exact Ed|constructor]).
  pose proof (incoming_prios_cz u _ _ _ _ _ _ _ _ _ Ei) as A. unfold set_pool in A. cbn [waitpool] in A.
  rewrite (sumf_perm _ _ (prios_desc bk) _ (sort_desc_perm _ _)), (sumf_keys _ _ Hk) in A.
  change (E []) with (@nil Z) in Hw, Hd. change (P []) with (@nil Z) in Hd. rewrite !cz_nil in *.
  unfold set_res. cbn [waitpool]. rewrite (proj1 (unschedule_frame _ _)), E_app, cz_app. cz_lia.
Qed.

Lemma intake_cz u : forall ts cl evs keep cl' evs',
  intake ts cl evs = (keep, cl', evs') ->
  cz u (E evs') + cz u (uids keep) = cz u (E evs) + cz u (uids ts).
Proof.
  induction ts as [|t r IH]; intros cl evs keep cl' evs' H; cbn [intake] in H.
  - injection H as <- _ <-. reflexivity.
  - destruct (zmem (r_uid t) cl).
    + rewrite (IH _ _ _ _ _ H), cz_E_snoc, cz_uids_cons. cbn [ev_uid]. lia.
    + destruct (intake r cl evs) as [[k c0] e0] eqn:Ei. injection H as <- _ <-.
      specialize (IH _ _ _ _ _ Ei). rewrite !cz_uids_cons. lia.
Qed.

Definition arrivals (ops : list op) : list Z :=
  concat (map (fun o => match o with Arrive l => uids l | _ => [] end) ops).
Definition total (u : Z) (w : world) : Z :=
  cz u (E (log w)) + cz u (P (waitpool (st w))) + cz u (Q (q_sched w)).
Definition present (u : Z) (w : world) : Prop :=
  In u (E (log w)) \/ In u (P (waitpool (st w))) \/ In u (Q (q_sched w)).

Lemma present_total u w : present u w <-> 0 < total u w.
Proof. unfold present, total. rewrite <- !cz_pos_in. cz_lia. Qed.

Lemma arrivals_cons o r : arrivals (o :: r) = arrivals [o] ++ arrivals r.
Proof. unfold arrivals. simpl. rewrite app_nil_r. reflexivity. Qed.

Theorem step_cz u c w o w' :
  step c w o = Some w' -> kept (total u w + cz u (arrivals [o])) (total u w').
Proof.
  intro H. unfold total. destruct o as [ts|us|us|e|strat|us|us]; cbn [step] in H.
  2-4,6-7: injection H as <-; unfold arrivals, set_cl; cbn [map concat app log st q_sched waitpool];
           rewrite ?Q_app, ?cz_app, ?Q_cancel, !cz_nil; cz_lia.
  - destruct (intake ts (cancel_list (st w)) []) as [[keep cl] evs] eqn:Ei. injection H as <-.
    pose proof (intake_cz u _ _ _ _ _ _ Ei) as Hi. change (E []) with (@nil Z) in Hi. rewrite cz_nil in Hi.
    unfold arrivals, set_cl. cbn [map concat log st q_sched waitpool]. rewrite app_nil_r, E_app, Q_app, !cz_app.
    change (Q [QSched keep]) with (uids keep ++ []). rewrite app_nil_r. cz_lia.
  - destruct (iterate c (st w) (q_sched w) (q_unsched w) strat) as [[s' evs]|] eqn:Eit; [|discriminate].
    injection H as <-. pose proof (iterate_cz u _ _ _ _ _ _ _ Eit) as A.
    unfold arrivals. cbn [map concat app log st q_sched]. change (Q []) with (@nil Z).
    rewrite E_app, !cz_app, !cz_nil. cz_lia.
Qed.

Theorem run_cz u c : forall ops w w',
  run c w ops = Some w' -> kept (total u w + cz u (arrivals ops)) (total u w').
Proof.
  induction ops as [|o r IH]; intros w w' H; cbn [run] in H.
  - injection H as <-. change (arrivals []) with (@nil Z). rewrite cz_nil. cz_lia.
  - destruct (step c w o) as [w1|] eqn:Es; [|discriminate].
    pose proof (step_cz u _ _ _ _ Es). specialize (IH _ _ H). rewrite arrivals_cons, cz_app.
    unfold total in *. cz_lia.
Qed.

Theorem no_loss_no_duplication c ns0 ops w' u :
  run c (init_world ns0) ops = Some w' ->
  total u w' <= cz u (arrivals ops) /\ (In u (arrivals ops) -> present u w').
Proof.
  intro H. pose proof (run_cz u c ops _ _ H) as K. change (total u (init_world ns0)) with 0 in K.
  rewrite present_total, <- cz_pos_in. cz_lia.
Qed.

(* with unique uids every arrived task is in EXACTLY one place, with
   multiplicity one: started / failed / canceled (one terminal event), or
   waiting in a pool, or still in the queue *)
Corollary exactly_one_place c ns0 ops w' u :
  run c (init_world ns0) ops = Some w' -> NoDup (arrivals ops) -> In u (arrivals ops) ->
  total u w' = 1.
Proof.
  intros H Hn Hin. destruct (no_loss_no_duplication c ns0 ops w' u H) as [A Bp].
  apply Bp, present_total in Hin. pose proof (cz_NoDup u _ Hn). lia.
Qed.
