(* C08, scheduler side: what a cancel request does to waiting and arriving tasks. *)
From Coq Require Import ZArith List Lia.
From RP Require Import Sched.Model Sched.Loop Sched.RunProofs Sched.ConsProofs.

Theorem intake_spec : forall ts cl evs keep cl' evs',
  intake ts cl evs = (keep, cl', evs') ->
  (forall t, In t keep -> In t ts) /\
  (forall t, In t ts -> ~ In (r_uid t) cl -> In t keep) /\
  (forall e, In e evs' -> In e evs \/ exists t, In t ts /\ In (r_uid t) cl /\ e = Canceled (r_uid t)).
Proof.
  induction ts as [|t r IH]; intros cl evs keep cl' evs' E; cbn [intake] in E.
  - injection E as <- _ <-. repeat split; auto; intros t0 [].
  - destruct (zmem (r_uid t) cl) eqn:Ez.
    + apply zmem_in in Ez. destruct (IH _ _ _ _ _ E) as (A & B & C). split; [|split].
      * intros x Hx. right. apply A, Hx.
      * intros x [<-|Hx] Hn; [contradiction|]. apply B; [exact Hx|].
        intro K. apply Hn. eapply in_remove_one. exact K.
      * intros e He. destruct (C e He) as [K|(x & X1 & X2 & ->)].
        -- apply in_app_iff in K as [K|[<-|[]]]; [left; exact K|].
           right. exists t. split; [left; reflexivity|]. split; [exact Ez|reflexivity].
        -- right. exists x. split; [right; exact X1|]. split; [eapply in_remove_one; exact X2|reflexivity].
    + destruct (intake r cl evs) as [[k c0] e0] eqn:Ei. injection E as <- <- <-.
      destruct (IH _ _ _ _ _ Ei) as (A & B & C). split; [|split].
      * intros x [<-|Hx]; [left; reflexivity|right; apply A, Hx].
      * intros x [<-|Hx] Hn; [left; reflexivity|right; apply B; assumption].
      * intros e He. destruct (C e He) as [K|(x & X1 & X2 & ->)]; [left; exact K|].
        right. exists x. split; [right; exact X1|auto].
Qed.

Theorem intake_named_not_kept : forall ts cl evs keep cl' evs' t,
  intake ts cl evs = (keep, cl', evs') -> NoDup (map r_uid ts) ->
  In t ts -> In (r_uid t) cl -> ~ In t keep.
Proof.
  induction ts as [|x r IH]; intros cl evs keep cl' evs' t E Hnd Hin Hcl; [destruct Hin|].
  cbn [intake] in E. inversion Hnd as [|? ? Hx Hr]; subst.
  destruct (zmem (r_uid x) cl) eqn:Ez.
  - destruct Hin as [->|Hin].
    + intro K. apply Hx, in_map. exact (proj1 (intake_spec _ _ _ _ _ _ E) t K).
    + eapply IH; eauto.
      (* the uid of t is still listed after x's uid was taken off: the two differ *)
      apply in_remove_one_other; [exact Hcl|]. intro K. apply Hx. rewrite <- K. apply in_map, Hin.
  - destruct (intake r cl evs) as [[k c0] e0] eqn:Ei. injection E as <- _ _.
    destruct Hin as [->|Hin].
    + apply zmem_in in Hcl. congruence.
    + intros [->|K]; [apply Hx, in_map, Hin|]. revert K. eapply IH; eauto.
Qed.

Theorem cancel_named_event : forall us wp evs wp' evs' u,
  cancel_uids us wp evs = (wp', evs') -> In u us -> In u (uids (pool_reqs wp)) -> In (Canceled u) evs'.
Proof.
  induction us as [|v r IH]; intros wp evs wp' evs' u E Hin Hw; [destruct Hin|]. cbn [cancel_uids] in E.
  pose proof (proj2 (cz_pos_in u (P wp)) Hw) as Hc.
  destruct (pool_remove v wp) as [[x|] wp1] eqn:Er; destruct (pool_remove_cz _ _ _ _ Er) as [A B].
  - destruct (Z.eq_dec u v) as [->|Hne].
    + destruct (cancel_uids_evs _ _ _ _ _ E) as [d ->]. rewrite !in_app_iff. simpl. auto.
    + destruct Hin as [->|Hin]; [congruence|]. eapply IH; [exact E|exact Hin|].
      apply (cz_pos_in u (P wp1)). rewrite (A u Hne). exact Hc.
  - (* v was not waiting, so v is not u *)
    destruct Hin as [->|Hin]; [lia|]. eapply IH; eauto.
Qed.

(* the post-insert check: a task that must wait but was named meanwhile is
   canceled instead of being parked *)
Theorem pool_insert_named p : forall ts wp cl evs wp' cl' evs' t,
  pool_insert p ts wp cl evs = (wp', cl', evs') -> In t ts -> In (r_uid t) cl -> In (Canceled (r_uid t)) evs'.
Proof.
  induction ts as [|x r IH]; intros wp cl evs wp' cl' evs' t E Hin Hcl; [destruct Hin|].
  cbn [pool_insert] in E. destruct (zmem (r_uid x) cl) eqn:Ez.
  - destruct (Z.eq_dec (r_uid x) (r_uid t)) as [Heq|Hne].
    + destruct (pool_insert_evs _ _ _ _ _ _ _ _ E) as [d ->]. rewrite Heq, !in_app_iff. simpl. auto.
    + destruct Hin as [->|Hin]; [congruence|]. eapply IH; [exact E|exact Hin|].
      apply in_remove_one_other; [exact Hcl|congruence].
  - destruct Hin as [->|Hin]; [apply zmem_in in Hcl; congruence|]. eapply IH; eauto.
Qed.
