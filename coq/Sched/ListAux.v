(* Index lists as the scans of _find_resources produce them: increasing from a lower bound, below where the scan
   stopped. *)
From Coq Require Import List Lia.
Import ListNotations.

Fixpoint incr_from (lo : nat) (r : list nat) : Prop :=
  match r with [] => True | x :: r' => lo <= x /\ incr_from (S x) r' end.

Lemma incr_from_weaken r : forall lo lo', lo' <= lo -> incr_from lo r -> incr_from lo' r.
Proof. destruct r as [|x r]; simpl; intros lo lo' H Hi; [exact I|]. destruct Hi; split; [lia|assumption]. Qed.

Lemma incr_from_ge r : forall lo x, incr_from lo r -> In x r -> lo <= x.
Proof.
  induction r as [|y r IH]; simpl; intros lo x Hi Hin; [contradiction|].
  destruct Hi as [H1 H2]. destruct Hin as [->|Hin]; [exact H1|].
  specialize (IH _ _ H2 Hin). lia.
Qed.

Lemma incr_from_NoDup r : forall lo, incr_from lo r -> NoDup r.
Proof.
  induction r as [|y r IH]; simpl; intros lo Hi; [constructor|].
  destruct Hi as [H1 H2]. constructor; [|eapply IH; exact H2].
  intro Hin. pose proof (incr_from_ge _ _ _ H2 Hin). lia.
Qed.

Definition all_lt (hi : nat) (r : list nat) : Prop := forall x, In x r -> x < hi.

Lemma incr_from_app a : forall lo mid b,
  lo <= mid -> incr_from lo a -> all_lt mid a -> incr_from mid b -> incr_from lo (a ++ b).
Proof.
  induction a as [|x a IH]; simpl; intros lo mid b Hle Ha Hlt Hb.
  - eapply incr_from_weaken; eassumption.
  - destruct Ha as [H1 H2]. split; [exact H1|].
    apply (IH (S x) mid b); auto.
    + assert (x < mid) by (apply Hlt; left; reflexivity). lia.
    + intros y Hy. apply Hlt. right; exact Hy.
Qed.

Fixpoint set_nth' {A} (i : nat) (v : A) (l : list A) : list A :=
  match l, i with
  | [], _ => []
  | _ :: r, O => v :: r
  | x :: r, S k => x :: set_nth' k v r
  end.

(* a scan over the suffix of l from position k meets l's entry k and goes on with the suffix from k + 1 *)
Lemma skipn_cons_inv {A} (l : list A) : forall k x r, skipn k l = x :: r -> nth_error l k = Some x /\ skipn (S k) l = r.
Proof.
  induction l as [|y l IH]; intros [|k] x r H; try discriminate H.
  - injection H as -> ->. auto.
  - apply IH, H.
Qed.

Lemma skipn_head {A} (d : A) (l : list A) : forall k, match skipn k l with [] => d | x :: _ => x end = nth k l d.
Proof. induction l as [|y l IH]; intros [|k]; simpl; auto. Qed.

Lemma tl_skipn {A} (l : list A) : forall k, tl (skipn k l) = skipn (S k) l.
Proof. induction l as [|y l IH]; intros [|k]; try reflexivity. apply IH. Qed.
