(* C04: bookkeeping facts of the scheduling loop. *)
From Coq Require Import ZArith List Bool Lia Sorted Permutation.
From RP Require Import Sched.Model Sched.Loop Sched.FindProofs Sched.RunProofs.
Import ListNotations.

Lemma insert_desc_sorted (x : Z) l :
  StronglySorted (fun a b => b <= a) l -> StronglySorted (fun a b => b <= a) (insert_desc (fun p => p) x l).
Proof.
  induction l as [|y r IH]; simpl; intro H.
  - constructor; [constructor|constructor].
  - inversion H as [|? ? Hr Hy]; subst.
    destruct (y <=? x) eqn:E.
    + apply Z.leb_le in E. constructor; [exact H|].
      constructor; [exact E|]. rewrite Forall_forall in *. intros z Hz. specialize (Hy z Hz). lia.
    + apply Z.leb_gt in E. constructor; [apply IH; exact Hr|].
      rewrite Forall_forall in *. intros z Hz. apply (Permutation_in _ (insert_desc_perm _ x r)) in Hz as [<-|Hz]; [lia|auto].
Qed.

Theorem prios_desc_sorted (wp : list (Z * list req)) :
  StronglySorted (fun a b => b <= a) (prios_desc wp).
Proof.
  unfold prios_desc, sort_desc. induction (map fst wp) as [|x r IH]; simpl; [constructor|].
  apply insert_desc_sorted. exact IH.
Qed.

Theorem prios_desc_complete (wp : list (Z * list req)) p : In p (prios_desc wp) <-> In p (map fst wp).
Proof. unfold prios_desc. apply sort_desc_in. Qed.

Lemma pool_remove_others u : forall wp o wp' t,
  pool_remove u wp = (o, wp') -> r_uid t <> u ->
  (In t (pool_reqs wp) <-> In t (pool_reqs wp')).
Proof.
  unfold pool_reqs. induction wp as [|[p l] r IH]; intros o wp' t E Hne; simpl in E.
  - injection E as _ <-. tauto.
  - destruct (find_req u l).
    + injection E as _ <-. simpl. rewrite !in_app_iff, filter_In.
      assert (negb (r_uid t =? u) = true) by (apply negb_true_iff, Z.eqb_neq; exact Hne). tauto.
    + destruct (pool_remove u r) as [o' r'] eqn:Er. injection E as _ <-. simpl.
      rewrite !in_app_iff. rewrite (IH _ _ t eq_refl Hne). tauto.
Qed.

Theorem cancel_only_named : forall us wp evs wp' evs' t,
  cancel_uids us wp evs = (wp', evs') -> ~ In (r_uid t) us ->
  (In t (pool_reqs wp) <-> In t (pool_reqs wp')).
Proof.
  induction us as [|u r IH]; intros wp evs wp' evs' t E Hn; simpl in E.
  - injection E as <- _. tauto.
  - assert (Hne : r_uid t <> u) by (intro K; apply Hn; left; auto).
    assert (Hn' : ~ In (r_uid t) r) by (intro K; apply Hn; right; exact K).
    destruct (pool_remove u wp) as [[x|] wp1] eqn:Er.
    + rewrite (pool_remove_others _ _ _ _ t Er Hne). eapply IH; eauto.
    + eapply IH; eauto.
Qed.

Theorem cancel_events_named : forall us wp evs wp' evs' e,
  cancel_uids us wp evs = (wp', evs') -> In e evs' -> In e evs \/ exists u, In u us /\ e = Canceled u.
Proof.
  induction us as [|u r IH]; intros wp evs wp' evs' e E He; simpl in E.
  - injection E as _ <-. auto.
  - destruct (pool_remove u wp) as [[x|] wp1] eqn:Er.
    + destruct (IH _ _ _ _ _ E He) as [K|(v & Hv & ->)].
      * apply in_app_iff in K as [K|[<-|[]]]; [auto|]. right. exists u. split; [left|]; reflexivity.
      * right. exists v. split; [right; exact Hv|reflexivity].
    + destruct (IH _ _ _ _ _ E He) as [K|(v & Hv & ->)]; [auto|].
      right. exists v. split; [right; exact Hv|reflexivity].
Qed.

Lemma find_one_err nd cps g lfs mem ci gi lu mu gu e :
  find_one nd cps g lfs mem ci gi lu mu gu = OneErr e -> e = EValue.
Proof.
  unfold find_one.
  destruct ((n_lfs nd - lu <? lfs) || (n_mem nd - mu <? mem)); [discriminate|].
  destruct (take_free (skipn ci (n_cores nd)) ci cps) as [cores ci'].
  destruct (length cores <? cps)%nat; [discriminate|].
  destruct (64 <=? g).
  - destruct (negb (g mod 64 =? 0)); [intro H; injection H as <-; reflexivity|].
    destruct (take_free (skipn gi (n_gpus nd)) gi (Z.to_nat (g / 64))) as [gp gi'].
    destruct (length gp <? Z.to_nat (g / 64))%nat; discriminate.
  - destruct (0 <? g); [|discriminate].
    destruct (take_share (skipn gi (n_gpus nd)) (skipn gi gu) gi g) as [[k|] gi']; discriminate.
Qed.

Lemma find_loop_err nd cps g lfs mem : forall n ci gi lu mu gu e,
  find_loop nd n cps g lfs mem ci gi lu mu gu = inl e -> e = EValue.
Proof.
  induction n as [|n IH]; intros ci gi lu mu gu e H; cbn [find_loop] in H; [discriminate|].
  destruct (find_one nd cps g lfs mem ci gi lu mu gu) as [e1| |s1 ci' gi' gu'] eqn:E1.
  - injection H as <-. eapply find_one_err; eauto.
  - discriminate.
  - destruct (find_loop nd n cps g lfs mem ci' gi' (lu + lfs) (mu + mem) gu') as [e2|r] eqn:E2; [|discriminate].
    injection H as <-. eapply IH; eauto.
Qed.

Lemma find_resources_err nd n cps g lfs mem partial e :
  find_resources nd n cps g lfs mem partial = inl e -> e = EValue.
Proof.
  unfold find_resources.
  destruct (find_loop nd n cps g lfs mem 0 0 0 0 (map (fun _ => 0) (n_gpus nd))) as [e1|sl] eqn:El.
  - intro H. injection H as <-. eapply find_loop_err; eauto.
  - destruct (negb partial && (length sl <? n)%nat); discriminate.
Qed.

Lemma node_loop_err c hist ne tg nn mpi spn rq cps g lfs mem : forall visit k st e k',
  node_loop c hist ne tg nn mpi spn rq cps g lfs mem visit k st = inl (e, k') -> e = EValue.
Proof.
  induction visit as [|nd0 rest IH]; intros k st e k' H; cbn [node_loop] in H; [discriminate|].
  match type of H with (if ?b then _ else _) = _ => destruct b end; [eapply IH; eauto|].
  match type of H with
  | match find_resources ?a ?b ?cc ?d ?e0 ?f ?pp with _ => _ end = _ =>
      destruct (find_resources a b cc d e0 f pp) as [e1|r] eqn:Ef
  end.
  - injection H as <- _. eapply find_resources_err; eauto.
  - destruct r as [[|s0 new]|].
    + eapply IH; eauto.
    + match type of H with (if ?b then _ else _) = _ => destruct b end; [discriminate|eapply IH; eauto].
    + eapply IH; eauto.
Qed.

Lemma schedule_task_err c s t e off :
  schedule_task c s t = inl (e, off) -> e = EValue \/ e = EAssert.
Proof.
  intro H. pose proof (schedule_task_cases c s t) as K. rewrite H in K.
  inversion K as [| |e0 k _ En| |]; subst; auto. left. eapply node_loop_err, En.
Qed.

(* on an idle pilot (nothing held) an allocation attempt never ends in "wait" *)
Theorem idle_pilot_decides ns0 c s t s' res :
  SInv ns0 s -> heldg s = [] -> try_allocation c s t = (s', res) -> res <> TWait.
Proof.
  intros (_ & _ & Hac) Hh E. rewrite Hh in Hac.
  destruct (try_allocation_cases _ _ _ _ _ E); [discriminate|rewrite Hac; discriminate|discriminate].
Qed.
