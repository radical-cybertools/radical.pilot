(* C02: the set of tagged nodes only grows and always contains the nodes recorded for every colocate tag -- in
   every state the scheduler loop can reach, for every operation history and bisect strategy.  With
   ExclProofs.exclusive_avoids_tagged: in every reachable state a new exclusive tag is placed on none of the
   nodes recorded for any earlier tag (while an untagged node exists). *)
From Coq Require Import ZArith List.
From RP Require Import Sched.Model Sched.Loop Sched.ExclProofs.
Import ListNotations.

(* TInv relates an earlier state to a later one; its second half is an implication because run_tinv starts from
   any state, where CT need not hold *)
Definition tsub (a b : list Z) : Prop := forall i, zmem i a = true -> zmem i b = true.
Definition CT (co : list (Z * list Z)) (tg : list Z) : Prop :=
  forall tag h, zlookup tag co = Some h -> forall i, In i h -> zmem i tg = true.
Definition TInv (s s' : sstate) : Prop :=
  tsub (tagged s) (tagged s') /\ (CT (colo s) (tagged s) -> CT (colo s') (tagged s')).

Lemma TInv_same s s' : colo s' = colo s -> tagged s' = tagged s -> TInv s s'.
Proof. intros E1 E2. unfold TInv. rewrite E1, E2. split; [intros i Hi; exact Hi|auto]. Qed.
Lemma TInv_refl s : TInv s s.
Proof. apply TInv_same; reflexivity. Qed.
Lemma TInv_trans a b c : TInv a b -> TInv b c -> TInv a c.
Proof. intros [A1 A2] [B1 B2]. split; [intros i Hi; apply B1, A1, Hi|auto]. Qed.

Lemma sched_tinv c s t off co tg o :
  schedule_task c s t = inr (off, co, tg, o) ->
  tsub (tagged s) tg /\ (CT (colo s) (tagged s) -> CT co tg).
Proof.
  intro H. destruct o as [sl|].
  - destruct (r_colo t) as [z|] eqn:Ec.
    + destruct (tag_recorded c s t off co tg sl H z Ec) as (H1 & H2 & H3). split.
      * intros i Hi. apply H3. left. exact Hi.
      * intros HCT tag h Hz i Hi. destruct (Z.eq_dec tag z) as [->|Hne].
        -- rewrite H1 in Hz. injection Hz as <-. apply H3. right. exact Hi.
        -- rewrite (H2 tag Hne) in Hz. apply H3. left. eapply HCT; eauto.
    + destruct (untagged_grant_keeps_history c s t off co tg sl H Ec) as [-> ->].
      split; [intros i Hi; exact Hi|auto].
  - destruct (no_grant_keeps_history c s t off co tg H) as [-> ->].
    split; [intros i Hi; exact Hi|auto].
Qed.

Lemma try_alloc_tinv c s t s' res : try_allocation c s t = (s', res) -> TInv s s'.
Proof.
  intro H. destruct (try_allocation_cases _ _ _ _ _ H) as [e off E|off co tg E|off co tg sl E].
  - apply TInv_same; reflexivity.
  - exact (sched_tinv _ _ _ _ _ _ _ E).
  - exact (sched_tinv _ _ _ _ _ _ _ E).
Qed.

(* the walk of Loop.iterate_pre_along with TInv for R; nothing is asked of the tasks *)
Lemma iterate_tinv c s q unq strat s' evs : iterate c s q unq strat = Some (s', evs) -> TInv s s'.
Proof.
  unfold iterate. intro H.
  destruct (iterate_pre c s q strat) as [[[[s2 rw] ri] e]|] eqn:Ep; [|discriminate]. injection H as <- _.
  assert (Hall : forall l : list req, Forall (fun _ => True) l) by (intro l; apply Forall_forall; auto).
  eapply TInv_trans.
  - refine (proj1 (iterate_pre_along c TInv (fun _ => True) (fun _ => True) TInv_refl TInv_trans _ _ _ _
                                     s q strat s2 rw ri e (Hall _) _ Ep)).
    + auto.
    + intros a t a' res _. apply try_alloc_tinv.
    + intros a t sl0 sls _ _. apply TInv_same; reflexivity.
    + intros a wp cl. apply TInv_same; reflexivity.
    + apply Forall_forall. intros [l|l] _; [apply Hall|exact I].
  - destruct (unschedule_frame unq s2) as (_ & _ & A & B).
    apply TInv_same; unfold set_res; cbn [colo tagged]; assumption.
Qed.

Lemma step_tinv c w o w' : step c w o = Some w' -> TInv (st w) (st w').
Proof.
  destruct o; cbn [step]; intro H.
  - destruct (intake l (cancel_list (st w)) []) as [[k cl] evs]. injection H as <-. apply TInv_same; reflexivity.
  - injection H as <-. apply TInv_same; reflexivity.
  - injection H as <-. apply TInv_refl.
  - injection H as <-. apply TInv_same; reflexivity.
  - destruct (iterate c (st w) (q_sched w) (q_unsched w) strat) as [[s' evs]|] eqn:E; [|discriminate].
    injection H as <-. eapply iterate_tinv; exact E.
  - injection H as <-. apply TInv_same; reflexivity.
  - injection H as <-. apply TInv_refl.
Qed.

Theorem run_tinv c : forall ops w w', run c w ops = Some w' -> TInv (st w) (st w').
Proof.
  induction ops as [|o r IH]; intros w w' H; cbn [run] in H.
  - injection H as <-. apply TInv_refl.
  - destruct (step c w o) as [w1|] eqn:E; [|discriminate].
    eapply TInv_trans; [eapply step_tinv; exact E|eapply IH; exact H].
Qed.

Theorem reachable_tag_nodes_tagged c ns ops w' :
  run c (init_world ns) ops = Some w' -> CT (colo (st w')) (tagged (st w')).
Proof.
  intro H. apply (proj2 (run_tinv c ops _ _ H)). intros tag h Hz. discriminate Hz.
Qed.

Theorem reachable_exclusive_avoids_all_tags c ns ops w' t off co tg sl tag :
  run c (init_world ns) ops = Some w' ->
  schedule_task c (st w') t = inr (off, co, tg, Some sl) ->
  r_colo t = Some tag -> zlookup tag (colo (st w')) = None -> r_excl t = true ->
  (length (tagged (st w')) < length (nodes (st w')))%nat ->
  forall tag' h, zlookup tag' (colo (st w')) = Some h -> forall x, In x sl -> ~ In (s_node x) h.
Proof.
  intros Hrun Hg Hc Hnew He Hlen tag' h Hz x Hx Hin.
  pose proof (reachable_tag_nodes_tagged c ns ops w' Hrun tag' h Hz (s_node x) Hin) as H1.
  pose proof (exclusive_avoids_tagged c (st w') t off co tg sl Hg tag Hc Hnew He Hlen x Hx) as H2.
  congruence.
Qed.
