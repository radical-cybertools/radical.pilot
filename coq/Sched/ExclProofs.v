(* C02: the `exclusive` rule of colocation tags (continuous.py, schedule_task: a task carrying a colocate tag that
   was not seen before and the flag exclusive=True is not placed on a node which an earlier tag already uses, as
   long as the pilot has more nodes than tagged ones; otherwise the flag is dropped), and what schedule_task does
   with the colocation history and the set of tagged nodes. *)
From Coq Require Import ZArith List Bool.
From RP Require Import Sched.Model Sched.Loop Sched.FindProofs.
Import ListNotations.

Lemma node_loop_visited (P : Z -> Prop) c hist ne tg nn mpi spn rq cps g lfs mem :
  (forall nd, passed_over hist ne tg nn nd = false -> P (n_idx nd)) ->
  forall visit k st st' k',
    (forall s, In s (alc st) -> P (s_node s)) ->
    node_loop c hist ne tg nn mpi spn rq cps g lfs mem visit k st = inr (st', k') ->
    forall s, In s (alc st') -> P (s_node s).
Proof.
  intro HP. apply (node_loop_inv (fun _ a _ => forall s, In s a -> P (s_node s))).
  - auto.
  - intros _ _ _ _ _ s [].
  - intros nd rest a r new Esk Ha Hf _ s Hs. apply in_app_or in Hs as [Hs|Hs]; [exact (Ha s Hs)|].
    destruct (find_loop_basic _ _ _ _ _ _ _ _ _ _ _ _ Hf) as (_ & F & _). rewrite Forall_forall in F.
    destruct (F s Hs) as [-> _]. exact (HP nd Esk).
Qed.

Section Excl.
  Variables (c : cfg) (s : sstate) (t : req).
  Variables (off : nat) (co : list (Z * list Z)) (tg : list Z) (sl : list slot).
  Hypothesis Hgrant : schedule_task c s t = inr (off, co, tg, Some sl).

  (* the exclusive rule: new tag + exclusive + some node is still untagged => no slot on a tagged node *)
  Theorem exclusive_avoids_tagged tag :
    r_colo t = Some tag -> zlookup tag (colo s) = None -> r_excl t = true ->
    (length (tagged s) < length (nodes s))%nat ->
    forall x, In x sl -> zmem (s_node x) (tagged s) = false.
  Proof.
    intros Hc Hz He Hlen. destruct (schedule_task_grant _ _ _ _ _ _ _ Hgrant) as (st & k & Hn & -> & _).
    unfold search in Hn. rewrite Hc, Hz, He in Hn.
    refine (node_loop_visited (fun i => zmem i (tagged s) = false) _ _ _ _ _ _ _ _ _ _ _ _ _ _ _ _ _ _ _ Hn).
    - intros nd Hk. cbn [passed_over andb] in Hk.
      assert ((length (tagged s) <? length (nodes s))%nat = true) as E by (apply Nat.ltb_lt; exact Hlen).
      rewrite E, andb_true_r in Hk. exact Hk.
    - intros x [].
  Qed.

  Theorem known_tag_stays_on_its_nodes tag h :
    r_colo t = Some tag -> zlookup tag (colo s) = Some h ->
    forall x, In x sl -> zmem (s_node x) h = true.
  Proof.
    intros Hc Hz. destruct (schedule_task_grant _ _ _ _ _ _ _ Hgrant) as (st & k & Hn & -> & _).
    unfold search in Hn. rewrite Hc, Hz in Hn.
    refine (node_loop_visited (fun i => zmem i h = true) _ _ _ _ _ _ _ _ _ _ _ _ _ _ _ _ _ _ _ Hn).
    - intros nd Hk. apply negb_false_iff in Hk. exact Hk.
    - intros x [].
  Qed.

  Theorem tag_recorded tag :
    r_colo t = Some tag ->
    zlookup tag co = Some (map s_node sl) /\
    (forall tag', tag' <> tag -> zlookup tag' co = zlookup tag' (colo s)) /\
    (forall i, zmem i tg = true <-> zmem i (tagged s) = true \/ In i (map s_node sl)).
  Proof.
    intros Hc. destruct (schedule_task_grant _ _ _ _ _ _ _ Hgrant) as (st & k & _ & _ & _ & Hct).
    rewrite Hc in Hct. injection Hct as -> ->. split; [|split].
    - rewrite zlookup_zstore, Z.eqb_refl. reflexivity.
    - intros tag' Hne. rewrite zlookup_zstore, (proj2 (Z.eqb_neq tag tag')) by congruence. reflexivity.
    - intro i. apply zmem_zadd_all.
  Qed.

  Theorem untagged_grant_keeps_history : r_colo t = None -> co = colo s /\ tg = tagged s.
  Proof.
    intros Hc. destruct (schedule_task_grant _ _ _ _ _ _ _ Hgrant) as (st & k & _ & _ & _ & Hct).
    rewrite Hc in Hct. injection Hct as -> ->. auto.
  Qed.
End Excl.

Theorem no_grant_keeps_history c s t off co tg :
  schedule_task c s t = inr (off, co, tg, None) -> co = colo s /\ tg = tagged s.
Proof.
  intro H. pose proof (schedule_task_cases c s t) as K. rewrite H in K. inversion K. auto.
Qed.

(* non-vacuity: on a pilot of three nodes (2 cores each) with node 0 tagged by an earlier tag, an exclusive task
   with a new tag and two ranks of one core is granted, on node 1 -- and the hypotheses of the theorems hold *)
Definition ex_node (i : Z) : node := mkNode i [Free; Free] [] 0 0.
Definition ex_cfg : cfg := mkCfg 2 0 0 0 false.
Definition ex_state : sstate := mkS [ex_node 0; ex_node 1; ex_node 2] 0 [(7, [0])] [0] [] 0 [] [] true [].
Definition ex_req : req := mkReq 1 2 1 0 0 0 0 0 (Some 8) true None None.
Example exclusive_nonvacuous :
  schedule_task ex_cfg ex_state ex_req
    = inr (1%nat, [(7, [0]); (8, [1; 1])], [0; 1], Some [mkSlot 1 [0%nat] [] 0 0; mkSlot 1 [1%nat] [] 0 0])
  /\ zlookup 8 (colo ex_state) = None /\ (length (tagged ex_state) < length (nodes ex_state))%nat.
Proof. vm_compute. repeat split; auto. Qed.
