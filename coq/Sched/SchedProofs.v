(* schedule_task returns a placement that is fresh with respect to the node
   map it searched (Continuous.schedule_task + _find_resources). *)
From Coq Require Import ZArith List Bool Lia Permutation.
From RP Require Import Sched.Model Sched.ListAux Sched.NodeMap Sched.FindProofs Sched.Inv.
Import ListNotations.

Lemma other_node_nothing n sls : (forall s, In s sls -> s_node s <> n) ->
  (forall j, count_c n j sls = 0) /\ (forall j, gshare_at n j sls = 0) /\ forall q, amt_sum q n sls = 0.
Proof.
  unfold count_c, cnt1_c, gshare_at, amt_sum.
  induction sls as [|x r IH]; cbn [fold_right]; intro H; [auto|].
  destruct IH as (A & B & C); [intros s Hs; apply H; right; exact Hs|].
  rewrite (proj2 (Z.eqb_neq n (s_node x))) by (intro K; apply (H x (or_introl eq_refl)); auto).
  repeat split; intros; rewrite ?A, ?B, ?C; reflexivity.
Qed.

Lemma count_c_same n j sls :
  (forall s, In s sls -> s_node s = n) ->
  count_c n j sls = Z.of_nat (count_occ Nat.eq_dec (all_cores sls) j).
Proof.
  unfold count_c, all_cores. induction sls as [|x r IH]; cbn [fold_right map concat]; intro H; [reflexivity|].
  rewrite IH by (intros s Hs; apply H; right; exact Hs).
  unfold cnt1_c. rewrite (H x (or_introl eq_refl)), Z.eqb_refl.
  rewrite count_occ_app. lia.
Qed.
Lemma gshare_at_same n j sls :
  (forall s, In s sls -> s_node s = n) -> gshare_at n j sls = share_on j sls.
Proof.
  unfold gshare_at. induction sls as [|x r IH]; cbn [fold_right share_on]; intro H; [reflexivity|].
  rewrite IH by (intros s Hs; apply H; right; exact Hs).
  rewrite (H x (or_introl eq_refl)), Z.eqb_refl. reflexivity.
Qed.
Lemma amt_sum_same q n sls v :
  (forall s, In s sls -> s_node s = n /\ amt_need q s = v) -> amt_sum q n sls = v * Z.of_nat (length sls).
Proof.
  unfold amt_sum. induction sls as [|x r IH]; cbn [fold_right length]; intro H; [lia|].
  rewrite IH by (intros s Hs; apply H; right; exact Hs).
  destruct (H x (or_introl eq_refl)) as [-> ->]. rewrite Z.eqb_refl. lia.
Qed.

Lemma rotate_perm {A} (k : nat) (l : list A) : Permutation (rotate k l) l.
Proof.
  unfold rotate. rewrite <- (firstn_skipn k l) at 3. apply Permutation_app_comm.
Qed.

(* how far node_loop has come: the nodes still to visit are distinct nodes of the map, and nothing collected
   so far lies on one of them *)
Record walked (ns visit : list node) (alc : list slot) : Prop := {
  wk_in : incl visit ns;
  wk_nd : NoDup (map n_idx visit);
  wk_off : forall s, In s alc -> ~ In (s_node s) (map n_idx visit) }.

Lemma walked_start ns k : NoDup (map n_idx ns) -> walked ns (rotate k ns) [].
Proof.
  intro Hnd. constructor.
  - intros x Hx. apply (Permutation_in _ (rotate_perm k ns)). exact Hx.
  - apply (Permutation_NoDup (Permutation_sym (Permutation_map n_idx (rotate_perm k ns)))). exact Hnd.
  - intros s [].
Qed.

Lemma walked_skip ns nd0 rest alc : walked ns (nd0 :: rest) alc -> walked ns rest alc.
Proof.
  intros [Hi Hn A]. constructor.
  - intros x Hx. apply Hi. right. exact Hx.
  - inversion Hn; assumption.
  - intros s Hs K. apply (A s Hs). right. exact K.
Qed.

Lemma walked_reset ns nd0 rest alc : walked ns (nd0 :: rest) alc -> walked ns rest [].
Proof. intro W. destruct (walked_skip _ _ _ _ W) as [Hi Hn _]. constructor; [exact Hi|exact Hn|intros s []]. Qed.

Lemma walked_step ns nd0 rest alc new :
  walked ns (nd0 :: rest) alc -> (forall s, In s new -> s_node s = n_idx nd0) ->
  walked ns rest (alc ++ new) /\ In nd0 ns /\ (forall s, In s alc -> s_node s <> n_idx nd0).
Proof.
  intros W Hnew. destruct (walked_skip _ _ _ _ W) as [Hi' Hn' A']. destruct W as [Hi Hn A].
  split; [|split].
  - constructor; [exact Hi'|exact Hn'|].
    intros s Hs. apply in_app_iff in Hs as [Hs|Hs]; [exact (A' s Hs)|].
    rewrite (Hnew s Hs). inversion Hn; assumption.
  - apply Hi. left. reflexivity.
  - intros s Hs K. apply (A s Hs). left. auto.
Qed.

(* node_loop_inv for an invariant of the collected slots alone: [walked] is carried along here, and the step
   learns from it that the node it visits is one of the map and holds nothing collected before *)
Lemma node_loop_walk (I : list slot -> Z -> Prop) ns c hist ne tg nn mpi spn rq cps g lfs mem :
  (forall a r, I a r -> I [] rq) ->
  (forall nd a r new,
     passed_over hist ne tg nn nd = false ->
     In nd ns -> (forall s, In s a -> s_node s <> n_idx nd) -> I a r ->
     find_loop nd (Z.to_nat (Z.min r spn)) cps g lfs mem 0 0 0 0 (map (fun _ => 0) (n_gpus nd)) = inr new ->
     new <> [] -> I (a ++ new) (r - Z.of_nat (length new))) ->
  forall visit k st st' k',
    walked ns visit (alc st) -> I (alc st) (rem st) ->
    node_loop c hist ne tg nn mpi spn rq cps g lfs mem visit k st = inr (st', k') ->
    I (alc st') (rem st').
Proof.
  intros Hreset Hstep visit k st st' k' W HI H.
  refine (proj2 (node_loop_inv (fun rest a r => walked ns rest a /\ I a r)
                   c hist ne tg nn mpi spn rq cps g lfs mem _ _ _ visit k st st' k' (conj W HI) H)).
  - intros nd rest a r [W' HI']. split; [exact (walked_skip _ _ _ _ W')|exact HI'].
  - intros nd rest a r [W' HI']. split; [exact (walked_reset _ _ _ _ W')|exact (Hreset _ _ HI')].
  - intros nd rest a r new Esk [W' HI'] Hf Hne.
    destruct (find_loop_basic _ _ _ _ _ _ _ _ _ _ _ _ Hf) as (_ & F & _). rewrite Forall_forall in F.
    destruct (walked_step _ _ _ _ new W' (fun s Hs => proj1 (F s Hs))) as (W2 & Hin & Hoff).
    split; [exact W2|exact (Hstep nd a r new Esk Hin Hoff HI' Hf Hne)].
Qed.

Definition slot_ok (ns : list node) (s : slot) : Prop :=
  (exists nd, In nd ns /\ s_node s = n_idx nd /\
              (forall i, In i (s_cores s) -> core_free nd i) /\
              (forall k u, In (k, u) (s_gpus s) -> gpu_free nd k /\ 0 < u <= 64)) /\
  0 <= s_lfs s /\ 0 <= s_mem s.

Definition nodes_nonneg (ns : list node) : Prop := forall nd, In nd ns -> 0 <= n_lfs nd /\ 0 <= n_mem nd.

(* what the slots [sls] take of node n is within what the node has *)
Definition fits (ns : list node) (n : Z) (sls : list slot) : Prop :=
  (forall j, count_c n j sls <= 1) /\ (forall j, gshare_at n j sls <= 64) /\
  forall q nd, find_node n ns = Some nd -> amt_sum q n sls <= amt_cap q nd.

Lemma fits_other ns n a b : (forall s, In s b -> s_node s <> n) ->
  fits ns n a -> fits ns n (a ++ b) /\ fits ns n (b ++ a).
Proof.
  intros Hb (A & B & C). destruct (other_node_nothing _ _ Hb) as (Oc & Og & Oa).
  (* b adds nothing to the sums at n *)
  split; (split; [|split]; intros;
    rewrite ?count_c_app, ?gshare_at_app, ?amt_sum_app, ?Oc, ?Og, ?Oa, ?Z.add_0_r, ?Z.add_0_l;
    [apply A|apply B|apply C; assumption]).
Qed.

Record acc_ok (ns : list node) (alc : list slot) : Prop := {
  ao_s : forall s, In s alc -> slot_ok ns s;
  ao_fit : forall n, fits ns n alc }.

Lemma acc_nil ns : nodes_nonneg ns -> acc_ok ns [].
Proof.
  intro H. constructor; [intros s []|]. intro n. split; [|split].
  - intro j. cbn. lia.
  - intro j. cbn. lia.
  - intros q nd Hf. apply find_node_some in Hf as [Hin _]. destruct q; apply (H nd Hin).
Qed.

Lemma acc_step ns nd0 alc n cps g lfs mem new :
  NoDup (map n_idx ns) -> nodes_nonneg ns -> 0 <= g -> 0 <= lfs -> 0 <= mem ->
  In nd0 ns -> (forall s, In s alc -> s_node s <> n_idx nd0) ->
  acc_ok ns alc ->
  find_loop nd0 n cps g lfs mem 0 0 0 0 (map (fun _ => 0) (n_gpus nd0)) = inr new ->
  acc_ok ns (alc ++ new).
Proof.
  intros Hnd Hnn Hg Hl Hm Hin Halc_node [A F] Hf.
  destruct (find_loop_basic _ _ _ _ _ _ _ _ _ _ _ _ Hf) as (_ & F1 & F2 & F3 & F4).
  destruct (find_loop_gpus_fresh _ _ _ _ _ _ _ Hg Hf) as (G1 & G2 & _).
  rewrite Forall_forall in F1.
  assert (Hnew_node : forall s, In s new -> s_node s = n_idx nd0) by (intros s Hs; apply (F1 s Hs)).
  constructor.
  - intros s Hs. apply in_app_iff in Hs as [Hs|Hs]; [exact (A s Hs)|].
    destruct (F1 s Hs) as (S1 & S2 & S3 & S4 & S5).
    split; [|lia]. exists nd0. split; [exact Hin|]. split; [exact S1|]. split; [exact S5|].
    exact (G1 s Hs).
  - intro n0. destruct (Z.eq_dec n0 (n_idx nd0)) as [->|Hne].
    + (* on the node visited only the new slots count *)
      apply (fits_other ns (n_idx nd0) new alc Halc_node). split; [|split].
      * intro j. rewrite (count_c_same _ j new Hnew_node).
        pose proof (proj1 (NoDup_count_occ Nat.eq_dec _) (incr_from_NoDup _ _ F2) j). lia.
      * intro j. rewrite (gshare_at_same _ j new Hnew_node). exact (G2 j).
      * intros q nd Hfn. rewrite (find_node_in ns Hnd nd0 Hin) in Hfn. injection Hfn as <-.
        destruct (Hnn nd0 Hin). destruct q.
        -- rewrite (amt_sum_same Lfs _ new lfs) by (intros s Hs; destruct (F1 s Hs) as (? & ? & _); auto).
           destruct F3 as [->|F3]; simpl; lia.
        -- rewrite (amt_sum_same Mem _ new mem) by (intros s Hs; destruct (F1 s Hs) as (? & _ & ? & _); auto).
           destruct F4 as [->|F4]; simpl; lia.
    + apply (fits_other ns n0 alc new); [|exact (F n0)]. intros s Hs. rewrite (Hnew_node s Hs). congruence.
Qed.

Lemma acc_fresh ns alc : NoDup (map n_idx ns) -> acc_ok ns alc -> fresh ns alc.
Proof.
  intros Hnd [A F].
  assert (Fa : forall q n x, amt_at q ns n = Some x -> amt_sum q n alc <= x).
  { intros q n x H. unfold amt_at in H. destruct (find_node n ns) as [nd|] eqn:Ef; [|discriminate].
    simpl in H. injection H as <-. apply (F n), Ef. }
  constructor.
  - intros n j H. unfold touched_c in H. apply existsb_exists in H as (s & Hs & Ht).
    unfold touch_c in Ht. apply andb_true_iff in Ht as [T1 T2]. apply Z.eqb_eq in T1.
    apply existsb_exists in T2 as (i & Hi & Ei). apply Nat.eqb_eq in Ei. subst i.
    destruct (A s Hs) as [(nd & N1 & N2 & N3 & N4) _].
    unfold core_at. rewrite T1, N2, (find_node_in ns Hnd nd N1). apply N3, Hi.
  - intros n j. apply (F n).
  - intros n j H. unfold touched_g in H. apply existsb_exists in H as (s & Hs & Ht).
    unfold touch_g in Ht. apply andb_true_iff in Ht as [T1 T2]. apply Z.eqb_eq in T1.
    apply existsb_exists in T2 as ([i u] & Hi & Ei). simpl in Ei. apply Nat.eqb_eq in Ei. subst i.
    destruct (A s Hs) as [(nd & N1 & N2 & N3 & N4) _].
    unfold gpu_at. rewrite T1, N2, (find_node_in ns Hnd nd N1). apply (N4 j u Hi).
  - intros n j. apply (F n).
  - exact (Fa Lfs).
  - exact (Fa Mem).
  - intros s Hs. destruct (A s Hs) as [(nd & N1 & N2 & N3 & N4) [L M]].
    repeat split; auto. intros i u Hi. destruct (N4 i u Hi). lia.
Qed.

(* well-formed requests: what TaskDescription verification guarantees *)
Definition wf_req (t : req) : Prop := 0 <= r_gpr t /\ 0 <= r_lfs t /\ 0 <= r_mem t.

Theorem schedule_task_fresh c s t off co tg sl :
  NoDup (map n_idx (nodes s)) -> nodes_nonneg (nodes s) -> wf_req t ->
  schedule_task c s t = inr (off, co, tg, Some sl) ->
  fresh (nodes s) sl.
Proof.
  intros Hnd Hnn (Hg & Hl & Hm) H. destruct (schedule_task_grant _ _ _ _ _ _ _ H) as (st & k & En & -> & _).
  apply acc_fresh; [exact Hnd|].
  refine (node_loop_walk (fun a _ => acc_ok (nodes s) a) (nodes s) _ _ _ _ _ _ _ _ _ _ _ _
            _ _ _ _ _ _ _ _ _ En).
  - intros _ _ _. exact (acc_nil _ Hnn).
  - intros nd a r new _ Hin Hoff Ha Hf _. exact (acc_step _ nd a _ _ _ _ _ new Hnd Hnn Hg Hl Hm Hin Hoff Ha Hf).
  - exact (walked_start _ _ Hnd).
  - exact (acc_nil _ Hnn).
Qed.
