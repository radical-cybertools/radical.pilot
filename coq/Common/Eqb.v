(* Boolean equality combinators used by the correspondence checks. *)
From Coq Require Import List Bool String.
Import ListNotations.

Fixpoint eqb_list {A} (e : A -> A -> bool) (a b : list A) : bool :=
  match a, b with
  | [], [] => true
  | x :: a', y :: b' => e x y && eqb_list e a' b'
  | _, _ => false
  end.

Definition eqb_option {A} (e : A -> A -> bool) (a b : option A) : bool :=
  match a, b with
  | None, None => true
  | Some x, Some y => e x y
  | _, _ => false
  end.

Definition eqb_prod {A B} (ea : A -> A -> bool) (eb : B -> B -> bool)
  (a b : A * B) : bool := ea (fst a) (fst b) && eb (snd a) (snd b).

Definition eqb_sum {A B} (ea : A -> A -> bool) (eb : B -> B -> bool)
  (a b : A + B) : bool :=
  match a, b with
  | inl x, inl y => ea x y
  | inr x, inr y => eb x y
  | _, _ => false
  end.

Lemma eqb_list_spec {A} (e : A -> A -> bool) :
  (forall x y, e x y = true <-> x = y) ->
  forall a b, eqb_list e a b = true <-> a = b.
Proof.
  intros He a; induction a as [|x a IH]; intros [|y b]; simpl; split; intro H;
    try reflexivity; try discriminate.
  - apply andb_true_iff in H as [H1 H2]. apply He in H1. apply IH in H2. congruence.
  - injection H as -> ->. apply andb_true_iff; split; [apply He; reflexivity | apply IH; reflexivity].
Qed.

Lemma eqb_option_spec {A} (e : A -> A -> bool) :
  (forall x y, e x y = true <-> x = y) ->
  forall a b, eqb_option e a b = true <-> a = b.
Proof.
  intros He [x|] [y|]; simpl; split; intro H; try reflexivity; try discriminate.
  - apply He in H; congruence.
  - injection H as ->; apply He; reflexivity.
Qed.

Lemma eqb_prod_spec {A B} (ea : A -> A -> bool) (eb : B -> B -> bool) :
  (forall x y, ea x y = true <-> x = y) ->
  (forall x y, eb x y = true <-> x = y) ->
  forall a b, eqb_prod ea eb a b = true <-> a = b.
Proof.
  intros Ha Hb [a1 b1] [a2 b2]; unfold eqb_prod; simpl; split; intro H.
  - apply andb_true_iff in H as [H1 H2]. apply Ha in H1. apply Hb in H2. congruence.
  - injection H as -> ->. apply andb_true_iff; split; [apply Ha|apply Hb]; reflexivity.
Qed.

Lemma eqb_list_refl {A} (e : A -> A -> bool) :
  (forall x, e x x = true) -> forall l, eqb_list e l l = true.
Proof. intros H l; induction l as [|x l IH]; simpl; [reflexivity | rewrite H, IH; reflexivity]. Qed.

Lemma eqb_option_refl {A} (e : A -> A -> bool) :
  (forall x, e x x = true) -> forall o, eqb_option e o o = true.
Proof. intros H [x|]; [apply H | reflexivity]. Qed.

Lemma eqb_prod_refl {A B} (ea : A -> A -> bool) (eb : B -> B -> bool) :
  (forall x, ea x x = true) -> (forall y, eb y y = true) -> forall p, eqb_prod ea eb p p = true.
Proof. intros Ha Hb [a b]. unfold eqb_prod; simpl. rewrite Ha, Hb. reflexivity. Qed.

(* result rendering for the harness: one character per boolean *)
Definition bit (b : bool) : string := if b then "1"%string else "0"%string.
Fixpoint bits (l : list bool) : string :=
  match l with [] => EmptyString | b :: l' => append (bit b) (bits l') end.
Fixpoint rows (l : list (list bool)) : string :=
  match l with [] => EmptyString | r :: l' => append (bits r) (append ";" (rows l')) end.
