(* Facts about lists that several of the models' proofs need and the standard library lacks. *)
From Coq Require Import List Bool.

Lemma existsb_eqb_In {A} (e : A -> A -> bool) :
  (forall x y, e x y = true <-> x = y) ->
  forall x l, existsb (e x) l = true <-> In x l.
Proof.
  intros He x l. rewrite existsb_exists. split.
  - intros (y & Hy & E). apply He in E. subst y. exact Hy.
  - intro H. exists x. split; [exact H | apply He; reflexivity].
Qed.

Lemma existsb_eqb_not_In {A} (e : A -> A -> bool) :
  (forall x y, e x y = true <-> x = y) ->
  forall x l, existsb (e x) l = false <-> ~ In x l.
Proof. intros He x l. rewrite <- (existsb_eqb_In e He), not_true_iff_false. reflexivity. Qed.

(* the default of `last` matters only for the empty list *)
Lemma last_cons {A} (l : list A) : forall a d, last (a :: l) d = last l a.
Proof.
  induction l as [|b l IH]; intros a d; [reflexivity|].
  change (last (a :: b :: l) d) with (last (b :: l) d). rewrite !IH. reflexivity.
Qed.

Lemma fold_left_inv {A B} (step : A -> B -> A) (P : A -> Prop) l :
  (forall x b, In b l -> P x -> P (step x b)) -> forall d, P d -> P (fold_left step l d).
Proof.
  induction l as [|b r IH]; intros H d Hd; [exact Hd|]. simpl.
  apply IH; [intros x c Hc; apply H; right; exact Hc|]. apply H; [left; reflexivity|exact Hd].
Qed.

Lemma NoDup_app_iff {A} (a b : list A) :
  NoDup (a ++ b) <-> NoDup a /\ NoDup b /\ (forall x, In x a -> ~ In x b).
Proof.
  induction a as [|x a IH]; cbn [app].
  - split; [intro H; split; [constructor|split; [exact H|intros ? []]] | tauto].
  - rewrite !NoDup_cons_iff, IH, in_app_iff. split.
    + intros (Hx & Ha & Hb & Hd). repeat split; try tauto.
      intros y [<-|Hy]; [tauto | exact (Hd y Hy)].
    + intros ((Hx & Ha) & Hb & Hd). repeat split; try assumption.
      * intros [Hin|Hin]; [tauto | exact (Hd x (or_introl eq_refl) Hin)].
      * intros y Hy. apply Hd. right. exact Hy.
Qed.

(* a boolean sweep over all pairs of a complete enumeration *)
Lemma sweep2 {A} (all : list A) (P : A -> A -> bool) :
  (forall a, In a all) -> forallb (fun a => forallb (P a) all) all = true -> forall a b, P a b = true.
Proof.
  intros C H a b. rewrite forallb_forall in H. specialize (H a (C a)).
  rewrite forallb_forall in H. exact (H b (C b)).
Qed.

Lemma combine_map_forallb {A B} (f : A -> B) (P : A * B -> bool) l :
  (forall x, In x l -> P (x, f x) = true) -> forallb P (combine l (map f l)) = true.
Proof.
  induction l as [|x l IH]; intro H; [reflexivity|]. simpl.
  rewrite (H x (or_introl eq_refl)). apply IH. intros y Hy. apply H. right; exact Hy.
Qed.
