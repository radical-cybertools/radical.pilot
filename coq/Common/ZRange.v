(* Finite sweeps over an integer range, lifted to universally quantified facts. *)
From Coq Require Import ZArith List Lia.
Open Scope Z_scope.

Definition zrange (n : nat) : list Z := map Z.of_nat (seq 0 n).

Lemma zrange_in n i : 0 <= i < Z.of_nat n -> In i (zrange n).
Proof.
  intro H; unfold zrange. apply in_map_iff. exists (Z.to_nat i). split; [lia|].
  apply in_seq; lia.
Qed.

Lemma zrange_forall (P : Z -> bool) n :
  forallb P (zrange n) = true -> forall i, 0 <= i < Z.of_nat n -> P i = true.
Proof.
  intros H i Hi. rewrite forallb_forall in H. apply H, zrange_in, Hi.
Qed.
