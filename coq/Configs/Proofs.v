(* C17: the shipped configurations are a finite table, checked by computation in one sweep
   (`shipped_ok`); the sizing arithmetic is proved for all integers (no bound) and tied to every
   shipped configuration, to submission bulks, and to what the agent of each pilot of a bulk reads.

   It opens with the laws the sweep rests on: TypedDict.verify goes entry by entry, so it
   commutes with assignment and update; dict_merge with OVERWRITE is update where it does not raise. *)
From Coq Require Import ZArith List Bool String Lia ZifyBool.
From RP Require Import Common.Eqb Common.ListFacts Configs.Model Configs.Oracle.
Import ListNotations.
Open Scope Z_scope.

Lemma verify_entries_dset f sch k t v v' :
  assoc k sch = Some t -> f t v = inr v' ->
  forall d r, verify_entries f sch d = inr r ->
    verify_entries f sch (dset k v d) = inr (dset k v' r).
Proof.
  intros Hk Hv. induction d as [|[k0 v0] d IH]; intros r H; simpl in H.
  - injection H as <-. simpl. rewrite Hk, Hv. reflexivity.
  - destruct (assoc k0 sch) as [t0|] eqn:E0; [|discriminate]. unfold bind in H.
    destruct (f t0 v0) as [|v0'] eqn:Ev0; [discriminate|].
    destruct (verify_entries f sch d) as [|r0] eqn:Er; [discriminate|]. injection H as <-.
    simpl. destruct (String.eqb k k0); simpl.
    + rewrite Hk, Hv, Er. reflexivity.
    + rewrite E0, Ev0, (IH _ eq_refl). reflexivity.
Qed.

Lemma verify_entries_dupdate f sch o : forall d r o',
  verify_entries f sch d = inr r -> verify_entries f sch o = inr o' ->
  verify_entries f sch (dupdate d o) = inr (dupdate r o').
Proof.
  induction o as [|[k v] o IH]; intros d r o' Hd Ho; simpl in Ho.
  - injection Ho as <-. exact Hd.
  - destruct (assoc k sch) as [t|] eqn:Ek; [|discriminate]. unfold bind in Ho.
    destruct (f t v) as [|v'] eqn:Ev; [discriminate|].
    destruct (verify_entries f sch o) as [|o1]; [discriminate|]. injection Ho as <-.
    apply (IH (dset k v d) (dset k v' r)); [|reflexivity].
    apply verify_entries_dset with t; assumption.
Qed.

Lemma merge_overwrite_dupdate b : forall a c, merge_overwrite a b = inr c -> c = dupdate a b.
Proof.
  induction b as [|[k v] b IH]; intros a c H; simpl in H.
  - injection H as <-. reflexivity.
  - apply (IH (dset k v a)). destruct (assoc k a) as [[]|]; destruct v; try discriminate; exact H.
Qed.

Lemma dupdate_app d a b : dupdate (dupdate d a) b = dupdate d (a ++ b)%list.
Proof. unfold dupdate. rewrite fold_left_app. reflexivity. Qed.

(* node parameters on which every valid request is sized *)
Definition wf_params (p : nodeparams) : bool :=
  (0 <=? n_cpn p) && (0 <=? n_gpn p) && (1 <=? n_smt p) && (0 <=? n_bc p) && (0 <=? n_bg p)
  && ((n_cpn p =? 0) || (n_bc p <? n_cpn p)) && ((n_gpn p =? 0) || (n_bg p <=? n_gpn p)).

Section Shipped.
  Variable Tb : tables.

  Lemma rc_verify_dupdate d r o o' :
    rc_verify Tb d = inr r -> rc_verify Tb o = inr o' -> rc_verify Tb (dupdate d o) = inr (dupdate r o').
  Proof. apply verify_entries_dupdate. Qed.

  (* get_resource_config's three-way case on a schema's value, named so that
     JNull and JDict are one case in get_resource_config_overlay *)
  Definition schema_entries (v : json) : res dict :=
    match v with JDict scfg => inr scfg | JNull => inr [] | _ => inl TypeError end.

  Lemma merge_schema_entries (a : dict) v :
    match v with
    | JDict scfg => merge_overwrite a scfg
    | JNull => inr a
    | _ => inl TypeError
    end = do scfg <- schema_entries v; merge_overwrite a scfg.
  Proof. destruct v; reflexivity. Qed.

  (* get_resource_config as an update of `rc0`: None where no schema applies
     (the stored configuration is returned), else the schema's entries and the
     endpoints a batch job adds.  merge_overwrite is run for its error alone. *)
  Definition overlay_of (st rc0 : dict) (schema : option string) : res (option (dict * dict)) :=
    let schema := match schema with
                  | Some s => if String.eqb s "" then dget "default_schema" st else JStr s
                  | None => dget "default_schema" st
                  end in
    if negb (truthy schema) then inr None
    else match schema, dget "schemas" st with
    | JStr s, JDict schemas =>
        if negb (has_key s schemas) then inl RuntimeError else
        do scfg <- schema_entries (dget s (match dget "schemas" rc0 with JDict x => x | _ => [] end));
        do _ <- merge_overwrite rc0 scfg;
        let rm := dget "resource_manager" (dupdate rc0 scfg) in
        do cls <- get_manager Tb rm;
        inr (Some (scfg, match cls, rm with
                         | Some _, JStr n => if mem n batch_rms then t_endpoints Tb else []
                         | _, _ => []
                         end))
    | _, _ => inl Unmodelled
    end.

  Definition overlay (lbl : string) (se : dict * dict) (in_batch : bool) : dict :=
    (fst se ++ (if in_batch then snd se else []) ++ [("label", JStr lbl)])%list.

  Lemma get_resource_config_overlay site rname st schema b :
    stored Tb site rname = inr st ->
    get_resource_config Tb site rname schema b =
    match overlay_of st (td_new Tb RC st) schema with
    | inl e => inl e
    | inr None => inr (dset "label" (JStr (label site rname)) st)
    | inr (Some se) => rc_verify Tb (dupdate (td_new Tb RC st) (overlay (label site rname) se b))
    end.
  Proof.
    intro Est. unfold get_resource_config, overlay_of. rewrite Est. cbn [bind].
    destruct (negb (truthy _)); [reflexivity|].
    destruct (match schema with Some s => _ | None => _ end) as [| | | |s| |]; try reflexivity.
    destruct (dget "schemas" st) as [| | | | | |schemas]; try reflexivity.
    destruct (negb (has_key s schemas)); [reflexivity|].
    rewrite merge_schema_entries. destruct (schema_entries _) as [|scfg]; [reflexivity|]. cbn [bind].
    destruct (merge_overwrite _ scfg) as [|c] eqn:Em; [reflexivity|].
    apply merge_overwrite_dupdate in Em as ->. cbn [bind].
    destruct (get_manager Tb _) as [|cls]; [reflexivity|]. cbn [bind]. f_equal.
    unfold overlay. cbn [fst snd]. rewrite <- !dupdate_app.
    destruct b, cls as [c|]; try reflexivity;
      destruct (dget "resource_manager" _) as [| | | |n| |]; try reflexivity;
      destruct (mem n batch_rms); reflexivity.
  Qed.

  (* the sweep fetches a configuration once and applies what `resolve` (model)
     and `platform` (oracle) do after fetching it: resolved_of and platform_of
     are those continuations, convertible with the originals *)
  Definition resolved_of (rcfg : dict) : res resolved :=
    do jm <- opt_str (dget "job_manager_endpoint" rcfg);
    do fs <- opt_str (dget "filesystem_endpoint" rcfg);
    inr {| r_jm := jm; r_fs := fs; r_rm := rm_create Tb rcfg; r_lm := prepare_launch_methods Tb rcfg;
           r_sched := sched_create Tb rcfg; r_exec := exec_create Tb rcfg;
           r_agent := agent_cfg_keys Tb rcfg |}.

  Definition platform_checks (rcfg : dict) (env_smt : option Z) : res (list string * nodeparams) :=
    do ma <- mandatory_args rcfg;
    do _ <- static_checks Tb rcfg;
    do p <- node_params rcfg env_smt;
    inr (ma, p).

  Definition platform_of (rcfg : dict) (env_smt : option Z) : res (list string * nodeparams) :=
    do rcfg <- rc_verify Tb rcfg; platform_checks rcfg env_smt.

  (* schema None stands for the default schema of the stored configuration ... *)
  Lemma get_resource_config_default site rname st s0 b :
    stored Tb site rname = inr st -> dget "default_schema" st = JStr s0 -> s0 <> "" ->
    get_resource_config Tb site rname None b = get_resource_config Tb site rname (Some s0) b.
  Proof.
    intros Est Ed Hne. unfold get_resource_config. rewrite Est. cbn [bind]. rewrite Ed.
    destruct (String.eqb s0 "") eqn:E; [apply String.eqb_eq in E; contradiction | reflexivity].
  Qed.

  (* ... so where that is one of the named schemas, None needs no evaluation of its own *)
  Definition default_named (st : dict) (names : list (option string)) (schema : option string) : bool :=
    match schema, dget "default_schema" st with
    | None, JStr s0 => negb (String.eqb s0 "") && existsb (eqb_option String.eqb (Some s0)) names
    | _, _ => false
    end.

  (* The sweep.  A schema and the batch flag overwrite three to five keys of
     `rc0`, and verification commutes with update: each configuration is
     verified once (`vr0`; `vvr0`: the second verification, which `platform`
     makes), per schema only the overlay; `d0`, the ResourceConfig defaults, once
     in all.  Chosen for coqchk, which re-runs a vm_compute by lazy reduction
     (coqc uses the VM): there, comparing the dictionaries' string keys is what costs. *)
  Definition schema_ok (lbl : string) (st rc0 : dict) (vr0 vvr0 : res dict) (schema : option string) : bool :=
    match overlay_of st rc0 schema with
    | inl _ => false
    | inr None =>
        let g := dset "label" (JStr lbl) st in
        resolves_ok (resolved_of g)
        && match platform_of g None with inr (_, p) => wf_params p | inl _ => false end
    | inr (Some se) =>
        let o0 := rc_verify Tb (overlay lbl se false) in
        resolves_ok (do r <- vr0; do o <- o0; resolved_of (dupdate r o))
        && resolves_ok (do r <- vr0; do o <- rc_verify Tb (overlay lbl se true); resolved_of (dupdate r o))
        && match (do r <- vvr0; do o <- o0; do o' <- rc_verify Tb o; platform_checks (dupdate r o') None) with
           | inr (_, p) => wf_params p
           | inl _ => false
           end
    end.

  (* `stored` with the ResourceConfig defaults handed in: at
     `td_update RC [] (defaults_of RC)` it is `stored`, by conversion *)
  Definition stored_from (d0 : dict) (site rname : string) : res dict :=
    match assoc site (t_rcfgs Tb) with
    | None => inl RuntimeError
    | Some rs =>
        match assoc rname rs with
        | None => inl RuntimeError
        | Some (JDict raw) => inr (td_update Tb RC d0 raw)
        | Some _ => inl Unmodelled
        end
    end.

  Definition config_ok (d0 : dict) (site : string) (rc : string * json) : bool :=
    match stored_from d0 site (fst rc) with
    | inr st =>
        let rc0 := td_update Tb RC d0 st in
        let vr0 := rc_verify Tb rc0 in
        let vvr0 := bind vr0 (rc_verify Tb) in
        forallb (fun schema => default_named st (schema_names (snd rc)) schema
                               || schema_ok (label site (fst rc)) st rc0 vr0 vvr0 schema)
                (schema_names (snd rc))
    | inl _ => false
    end.

  Definition shipped_ok : bool :=
    let d0 := td_update Tb RC [] (defaults_of Tb RC) in
    forallb (fun sr => forallb (config_ok d0 (fst sr)) (snd sr)) (t_rcfgs Tb).

  (* what the sweep establishes of one configuration under one schema *)
  Definition combo_ok (site rname : string) (schema : option string) : Prop :=
    (forall b, resolves_ok (resolve Tb site rname schema b) = true) /\
    exists rcfg ma p, get_resource_config Tb site rname schema false = inr rcfg /\
                      platform_of rcfg None = inr (ma, p) /\ wf_params p = true.

  Lemma schema_ok_spec site rname st schema :
    stored Tb site rname = inr st ->
    schema_ok (label site rname) st (td_new Tb RC st) (rc_verify Tb (td_new Tb RC st))
              (bind (rc_verify Tb (td_new Tb RC st)) (rc_verify Tb)) schema = true ->
    combo_ok site rname schema.
  Proof.
    intros Est Hok. pose proof (fun b => get_resource_config_overlay site rname st schema b Est) as Hg.
    unfold schema_ok in Hok. unfold combo_ok, resolve.
    destruct (overlay_of st (td_new Tb RC st) schema) as [|[se|]]; [discriminate| |].
    - apply andb_true_iff in Hok as [Hok Hp]. apply andb_true_iff in Hok as [H0 H1].
      destruct (rc_verify Tb (td_new Tb RC st)) as [|r] eqn:Er; [discriminate|].
      destruct (rc_verify Tb (overlay _ se false)) as [|o] eqn:Eo; [discriminate|].
      destruct (rc_verify Tb (overlay _ se true)) as [|o1] eqn:Eo1; [discriminate|].
      cbn [bind] in H0, H1, Hp.
      pose proof (rc_verify_dupdate _ _ _ _ Er Eo) as G0. split.
      + intros []; rewrite Hg; [rewrite (rc_verify_dupdate _ _ _ _ Er Eo1); exact H1 | rewrite G0; exact H0].
      + destruct (rc_verify Tb r) as [|r'] eqn:Er'; [discriminate|].
        destruct (rc_verify Tb o) as [|o'] eqn:Eo'; [discriminate|]. cbn [bind] in Hp.
        destruct (platform_checks (dupdate r' o') None) as [|[ma p]] eqn:Ec; [discriminate|].
        exists (dupdate r o), ma, p. split; [rewrite Hg; exact G0|]. split; [|exact Hp].
        unfold platform_of. rewrite (rc_verify_dupdate _ _ _ _ Er' Eo'). exact Ec.
    - apply andb_true_iff in Hok as [H0 Hp]. split.
      + intro b. rewrite Hg. exact H0.
      + destruct (platform_of _ None) as [|[ma p]] eqn:Ep; [discriminate|].
        eexists _, ma, p. rewrite Hg. repeat split; eassumption.
  Qed.

  Lemma shipped_ok_spec :
    shipped_ok = true ->
    forall site rname schema, In (site, rname, schema) (all_config_schemas Tb) -> combo_ok site rname schema.
  Proof.
    unfold shipped_ok, all_config_schemas. cbv zeta. intros Hok site rname schema Hin.
    apply in_flat_map in Hin as [[site' rs] [Hs Hin]]. apply in_flat_map in Hin as [[rname' c] [Hr Hin]].
    apply in_map_iff in Hin as [s [E Hsch]]. cbn [fst snd] in *. injection E as -> -> ->.
    rewrite forallb_forall in Hok. specialize (Hok _ Hs). cbn [fst snd] in Hok.
    rewrite forallb_forall in Hok. specialize (Hok _ Hr). unfold config_ok in Hok. cbn [fst snd] in Hok.
    change (stored_from _ site rname) with (stored Tb site rname) in Hok.
    destruct (stored Tb site rname) as [|st] eqn:Est; [discriminate|].
    rewrite forallb_forall in Hok. cbv zeta in Hok.
    change (td_update Tb RC _ st) with (td_new Tb RC st) in Hok.
    destruct (orb_prop _ _ (Hok _ Hsch)) as [Hd|Hev]; [|exact (schema_ok_spec _ _ _ _ Est Hev)].
    (* the default schema: evaluated under its name *)
    unfold default_named in Hd. destruct schema as [s|]; [discriminate|].
    destruct (dget "default_schema" st) as [| | | |s0| |] eqn:Ed; try discriminate.
    apply andb_true_iff in Hd as [Hne Hx].
    apply (existsb_eqb_In _ (eqb_option_spec _ String.eqb_eq)) in Hx.
    assert (Hne' : s0 <> "") by (intros ->; discriminate).
    destruct (schema_ok_spec _ _ _ (Some s0) Est (Hok _ Hx)) as [Hres Hpl].
    split.
    - intro b. unfold resolve. rewrite (get_resource_config_default _ _ _ _ b Est Ed Hne'). exact (Hres b).
    - rewrite (get_resource_config_default _ _ _ _ false Est Ed Hne'). exact Hpl.
  Qed.
End Shipped.

Lemma shipped_ok_gen : shipped_ok T = true.
Proof. vm_compute. reflexivity. Qed.

Lemma resolves_ok_spec :
  forall r, resolves_ok r = true <->
    exists x, r = inr x /\
      (exists jm fs, r_jm x = Some jm /\ r_fs x = Some fs) /\
      (exists c, r_rm x = inr c) /\
      (exists l, r_lm x = inr l /\ l_order l <> [] /\ l_skipped l = [] /\
                 forall n, In n (l_order l) ->
                   exists c, assoc n (l_launchers l) = Some c /\ c <> "None"%string) /\
      (exists c, r_sched x = inr c) /\ (exists c, r_exec x = inr c) /\
      (exists k ks, r_agent x = inr (k :: ks)).
Proof.
  intros [e|x]; simpl; split.
  - discriminate.
  - intros [x [H _]]; discriminate.
  - intro H. repeat rewrite andb_true_iff in H. destruct H as [[[[[Hep Hrm] Hlm] Hs] He] Ha].
    exists x. split; [reflexivity|].
    unfold ok_endpoints, ok_rm, ok_lms, ok_sched, ok_exec, ok_agent, is_ok in *.
    destruct (r_jm x) as [jm|]; [|discriminate].
    destruct (r_fs x) as [fs|]; [|discriminate].
    destruct (r_rm x) as [|c1]; [discriminate|].
    destruct (r_lm x) as [|l]; [discriminate|].
    destruct (r_sched x) as [|c2]; [discriminate|].
    destruct (r_exec x) as [|c3]; [discriminate|].
    destruct (r_agent x) as [|[|k ks]]; try discriminate.
    repeat rewrite andb_true_iff in Hlm. destruct Hlm as [[Ho Hk] Hall].
    repeat split; eauto.
    + exists l. repeat split.
      * destruct (l_order l); [discriminate|congruence].
      * destruct (l_skipped l); [reflexivity|discriminate].
      * intros n Hn. rewrite forallb_forall in Hall. specialize (Hall n Hn).
        destruct (assoc n (l_launchers l)) as [c|]; [|discriminate].
        exists c. split; [reflexivity|]. intros ->. discriminate.
  - intros [y [Hy [[jm [fs [Hjm Hfs]]] [[c1 Hrm] [[l [Hlm [Ho [Hk Hall]]]] [[c2 Hs] [[c3 He] [k [ks Ha]]]]]]]]].
    injection Hy as <-.
    unfold ok_endpoints, ok_rm, ok_lms, ok_sched, ok_exec, ok_agent, is_ok.
    rewrite Hjm, Hfs, Hrm, Hlm, Hs, He, Ha, Hk. cbn. rewrite !andb_true_r. apply andb_true_iff. split.
    + destruct (l_order l); [congruence|reflexivity].
    + apply forallb_forall. intros n Hn. destruct (Hall n Hn) as [c [-> Hne]].
      apply negb_true_iff, String.eqb_neq, Hne.
Qed.

Lemma cdiv_spec : forall a b, 0 < b -> a <= cdiv a b * b /\ (cdiv a b - 1) * b < a.
Proof.
  intros a b Hb. unfold cdiv.
  pose proof (Z.div_mod (- a) b ltac:(lia)) as Hdm.
  pose proof (Z.mod_pos_bound (- a) b Hb) as Hr.
  nia.
Qed.

Lemma cdiv_least : forall a b m, 0 < b -> a <= m * b -> cdiv a b <= m.
Proof.
  intros a b m Hb Hm. destruct (cdiv_spec a b Hb) as [_ H2]. nia.
Qed.

Definition covers (ac ag cores gpus m : Z) : Prop :=
  cores <= m * ac /\ (0 < ag -> gpus <= m * ag).

Lemma req_nodes_given :
  forall ac ag nodes cores gpus rn,
    nodes <> 0 -> req_nodes ac ag nodes cores gpus = inr rn -> rn = nodes /\ ac <> 0.
Proof.
  intros ac ag nodes cores gpus rn Hn H. unfold req_nodes in H.
  destruct (nodes =? 0) eqn:E; [lia|]. simpl in H.
  destruct (ac =? 0) eqn:E2; [discriminate|]. injection H as <-. lia.
Qed.

Lemma req_nodes_least :
  forall ac ag cores gpus rn,
    0 < ac -> 0 <= ag ->
    req_nodes ac ag 0 cores gpus = inr rn ->
    covers ac ag cores gpus rn /\ forall m, covers ac ag cores gpus m -> rn <= m.
Proof.
  intros ac ag cores gpus rn Hac Hag H. unfold req_nodes in H. simpl in H.
  assert (E1 : (ac =? 0) = false) by lia. rewrite E1 in H. simpl in H.
  assert (E2 : ((ac <? 0) || (ag <? 0)) = false) by lia. rewrite E2 in H.
  destruct (ag =? 0) eqn:E3; simpl in H.
  - injection H as <-. assert (ag = 0) by lia. subst ag.
    destruct (cdiv_spec cores ac Hac) as [H1 H2].
    split; [split; [assumption|lia]|].
    intros m [Hm _]. apply cdiv_least; assumption.
  - assert (Hag' : 0 < ag) by lia.
    destruct (cores * ag <=? gpus * ac) eqn:E4; injection H as <-.
    + destruct (cdiv_spec gpus ag Hag') as [H1 H2].
      split; [split; [nia|intros _; assumption]|].
      intros m [_ Hm]. apply cdiv_least; auto.
    + destruct (cdiv_spec cores ac Hac) as [H1 H2].
      split; [split; [assumption|intros _; nia]|].
      intros m [Hm _]. apply cdiv_least; assumption.
Qed.

Lemma launch_inv :
  forall Tb site rname schema q s,
    launch Tb site rname schema q = inr s ->
    exists p, launch_params Tb site rname schema (q_env_smt q) = inr p /\
              size_pilot p (q_nodes q) (q_cores q) (q_gpus q) (q_backup q) = inr s.
Proof.
  intros Tb site rname schema q s H. unfold launch, launch_params, prepare_pilot, bind in *.
  destruct (get_resource_config Tb site rname schema false) as [|rcfg]; [discriminate|].
  destruct (rc_verify Tb rcfg) as [|rcfg']; [discriminate|].
  destruct (prepare_checks Tb rcfg' q) as [|u]; [discriminate|].
  destruct (node_params rcfg' (q_env_smt q)) as [|p]; [discriminate|].
  exists p. split; [reflexivity|assumption].
Qed.

Lemma size_pilot_inv :
  forall p nodes cores gpus backup s,
    size_pilot p nodes cores gpus backup = inr s ->
    exists rn, req_nodes (avail_cores p) (avail_gpus p) nodes cores gpus = inr rn /\
               s = mk_sized p rn cores gpus backup.
Proof.
  intros p nodes cores gpus backup s H. unfold size_pilot, bind in H.
  destruct (negb (smt_cores p =? 0) && negb (n_bc p =? 0) && negb (0 <? avail_cores p));
    [discriminate|].
  destruct (negb (n_gpn p =? 0) && negb (n_bg p =? 0) && negb (0 <=? avail_gpus p));
    [discriminate|].
  destruct (req_nodes (avail_cores p) (avail_gpus p) nodes cores gpus) as [|rn]; [discriminate|].
  injection H as <-. exists rn. split; reflexivity.
Qed.

Lemma launch_size :
  forall Tb site rname schema q p s,
    launch_params Tb site rname schema (q_env_smt q) = inr p ->
    launch Tb site rname schema q = inr s ->
    size_pilot p (q_nodes q) (q_cores q) (q_gpus q) (q_backup q) = inr s.
Proof.
  intros Tb site rname schema q p s Hp Hs.
  destruct (launch_inv _ _ _ _ _ _ Hs) as [p' [Hp' Hsz]]. congruence.
Qed.

(* the sizing clauses are facts about the arithmetic alone *)
Section Sizing.
  Variable q : request.
  Variables (p : nodeparams) (s : sized).
  Hypothesis Hsz : size_pilot p (q_nodes q) (q_cores q) (q_gpus q) (q_backup q) = inr s.

  (* nodes not given: the job asks for the least number of nodes that covers
     the requested cores and GPUs, plus the backup nodes.  (`_l`: the lemma
     under the theorem of Props/C17.v, or oracle clause, of that name.) *)
  Lemma min_nodes_l :
    q_nodes q = 0 -> 0 < avail_cores p -> 0 <= avail_gpus p ->
    let n := s_node_count s - q_backup q in
    covers (avail_cores p) (avail_gpus p) (q_cores q) (q_gpus q) n /\
    forall m, covers (avail_cores p) (avail_gpus p) (q_cores q) (q_gpus q) m -> n <= m.
  Proof.
    intros Hn Hac Hag. destruct (size_pilot_inv _ _ _ _ _ _ Hsz) as [rn [Hrn ->]].
    rewrite Hn in Hrn. simpl. replace (rn + q_backup q - q_backup q) with rn by lia.
    apply req_nodes_least; assumption.
  Qed.

  (* nodes given: exactly those, plus the backup nodes; the node size is known *)
  Lemma given_nodes_l :
    q_nodes q <> 0 -> s_node_count s = q_nodes q + q_backup q /\ avail_cores p <> 0.
  Proof.
    intros Hn. destruct (size_pilot_inv _ _ _ _ _ _ Hsz) as [rn [Hrn ->]].
    destruct (req_nodes_given _ _ _ _ _ _ Hn Hrn) as [-> Hac]. simpl. split; [reflexivity|assumption].
  Qed.

  (* whole nodes: core and GPU totals are node_count x per-node availability
     (the request is passed through where that product is 0, i.e. the node size is unknown) *)
  Lemma job_counts_l :
    s_node_count s = a_nodes s + q_backup q /\
    s_total_cpu s = (if s_node_count s * avail_cores p =? 0 then q_cores q
                     else s_node_count s * avail_cores p) /\
    s_total_gpu s = (if s_node_count s * avail_gpus p =? 0 then q_gpus q
                     else s_node_count s * avail_gpus p).
  Proof.
    destruct (size_pilot_inv _ _ _ _ _ _ Hsz) as [rn [_ ->]]. simpl. repeat split.
  Qed.

  Lemma agent_told_same_l :
    a_nodes s + a_backup s = s_node_count s /\ a_backup s = q_backup q /\
    a_cores s = s_total_cpu s /\ a_gpus s = s_total_gpu s /\
    p_cpu s = s_total_cpu s /\ p_gpu s = s_total_gpu s.
  Proof.
    destruct (size_pilot_inv _ _ _ _ _ _ Hsz) as [rn [_ ->]]. simpl. repeat split.
  Qed.

  Lemma ok_min_nodes_l : ok_min_nodes p q s = true.
  Proof.
    unfold ok_min_nodes.
    destruct (q_nodes q =? 0) eqn:En; simpl.
    - destruct ((0 <? avail_cores p) && (0 <=? avail_gpus p) && nonneg_req q) eqn:Eg; [|reflexivity].
      unfold nonneg_req in Eg.
      assert (Hn : q_nodes q = 0) by lia.
      assert (Hac : 0 < avail_cores p) by lia.
      assert (Hag : 0 <= avail_gpus p) by lia.
      assert (Hc0 : 0 <= q_cores q) by lia.
      destruct (min_nodes_l Hn Hac Hag) as [[Hc Hg] Hleast].
      set (n := s_node_count s - q_backup q) in *.
      assert (Hnc : ~ covers (avail_cores p) (avail_gpus p) (q_cores q) (q_gpus q) (n - 1)).
      { intro Hcov. specialize (Hleast _ Hcov). lia. }
      unfold covers in Hnc.
      nia.
    - destruct (given_nodes_l ltac:(lia)) as [H _]. lia.
  Qed.

  Lemma ok_job_counts_l : ok_job_counts p s = true.
  Proof.
    unfold ok_job_counts. destruct job_counts_l as [_ [Hc Hg]].
    destruct (s_node_count s * avail_cores p =? 0); destruct (s_node_count s * avail_gpus p =? 0);
      simpl; lia.
  Qed.

  Lemma ok_agent_same_l : ok_agent_same s = true.
  Proof.
    unfold ok_agent_same. destruct agent_told_same_l as [H1 [_ [H2 [H3 _]]]]. lia.
  Qed.
End Sizing.

Lemma wf_avail : forall p, wf_params p = true ->
  0 <= avail_cores p /\ 0 <= avail_gpus p /\ (n_cpn p <> 0 -> 0 < avail_cores p).
Proof.
  intros p H. unfold wf_params in H.
  assert (Hs : smt_cores p = n_cpn p * n_smt p).
  { unfold smt_cores. destruct (negb (n_cpn p =? 0) && negb (n_smt p =? 0)) eqn:E; nia. }
  unfold avail_cores, avail_gpus. rewrite Hs.
  destruct (negb (n_cpn p * n_smt p =? 0) && negb (n_bc p =? 0)) eqn:Ec;
    destruct (negb (n_gpn p =? 0) && negb (n_bg p =? 0)) eqn:Eg; nia.
Qed.

Lemma req_nodes_total :
  forall ac ag nodes cores gpus,
    nodes = 0 \/ ac <> 0 -> exists rn, req_nodes ac ag nodes cores gpus = inr rn.
Proof.
  intros ac ag nodes cores gpus Hn. unfold req_nodes.
  destruct (nodes =? 0) eqn:En; simpl.
  - destruct (if negb (ac =? 0) then _ else _) as [n1 d1].
    destruct (if negb (ag =? 0) then _ else _) as [n2 d2]. eexists; reflexivity.
  - destruct (ac =? 0) eqn:Ea; [lia|]. eexists; reflexivity.
Qed.

Lemma size_pilot_total :
  forall p nodes cores gpus backup,
    wf_params p = true -> (nodes = 0 \/ avail_cores p <> 0) ->
    exists s, size_pilot p nodes cores gpus backup = inr s.
Proof.
  intros p nodes cores gpus backup Hwf Hn.
  destruct (wf_avail p Hwf) as [Hac [Hag Hpos]].
  destruct (req_nodes_total _ (avail_gpus p) _ cores gpus Hn) as [rn Hrn].
  unfold size_pilot. rewrite Hrn.
  assert (E1 : (negb (smt_cores p =? 0) && negb (n_bc p =? 0) && negb (0 <? avail_cores p)) = false).
  { destruct (n_cpn p =? 0) eqn:E0; [|lia].
    unfold smt_cores. rewrite E0. simpl. rewrite E0. reflexivity. }
  assert (E2 : (negb (n_gpn p =? 0) && negb (n_bg p =? 0) && negb (0 <=? avail_gpus p)) = false) by lia.
  rewrite E1, E2. eexists; reflexivity.
Qed.

Definition set_smt (p : nodeparams) (z : Z) : nodeparams :=
  {| n_cpn := n_cpn p; n_gpn := n_gpn p; n_smt := z; n_bc := n_bc p; n_bg := n_bg p |}.

(* node_params does not depend on the environment except for smt *)
Lemma node_params_env :
  forall rcfg p z, node_params rcfg None = inr p -> node_params rcfg (Some z) = inr (set_smt p z).
Proof.
  intros rcfg p z H. unfold node_params, bind in *.
  destruct (dget "system_architecture" rcfg) as [| | | | | |sa]; try discriminate.
  destruct (get_int "cores_per_node" rcfg) as [|cpn]; [discriminate|].
  destruct (get_int "gpus_per_node" rcfg) as [|gpn]; [discriminate|].
  destruct (assoc "smt" sa) as [[| | z0 | | | |]|]; try discriminate;
    (destruct (list_len "blocked_cores" sa) as [|bc]; [discriminate|]);
    (destruct (list_len "blocked_gpus" sa) as [|bg]; [discriminate|]);
    injection H as <-; reflexivity.
Qed.

Definition env_ok (e : option Z) : Prop := match e with None => True | Some z => 1 <= z end.

Section Platform.
  Variable Tb : tables.
  Variable rcfg : dict.

  Lemma platform_of_env :
    forall ma p env, platform_of Tb rcfg None = inr (ma, p) -> wf_params p = true -> env_ok env ->
      exists p', platform_of Tb rcfg env = inr (ma, p') /\ wf_params p' = true.
  Proof.
    intros ma p [z|] H Hwf He; [|exists p; split; assumption].
    exists (set_smt p z). split; [|simpl in He; unfold wf_params in *; simpl; lia].
    unfold platform_of, platform_checks, bind in *.
    destruct (rc_verify Tb rcfg) as [|rcfg']; [discriminate|].
    destruct (mandatory_args rcfg') as [|ma']; [discriminate|].
    destruct (static_checks Tb rcfg') as [|u]; [discriminate|].
    destruct (node_params rcfg' None) as [|p'] eqn:Enp; [discriminate|].
    injection H as <- <-. rewrite (node_params_env _ _ z Enp). reflexivity.
  Qed.

  (* on a platform whose static checks pass, preparing a pilot is the arithmetic *)
  Lemma prepare_on_platform :
    forall q ma p,
      platform_of Tb rcfg (q_env_smt q) = inr (ma, p) ->
      forallb (fun a => mem a (q_present q)) ma = true ->
      prepare_pilot Tb rcfg q = size_pilot p (q_nodes q) (q_cores q) (q_gpus q) (q_backup q).
  Proof.
    intros q ma p H Hma. unfold platform_of, platform_checks, prepare_pilot, prepare_checks, bind in *.
    destruct (rc_verify Tb rcfg) as [|rcfg']; [discriminate|].
    destruct (mandatory_args rcfg') as [|ma']; [discriminate|].
    destruct (static_checks Tb rcfg') as [|u]; [discriminate|].
    destruct (node_params rcfg' (q_env_smt q)) as [|p']; [discriminate|].
    injection H as <- <-. rewrite Hma. reflexivity.
  Qed.

  (* ... and on well-formed node parameters a request gets its job, whose figures
     meet the oracle's clauses, as soon as it names the mandatory arguments and
     does not give nodes where the node size is unknown *)
  Lemma valid_request_sized :
    forall q ma p,
      platform_of Tb rcfg (q_env_smt q) = inr (ma, p) -> wf_params p = true ->
      valid_request ma p q = true ->
      exists s, prepare_pilot Tb rcfg q = inr s /\
                ok_min_nodes p q s = true /\ ok_job_counts p s = true /\ ok_agent_same s = true.
  Proof.
    intros q ma p Hpl Hwf Hv. unfold valid_request in Hv.
    assert (Hma : forallb (fun a => mem a (q_present q)) ma = true) by lia.
    assert (Hn : q_nodes q = 0 \/ avail_cores p <> 0) by lia.
    destruct (size_pilot_total p (q_nodes q) (q_cores q) (q_gpus q) (q_backup q) Hwf Hn) as [s Hs].
    exists s. rewrite (prepare_on_platform _ _ _ Hpl Hma).
    split; [assumption|]. split; [|split].
    - apply ok_min_nodes_l; assumption.
    - eapply ok_job_counts_l; eassumption.
    - eapply ok_agent_same_l; eassumption.
  Qed.
End Platform.

(* every shipped configuration: it is fetched, and from what is fetched every request that
   meets the platform's demands gets its job; a single launch and every pilot of a bulk are instances *)
Lemma shipped_sized :
  forall site rname schema,
    In (site, rname, schema) (all_config_schemas T) ->
    exists rcfg, get_resource_config T site rname schema false = inr rcfg /\
      forall q, env_ok (q_env_smt q) ->
        exists ma p, platform site rname schema (q_env_smt q) = inr (ma, p) /\
          (valid_request ma p q = true ->
           exists s, prepare_pilot T rcfg q = inr s /\
                     ok_min_nodes p q s = true /\ ok_job_counts p s = true /\ ok_agent_same s = true).
Proof.
  intros site rname schema Hin.
  destruct (shipped_ok_spec T shipped_ok_gen _ _ _ Hin) as [_ (rcfg & ma & p & Hg & Hp & Hwf)].
  exists rcfg. split; [assumption|]. intros q He.
  destruct (platform_of_env T rcfg ma p _ Hp Hwf He) as [p' [Hp' Hwf']]. exists ma, p'.
  unfold platform. rewrite Hg. split; [exact Hp' | exact (valid_request_sized T rcfg q ma p' Hp' Hwf')].
Qed.

Lemma map_res_Forall2 :
  forall {A B} (f : A -> res B) l r,
    map_res f l = inr r -> Forall2 (fun x y => f x = inr y) l r.
Proof.
  intros A B f l. induction l as [|x l IH]; intros r H; simpl in H.
  - injection H as <-. constructor.
  - unfold bind in H. destruct (f x) as [|y] eqn:Ex; [discriminate|].
    destruct (map_res f l) as [|ys] eqn:El; [discriminate|].
    injection H as <-. constructor; [assumption|apply IH; reflexivity].
Qed.

Lemma map_res_all :
  forall {A B} (f : A -> res B) (P : A -> B -> Prop) l,
    (forall x, In x l -> exists y, f x = inr y /\ P x y) ->
    exists ys, map_res f l = inr ys /\ Forall2 P l ys.
Proof.
  intros A B f P l. induction l as [|x l IH]; intro H.
  - exists []. split; [reflexivity|constructor].
  - destruct (H x (or_introl eq_refl)) as [y [Hy Hp]].
    destruct IH as [ys [Hys Hall]]; [intros x' Hx'; apply H; right; assumption|].
    exists (y :: ys). split; [simpl; rewrite Hy, Hys; reflexivity | constructor; assumption].
Qed.

(* _start_pilot_bulk fetches the resource config once and prepares every pilot
   of the bulk from it: a bulk is sized pilot by pilot, no pilot's figures
   depend on the pilots prepared before it. *)
Lemma bulk_pilot_by_pilot_l :
  forall Tb site rname schema qs ss,
    launch_bulk Tb site rname schema qs = inr ss ->
    Forall2 (fun q s => launch Tb site rname schema q = inr s) qs ss.
Proof.
  intros Tb site rname schema qs ss H. unfold launch_bulk, launch, bind in *.
  destruct (get_resource_config Tb site rname schema false) as [|rcfg]; [discriminate|].
  apply map_res_Forall2, H.
Qed.

(* reading a name yields v if every write to that name wrote v and either
   there is such a write or v was there before *)
Lemma latest_acc :
  forall {V} (k : nat) (v : V) (l : list (nat * V)) (acc : option V),
    (forall kv, In kv l -> fst kv = k -> snd kv = v) ->
    ((exists kv, In kv l /\ fst kv = k) \/ acc = Some v) ->
    fold_left (fun a kv => if Nat.eqb k (fst kv) then Some (snd kv) else a) l acc = Some v.
Proof.
  intros V k v l. induction l as [|[k' v'] l IH]; intros acc Hall Hex; simpl.
  - destruct Hex as [[kv [[] _]]|Hacc]. assumption.
  - apply IH.
    + intros kv Hin. apply Hall. right; assumption.
    + destruct (Nat.eqb k k') eqn:E.
      * right. apply Nat.eqb_eq in E. subst k'. f_equal.
        exact (Hall (k, v') (or_introl eq_refl) eq_refl).
      * destruct Hex as [[kv [[Heq|Hin] Hk]]|Hacc].
        -- subst kv. simpl in Hk. subst k'. rewrite Nat.eqb_refl in E. discriminate.
        -- left. exists kv. split; assumption.
        -- right. assumption.
Qed.

Lemma nth_error_combine_seq :
  forall {A} (l : list A) (a i : nat),
    nth_error (combine (seq a (List.length l)) l) i = option_map (pair (a + i)%nat) (nth_error l i).
Proof.
  intros A l. induction l as [|x l IH]; intros a [|i]; simpl; try reflexivity.
  - rewrite Nat.add_0_r. reflexivity.
  - rewrite IH, Nat.add_succ_r. reflexivity.
Qed.

Lemma nth_error_enumerate :
  forall {A} (l : list A) (i : nat), nth_error (enumerate l) i = option_map (pair i) (nth_error l i).
Proof. intros A l i. exact (nth_error_combine_seq l 0 i). Qed.

Lemma in_enumerate :
  forall {A} (l : list A) (i : nat) (x : A), In (i, x) (enumerate l) <-> nth_error l i = Some x.
Proof.
  intros A l i x. split.
  - intro H. apply In_nth_error in H as [n Hn]. rewrite nth_error_enumerate in Hn.
    destruct (nth_error l n) eqn:E; [|discriminate]. injection Hn as <- <-. exact E.
  - intro H. apply nth_error_In with i. rewrite nth_error_enumerate, H. reflexivity.
Qed.

(* Whatever local file names are used, as long as no two pilots of the bulk
   share one: the sandbox of pilot i receives the configuration prepared for
   pilot i -- for a bulk of any length, whatever the other pilots are. *)
Lemma staged_cfg_is_own_l :
  forall (name : nat -> nat) (ss : list sized),
    (forall i j, (i < List.length ss)%nat -> (j < List.length ss)%nat -> name i = name j -> i = j) ->
    forall i s, nth_error ss i = Some s -> received name ss i = Some (told_of i s).
Proof.
  intros name ss Hinj i s Hi.
  assert (Hlt : (i < List.length ss)%nat) by (apply nth_error_Some; congruence).
  unfold received. replace (i <? List.length ss)%nat with true by (symmetry; apply Nat.ltb_lt; exact Hlt).
  unfold latest, written. apply latest_acc.
  - intros kv Hin Hk. apply in_map_iff in Hin. destruct Hin as [[j sj] [<- Hin]]. simpl in *.
    apply in_enumerate in Hin.
    assert (Hj : (j < List.length ss)%nat) by (apply nth_error_Some; congruence).
    assert (j = i) by (apply Hinj; assumption). subst j. congruence.
  - left. exists (name i, told_of i s). split; [|reflexivity].
    apply in_map_iff. exists (i, s). split; [reflexivity|]. apply in_enumerate. exact Hi.
Qed.

(* a bulk of any length, any tables: pilot i's job figures are those of `launch`
   on its request alone, and the agent configuration that arrives in its sandbox
   is the one built from exactly those figures for pilot i *)
Lemma bulk_agent_receives_own_l :
  forall Tb site rname schema qs rs i s t,
    launch_bulk_staged Tb site rname schema qs = inr rs ->
    nth_error rs i = Some (s, t) ->
    exists q, nth_error qs i = Some q /\ launch Tb site rname schema q = inr s /\
              t = Some (told_of i s).
Proof.
  intros Tb site rname schema qs rs i s t H Hi. unfold launch_bulk_staged, bind in H.
  destruct (launch_bulk Tb site rname schema qs) as [|ss] eqn:Eb; [discriminate|].
  injection H as <-.
  rewrite nth_error_map, nth_error_enumerate in Hi.
  destruct (nth_error ss i) as [s'|] eqn:Hs'; [|discriminate]. simpl in Hi. injection Hi as -> <-.
  pose proof (bulk_pilot_by_pilot_l _ _ _ _ _ _ Eb) as HF.
  assert (Hq : exists q, nth_error qs i = Some q /\ launch Tb site rname schema q = inr s).
  { clear Eb. revert i Hs'. induction HF as [|q s0 qs' ss' Hl _ IH]; intros i Hs'.
    - destruct i; discriminate.
    - destruct i as [|i]; simpl in *.
      + injection Hs' as ->. exists q. split; [reflexivity|exact Hl].
      + apply IH. exact Hs'. }
  destruct Hq as [q [Hq Hl]]. exists q. repeat split; try assumption.
  apply staged_cfg_is_own_l; [|exact Hs'].
  intros a b _ _ Hab. exact Hab.
Qed.

