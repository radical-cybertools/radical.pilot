(* The recorded cause is a function ([cause_of]) of the last event that set one and of
   whether a terminate command was seen; [arun_cause_of] is the one induction. *)
From Coq Require Import List Bool.
From RP Require Import AgentCause.Model.

(* acc as in Model.last_setter (Some true: lifetime exceeded, Some false: cancel request) *)
Definition cause_of (acc : option bool) (term : bool) : cause :=
  match acc with
  | Some true => CTimeout
  | Some false => CCancel
  | None => if term then CCancel else CNone
  end.

Lemma arun_cause_of es : forall acc term,
  fold_left astep es (cause_of acc term) =
  cause_of (last_setter es acc) (term || existsb is_terminate es).
Proof.
  induction es as [|e r IH]; intros acc term; simpl.
  - rewrite orb_false_r; reflexivity.
  - destruct e as [[|] [|]|[|]| | | |]; simpl; try apply IH.
    + rewrite <- (IH (Some true) term). reflexivity.
    + rewrite <- (IH (Some false) term). reflexivity.
    + (* stop() keeps a recorded cause and counts as cancellation otherwise *)
      rewrite orb_true_r.
      replace (astop (cause_of acc term)) with (cause_of acc true)
        by (destruct acc as [[|]|], term; reflexivity).
      rewrite IH. reflexivity.
Qed.

(* finalize reports exactly the declarative reading, for every event sequence *)
Theorem agent_final_spec es : agent_final es = spec_final es.
Proof.
  unfold agent_final, arun, spec_final.
  change CNone with (cause_of None false). rewrite arun_cause_of. simpl.
  destruct (last_setter es None) as [[|]|]; simpl; try reflexivity.
  destruct (existsb is_terminate es); reflexivity.
Qed.

Lemma last_setter_app a b : forall acc, last_setter (a ++ b) acc = last_setter b (last_setter a acc).
Proof.
  induction a as [|x a IH]; intro acc; [reflexivity|].
  destruct x as [[|] [|]|[|]| | | |]; apply IH.
Qed.

Lemma last_setter_no es acc :
  forallb (fun e => match e with Lifetime true true | CancelPilots true => false | _ => true end) es = true ->
  last_setter es acc = acc.
Proof.
  revert acc; induction es as [|e r IH]; intros acc H; simpl; [reflexivity|].
  simpl in H. apply andb_true_iff in H as [H1 H2].
  destruct e as [[|] [|]|[|]| | | |]; try discriminate; apply IH, H2.
Qed.

Lemma astep_idle c e : is_terminating e = false -> astep c e = c.
Proof. destruct e as [[|] [|]|[|]| | | |]; simpl; congruence. Qed.

Lemma fold_idle es : forallb (fun e => negb (is_terminating e)) es = true ->
  forall c, fold_left astep es c = c.
Proof.
  induction es as [|e r IH]; intros H c; simpl in *; [reflexivity|].
  apply andb_true_iff in H as [H1 H2]. apply negb_true_iff in H1.
  rewrite (astep_idle _ _ H1). exact (IH H2 c).
Qed.
