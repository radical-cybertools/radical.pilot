(* Proofs about the dispatcher / task-process protocol (Raptor.Race): every
   schedule ends with exactly one truthful result.  The two parties have
   finitely many configurations.  A list of them that holds the initial one and
   every successor of each member is an invariant of all schedules; one
   evaluation checks that, and the property on every member.  The completion
   that `race` appends is itself a schedule, so what holds after every schedule
   holds after `race`.
   `sstep` here is Race.sstep, which hides Model.sstep.  Model.proc_results
   summarises the same wrapper sequentially; no lemma relates the two. *)
From Coq Require Import ZArith List Bool.
From RP Require Import Raptor.Model Raptor.Race Raptor.RaceOracle.
Import ListNotations.
Open Scope Z_scope.

Lemma srun_app p timed sg s s' : forall c,
  srun_race p timed sg c (s ++ s') =
  let '(c1, t1) := srun_race p timed sg c s in
  let '(c2, t2) := srun_race p timed sg c1 s' in (c2, t1 ++ t2).
Proof.
  induction s as [|ch r IH]; intro c; simpl.
  - destruct (srun_race p timed sg c s'). reflexivity.
  - destruct (sstep p timed sg c ch) as [c1 t1]. rewrite IH.
    destruct (srun_race p timed sg c1 r) as [c2 t2], (srun_race p timed sg c2 s') as [c3 t3].
    rewrite app_assoc. reflexivity.
Qed.

Lemma finish_srun p timed sg : forall fuel c,
  exists s, finish fuel p timed sg c = srun_race p timed sg c s.
Proof.
  induction fuel as [|f IH]; intro c; simpl; [exists []; reflexivity|].
  destruct (policy p timed c) as [ch|]; [|exists []; reflexivity].
  destruct (IH (fst (sstep p timed sg c ch))) as [s Hs]. exists (ch :: s). simpl.
  destruct (sstep p timed sg c ch) as [c1 t1]. simpl in Hs. rewrite Hs. reflexivity.
Qed.

Lemma race_srun p timed sg s :
  exists s', race p timed sg s = srun_race p timed sg cinit (s ++ s').
Proof.
  destruct (srun_race p timed sg cinit s) as [c1 t1] eqn:E.
  destruct (finish_srun p timed sg race_fuel c1) as [s' Hs].
  exists s'. unfold race. rewrite srun_app, E, Hs. reflexivity.
Qed.

Lemma race_fst p timed sg s :
  fst (race p timed sg s) = fst (finish race_fuel p timed sg (fst (srun_race p timed sg cinit s))).
Proof.
  unfold race. destruct (srun_race p timed sg cinit s) as [c1 t1]. cbn [fst].
  destruct (finish race_fuel p timed sg c1). reflexivity.
Qed.

Lemma sstep_flags p timed sg c ch :
  c_rep (fst (sstep p timed sg c ch)) = c_rep c || t_reported (snd (sstep p timed sg c ch)) /\
  c_kill (fst (sstep p timed sg c ch)) = c_kill c || t_was_killed (snd (sstep p timed sg c ch)).
Proof.
  destruct c as [d t l dn e q rp kl tm e2 bd]. destruct ch; simpl.
  - destruct (enabledD timed _); [|simpl; rewrite !orb_false_r; auto].
    destruct d; simpl; try destruct dn; try destruct (negb (t_dead t)); simpl;
      rewrite ?orb_false_r, ?orb_true_r; auto.
  - destruct (enabledT p _); [|simpl; rewrite !orb_false_r; auto].
    destruct t; simpl; rewrite ?orb_false_r, ?orb_true_r; auto.
  - destruct (timed && negb e); simpl; [rewrite !orb_false_r; auto|].
    destruct d; simpl; try destruct e2; simpl; rewrite !orb_false_r; auto.
  - destruct (tm && negb (t_dead t)); simpl; rewrite !orb_false_r; auto.
Qed.

Lemma srun_flags p timed sg : forall s c,
  c_rep (fst (srun_race p timed sg c s)) = c_rep c || t_reported (snd (srun_race p timed sg c s)) /\
  c_kill (fst (srun_race p timed sg c s)) = c_kill c || t_was_killed (snd (srun_race p timed sg c s)).
Proof.
  induction s as [|ch r IH]; intro c; simpl; [rewrite !orb_false_r; auto|].
  destruct (sstep_flags p timed sg c ch) as [A1 A2].
  destruct (sstep p timed sg c ch) as [c1 t1]. simpl in A1, A2.
  destruct (IH c1) as [B1 B2]. destruct (srun_race p timed sg c1 r) as [c2 t2]. simpl in *.
  unfold t_reported, t_was_killed in *. rewrite !existsb_app, B1, B2, A1, A2, !orb_assoc. auto.
Qed.

(* the property on a final configuration, in terms of the history flags *)
Definition truthful_state (p : pay) (c : cfg) (k : rk) : bool :=
  match k with
  | RReal0 => match p with PayReturn => c_rep c | _ => false end
  | RReal1 => match p with PayRaise => c_rep c | _ => false end
  | RTimeout => c_kill c && negb (c_rep c)
  | RDied => negb (c_kill c) && negb (c_rep c)
  | ROther => false
  end.

Definition ok_cfg (p : pay) (c : cfg) : bool :=
  finished c && ok_one (c_q c) && forallb (truthful_state p c) (c_q c).

(* a request whose call never ends needs a timeout *)
Definition allowed (p : pay) (timed : bool) : bool :=
  match p with PayHang => timed | _ => true end.

Definition cfg_eq_dec (a b : cfg) : {a = b} + {a <> b}.
Proof. repeat decide equality. Defined.

Definition memc (c : cfg) (l : list cfg) : bool := if in_dec cfg_eq_dec c l then true else false.

Lemma memc_In c l : memc c l = true -> In c l.
Proof. unfold memc. destruct (in_dec cfg_eq_dec c l); [trivial|discriminate]. Qed.

Definition choices : list choice := [CD; CT; CX; CK].

Definition succs (p : pay) (timed : bool) (sg : sigr) (c : cfg) : list cfg :=
  map (fun ch => fst (sstep p timed sg c ch)) choices.

(* depth-first collection; nothing is proved about it: its result is checked *)
Fixpoint explore (fuel : nat) (p : pay) (timed : bool) (sg : sigr) (todo seen : list cfg) : list cfg :=
  match fuel, todo with
  | S f, c :: r => if memc c seen then explore f p timed sg r seen
                   else explore f p timed sg (succs p timed sg c ++ r) (c :: seen)
  | _, _ => seen
  end.

(* every configuration any schedule can reach: at most 59, and one unit of fuel
   per entry taken off `todo`, at most 1 + 4 * 59.  With too little of it, or of
   `race_fuel`, `reach_invariant` would fail. *)
Definition reach (p : pay) (timed : bool) (sg : sigr) : list cfg := explore 400 p timed sg [cinit] [].

(* in NO reachable configuration has the dispatcher reported a result while the
   task process still existed -- with or without a timeout, whatever the payload
   does and however it reacts to SIGTERM (it reaches its two put steps only from
   is_alive() = False or from the join() after kill(), and a dead process stays
   dead); and from every one the completion policy ends in a good one *)
Definition good (p : pay) (timed : bool) (sg : sigr) (c : cfg) : bool :=
  negb (c_bad c) && implb (allowed p timed) (ok_cfg p (fst (finish race_fuel p timed sg c))).

(* [R] holds the initial configuration and every successor of each member, and
   every member is good.  It is an argument so that it is evaluated once: a
   constant under the [fun] would be recomputed for every membership test *)
Definition invariant_b (p : pay) (timed : bool) (sg : sigr) (R : list cfg) : bool :=
  memc cinit R &&
  forallb (fun c => forallb (fun c' => memc c' R) (succs p timed sg c) && good p timed sg c) R.

Lemma invariant_srun p timed sg R : invariant_b p timed sg R = true ->
  forall s, good p timed sg (fst (srun_race p timed sg cinit s)) = true.
Proof.
  intros H s. apply andb_true_iff in H as [H0 H]. rewrite forallb_forall in H.
  assert (Hs : In (fst (srun_race p timed sg cinit s)) R).
  { apply memc_In in H0. revert H0. generalize cinit.
    induction s as [|ch r IH]; intros c Hc; simpl; [exact Hc|].
    assert (H1 : In (fst (sstep p timed sg c ch)) R).
    { apply H in Hc. apply andb_true_iff in Hc as [Hc _]. rewrite forallb_forall in Hc.
      apply memc_In, Hc, (in_map (fun ch => fst (sstep p timed sg c ch))). destruct ch; simpl; auto. }
    destruct (sstep p timed sg c ch) as [c1 t1]. specialize (IH c1 H1).
    destruct (srun_race p timed sg c1 r). exact IH. }
  apply H in Hs. apply andb_true_iff in Hs. exact (proj2 Hs).
Qed.

Lemma reach_invariant : forall p timed sg, invariant_b p timed sg (reach p timed sg) = true.
Proof. intros [] [] []; vm_compute; reflexivity. Qed.

Lemma srun_good p timed sg s : good p timed sg (fst (srun_race p timed sg cinit s)) = true.
Proof. exact (invariant_srun p timed sg _ (reach_invariant p timed sg) s). Qed.

Theorem race_ok p timed sg s :
  allowed p timed = true ->
  finished (fst (race p timed sg s)) = true /\
  ok_one (c_q (fst (race p timed sg s))) = true /\
  forallb (truthful_rk p (snd (race p timed sg s))) (c_q (fst (race p timed sg s))) = true.
Proof.
  intro Ha. pose proof (srun_good p timed sg s) as H. apply andb_true_iff in H as [_ H].
  rewrite Ha, <- race_fst in H. unfold ok_cfg in H.
  apply andb_true_iff in H as [H H3]. apply andb_true_iff in H as [H1 H2].
  split; [exact H1|]. split; [exact H2|].
  destruct (race_srun p timed sg s) as [s' E].
  destruct (srun_flags p timed sg (s ++ s') cinit) as [F1 F2]. rewrite <- E in F1, F2.
  rewrite forallb_forall in H3 |- *. intros k Hk. rewrite <- (H3 k Hk).
  unfold truthful_rk, truthful_state. rewrite F1, F2. reflexivity.
Qed.

(* one result, whichever, then the later request's result: the watcher thread
   survives, both requests are handed back, everything is free *)
Lemma watcher_after_one k :
  watcher wst2 (feed [k]) =
  (mkW [false; false] [] [] 3,
   [EvResult 1 (Some (fst (rk_code k))) (snd (rk_code k)) [false; true] [];
    EvResult 2 (Some 0) false [false; false] []], true).
Proof. destruct k; vm_compute; reflexivity. Qed.
