(* However a request ends, the worker's state afterwards is the state before. *)
From Coq Require Import ZArith List.
From RP Require Import Raptor.Model Raptor.Proofs Raptor.Endings Raptor.EndingsOracle.
Open Scope Z_scope.

Lemma dispatch_x_cases tenv m denv p e :
  (exists c, forall w, dispatch_x tenv (m, denv, p, e) w = (c, w, false)) \/
  (exists c acts, forall w, dispatch_x tenv (m, denv, p, e) w = (c, guarded denv acts w, false)) \/
  (exists moved, forall w, dispatch_x tenv (m, denv, p, e) w =
     (fst (dispatch tenv (m, denv, p) w), snd (dispatch tenv (m, denv, p) w), moved)).
Proof. destruct m, e; cbn [dispatch_x]; eauto. Qed.

(* what the comment at `applicable` promises *)
Lemma dispatch_x_inapplicable tenv m denv p e w :
  applicable m e = false ->
  dispatch_x tenv (m, denv, p, e) w =
  (fst (dispatch tenv (m, denv, p) w), snd (dispatch tenv (m, denv, p) w), false).
Proof. destruct m, e; intro H; try discriminate H; reflexivity. Qed.

Lemma dispatch_x_restores tenv r w :
  sync w -> weq (snd (fst (dispatch_x tenv r w))) w /\ sync (snd (fst (dispatch_x tenv r w))).
Proof.
  intro Hs. destruct r as [[[m denv] p] e].
  destruct (dispatch_x_cases tenv m denv p e) as [[c H]|[[c [acts H]]|[moved H]]]; rewrite H; cbn [fst snd].
  - split; [apply weq_refl | exact Hs].
  - apply dispatch_py_restores, Hs.
  - apply dispatch_restores, Hs.
Qed.

Lemma dispatch_x_ext tenv r w1 w2 :
  weq w1 w2 -> fst (fst (dispatch_x tenv r w1)) = fst (fst (dispatch_x tenv r w2)).
Proof.
  intro Hw. destruct r as [[[m denv] p] e].
  destruct (dispatch_x_cases tenv m denv p e) as [[c H]|[[c [acts H]]|[moved H]]]; rewrite !H; cbn [fst snd].
  - reflexivity.
  - reflexivity.
  - apply dispatch_ext, Hw.
Qed.

Theorem rank_request_restores r s :
  sync (r_w s) -> r_cwd s = 0 ->
  weq (r_w (snd (rank_request r s))) (r_w s) /\ sync (r_w (snd (rank_request r s))) /\
  r_cwd (snd (rank_request r s)) = 0 /\ r_tenv (snd (rank_request r s)) = r_tenv s /\
  r_stdio (snd (rank_request r s)) = r_stdio s.
Proof.
  intros Hs Hc. unfold rank_request, direct_request. simpl.
  pose proof (dispatch_x_restores (r_tenv s) r (r_w s) Hs) as [H1 H2].
  destruct (dispatch_x (r_tenv s) r (r_w s)) as [[res w'] moved]. simpl in *. auto.
Qed.

Definition rs_eq (a b : rstate) : Prop :=
  weq (r_w a) (r_w b) /\ r_cwd a = r_cwd b /\ r_tenv a = r_tenv b /\ r_stdio a = r_stdio b.

Lemma rank_request_expected r s s0 :
  rs_eq s s0 -> fst (rank_request r s) = expected_x (r_tenv s0) (r_w s0) r.
Proof.
  intros (Hw & _ & Ht & _). unfold rank_request, direct_request, expected_x. simpl.
  rewrite Ht, <- (dispatch_x_ext (r_tenv s0) r (r_w s) (r_w s0) Hw).
  destruct (dispatch_x (r_tenv s0) r (r_w s)) as [[res w'] moved]. reflexivity.
Qed.

(* every request of every sequence on a persistent rank, whatever its kind and
   however it ends, is answered as on the original state and leaves that state *)
Theorem xrun_rank_isolated : forall rs s0 s,
  sync (r_w s) -> r_cwd s0 = 0 -> rs_eq s s0 ->
  map fst (xrun true s rs) = map (expected_x (r_tenv s0) (r_w s0)) rs /\
  Forall (fun x : dres * rstate => rs_eq (snd x) s0) (xrun true s rs).
Proof.
  induction rs as [|r rs IH]; intros s0 s Hs Hc0 Heq; simpl; [split; constructor|].
  pose proof (rank_request_expected r s s0 Heq) as Hres.
  destruct Heq as (Hw & Hc & Ht & Hio).
  destruct (rank_request_restores r s Hs) as (A1 & A2 & A3 & A4 & A5); [congruence|].
  destruct (rank_request r s) as [res s'] eqn:E. simpl in *.
  assert (Heq : rs_eq s' s0).
  { split; [eapply weq_trans; eauto|]. split; [congruence|]. split; congruence. }
  destruct (IH s0 s' A2 Hc0 Heq) as [I1 I2].
  split; [f_equal; assumption | constructor; assumption].
Qed.
