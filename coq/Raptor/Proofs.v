(* Proofs about the Raptor model (C20).
   Worker: `binv` ties an occupancy map to the list of indices the running
   requests hold; `WInv` is that for both maps of a worker state, `accounted`
   says what a stretch of its history did with the requests handed in.  Both are
   carried through _result_cb, the wait in _alloc, _request_cb and any stream of
   these.  Master: _submit_tasks and _request_cb split a batch by mode.
   Dispatchers: `weq` compares worlds by look-up; `sync`, the agreement
   of os.environ with the process environment, is what makes clear() + update()
   a restore; `tied` is what every os.environ operation keeps.  Scheduler:
   every step conserves the uids (events + backlog). *)
From Coq Require Import ZArith List Bool Lia Permutation.
From RP Require Import Common.ListFacts Raptor.Model Raptor.Oracle.
Import ListNotations.
Open Scope Z_scope.

Definition busy (bm : bitmap) (k : Z) : Prop :=
  0 <= k /\ nth_error bm (Z.to_nat k) = Some true.

Definition binv (bm : bitmap) (held : list Z) : Prop :=
  NoDup held /\ forall k, busy bm k <-> In k held.

Lemma memZ_In x l : memZ x l = true <-> In x l.
Proof. apply (existsb_eqb_In _ Z.eqb_eq). Qed.

Lemma memZ_false x l : memZ x l = false <-> ~ In x l.
Proof. apply (existsb_eqb_not_In _ Z.eqb_eq). Qed.

Lemma filter_split {A} (f : A -> bool) l :
  Permutation (filter f l ++ filter (fun x => negb (f x)) l) l.
Proof.
  induction l as [|a r IH]; simpl; [constructor|]. destruct (f a); simpl.
  - constructor. exact IH.
  - apply Permutation_sym, Permutation_cons_app, Permutation_sym, IH.
Qed.

Lemma conservation_trans {A} {out1 out2 left2 in1 in2 left1 left0 : list A} :
  Permutation (out1 ++ left1) (in1 ++ left0) -> Permutation (out2 ++ left2) (in2 ++ left1) ->
  Permutation ((out1 ++ out2) ++ left2) ((in1 ++ in2) ++ left0).
Proof.
  intros H1 H2. rewrite <- app_assoc, H2.
  rewrite (Permutation_app_swap_app out1 in2 left1), H1, app_assoc.
  apply Permutation_app_tail, Permutation_app_comm.
Qed.

Lemma binv_perm bm h h' : Permutation h h' -> binv bm h -> binv bm h'.
Proof. intros HP [Hn Hk]. split; [rewrite <- HP; exact Hn | intro k; rewrite <- HP; apply Hk]. Qed.

(* entry [k - idx] of [bm] is [b]: the bitmap read with its first entry at [idx] *)
Definition at_from (b : bool) (idx : Z) (bm : bitmap) (k : Z) : Prop :=
  idx <= k /\ nth_error bm (Z.to_nat (k - idx)) = Some b.

Lemma at_from_cons b idx a r k :
  at_from b idx (a :: r) k <-> (k = idx /\ a = b) \/ at_from b (idx + 1) r k.
Proof.
  assert (Hs : idx + 1 <= k -> Z.to_nat (k - idx) = S (Z.to_nat (k - (idx + 1)))) by lia.
  unfold at_from. split.
  - intros [H1 H2]. destruct (Z.eq_dec k idx) as [->|Hne].
    + left. rewrite Z.sub_diag in H2. injection H2 as ->. auto.
    + right. split; [lia|]. rewrite Hs in H2 by lia. exact H2.
  - intros [[-> ->]|[H1 H2]]; (split; [lia|]).
    + rewrite Z.sub_diag. reflexivity.
    + rewrite Hs by lia. exact H2.
Qed.

Lemma busy_at_from bm k : busy bm k <-> at_from true 0 bm k.
Proof. unfold busy, at_from. rewrite Z.sub_0_r. reflexivity. Qed.

Lemma busy_lt bm k : busy bm k -> 0 <= k < Z.of_nat (length bm).
Proof.
  intros [H0 Hn]. assert ((Z.to_nat k < length bm)%nat) by (apply nth_error_Some; congruence). lia.
Qed.

(* [grab] at index [idx] turns [bm] into [bm'] and hands out [l]: the indices
   handed out were free, and are exactly what is newly marked *)
Definition grabbed (idx : Z) (bm bm' : bitmap) (l : list Z) : Prop :=
  length bm' = length bm /\ NoDup l /\
  (forall k, In k l -> at_from false idx bm k) /\
  (forall k, at_from true idx bm' k <-> at_from true idx bm k \/ In k l).

Lemma grabbed_nil idx bm : grabbed idx bm bm [].
Proof.
  split; [reflexivity|]. split; [constructor|]. split; [intros k []|]. intro k. simpl. tauto.
Qed.

Lemma grabbed_cons idx a r r' l :
  grabbed (idx + 1) r r' l ->
  grabbed idx (a :: r) (true :: r') (if a then l else idx :: l).
Proof.
  intros (Hl & Hd & Hfree & Hbusy). split; [simpl; congruence|].
  assert (Hfree' : forall k, In k l -> at_from false idx (a :: r) k)
    by (intros k Hk; apply at_from_cons; right; apply Hfree, Hk).
  split; [|split].
  - destruct a; [exact Hd|]. constructor; [|exact Hd]. intro Hi. destruct (Hfree idx Hi). lia.
  - destruct a; [exact Hfree'|]. intros k [<-|Hk]; [apply at_from_cons; left; auto | exact (Hfree' k Hk)].
  - intro k. rewrite !at_from_cons, Hbusy. destruct a; simpl; intuition congruence.
Qed.

Lemma grab_props : forall bm rem idx bm' l,
  grab rem idx bm = (bm', l) -> grabbed idx bm bm' l.
Proof.
  induction bm as [|a r IH]; intros rem idx bm' l H; simpl in H.
  - injection H as <- <-. apply grabbed_nil.
  - destruct a.
    + destruct (grab rem (idx + 1) r) as [r' l'] eqn:E. injection H as <- <-.
      exact (grabbed_cons idx true _ _ _ (IH _ _ _ _ E)).
    + destruct (rem =? 1).
      * injection H as <- <-. exact (grabbed_cons idx false _ _ _ (grabbed_nil _ r)).
      * destruct (grab (rem - 1) (idx + 1) r) as [r' l'] eqn:E. injection H as <- <-.
        exact (grabbed_cons idx false _ _ _ (IH _ _ _ _ E)).
Qed.

Lemma take_binv bm held want bm' l :
  binv bm held -> take want bm = (bm', l) ->
  binv bm' (l ++ held) /\ length bm' = length bm.
Proof.
  intros [Hn Hk] H. unfold take in H. destruct (want =? 0).
  - injection H as <- <-. split; [split; assumption | reflexivity].
  - destruct (grab_props _ _ _ _ _ H) as (Hl & Hd & Hfree & Hbusy). split; [|exact Hl]. split.
    + apply NoDup_app_iff. repeat split; try assumption. intros j Hj Hh.
      apply Hk, busy_at_from in Hh. destruct Hh as [_ Hb], (Hfree j Hj) as [_ Hf]. congruence.
    + intro k. rewrite in_app_iff, <- Hk, !busy_at_from, Hbusy. tauto.
Qed.

Lemma set_at_len : forall bm i v, length (set_at i v bm) = length bm.
Proof. induction bm as [|a r IH]; intros [|i] v; simpl; auto. Qed.

Lemma nth_error_set_at : forall bm i v j,
  nth_error (set_at i v bm) j =
  if Nat.eqb j i then match nth_error bm j with Some _ => Some v | None => None end
  else nth_error bm j.
Proof.
  induction bm as [|a r IH]; intros i v j.
  - destruct i, j; simpl; try reflexivity. destruct (Nat.eqb j i); reflexivity.
  - destruct i as [|i], j as [|j]; simpl; try reflexivity. apply IH.
Qed.

Lemma busy_clear bm n k :
  0 <= n -> busy (set_at (Z.to_nat n) false bm) k <-> busy bm k /\ k <> n.
Proof.
  intro H0. unfold busy. rewrite nth_error_set_at.
  destruct (Nat.eqb_spec (Z.to_nat k) (Z.to_nat n)) as [E|E].
  - split; [intros [_ H]; destruct (nth_error bm _); discriminate | intros [[Hk _] Hne]; lia].
  - split; [intros [Hk H]; repeat split; auto; intros ->; auto | intros [H _]; exact H].
Qed.

(* a marked index in range: neither IndexError nor AssertionError *)
Lemma release_busy n l bm :
  busy bm n -> release (n :: l) bm = release l (set_at (Z.to_nat n) false bm).
Proof.
  intro Hb. pose proof (busy_lt _ _ Hb) as Hlt. destruct Hb as [H0 Hnth].
  cbn [release]. rewrite (proj2 (Z.ltb_ge n 0)) by lia. cbn iota.
  rewrite (proj2 (Z.ltb_ge n 0)), (proj2 (Z.leb_gt _ n)) by lia. cbn [orb].
  rewrite (nth_error_nth _ _ false Hnth). reflexivity.
Qed.

Lemma release_binv : forall l bm rest,
  binv bm (l ++ rest) ->
  exists bm', release l bm = (bm', None) /\ binv bm' rest /\ length bm' = length bm.
Proof.
  induction l as [|n l IH]; intros bm rest Hb.
  - exists bm. simpl. auto.
  - destruct Hb as [Hn Hk]. inversion Hn as [|? ? Hnotin Hn']; subst.
    assert (Hbusy : busy bm n) by (apply Hk; left; reflexivity).
    rewrite (release_busy _ _ _ Hbusy).
    destruct (IH (set_at (Z.to_nat n) false bm) rest) as (bm' & Hr & Hb' & Hl').
    { split; [exact Hn'|]. intro k. rewrite (busy_clear _ _ _ (proj1 Hbusy)), Hk. simpl. split.
      - intros [[<-|H] Hne]; [congruence | exact H].
      - intro Hin. split; [right; exact Hin | intros ->; contradiction]. }
    exists bm'. split; [exact Hr|]. split; [exact Hb'|]. rewrite Hl'. apply set_at_len.
Qed.

Lemma binv_bm_of bm held : binv bm held -> bm = bm_of (length bm) held.
Proof.
  intros [_ Hk]. unfold bm_of.
  apply (nth_ext _ _ false false); [rewrite map_length, seq_length; reflexivity|].
  intros i Hi. set (f := fun i : nat => memZ (Z.of_nat i) held).
  rewrite (nth_indep (map f (seq 0 (length bm))) false (f 0%nat))
    by (rewrite map_length, seq_length; exact Hi).
  rewrite map_nth, seq_nth by exact Hi. unfold f. simpl.
  destruct (nth_error bm i) as [b|] eqn:Eb; [|apply nth_error_None in Eb; lia].
  rewrite (nth_error_nth _ _ false Eb).
  destruct b, (memZ (Z.of_nat i) held) eqn:Em; try reflexivity.
  - exfalso. apply memZ_false in Em. apply Em. apply Hk. split; [lia|]. rewrite Nat2Z.id. exact Eb.
  - exfalso. apply memZ_In in Em. apply Hk in Em. destruct Em as [_ Em].
    rewrite Nat2Z.id in Em. congruence.
Qed.

Lemma binv_unique bm1 bm2 held :
  binv bm1 held -> binv bm2 held -> length bm1 = length bm2 -> bm1 = bm2.
Proof.
  intros H1 H2 Hl. rewrite (binv_bm_of _ _ H1), (binv_bm_of _ _ H2), Hl. reflexivity.
Qed.

Lemma count_free_cons_true r : count_free (true :: r) = count_free r.
Proof. reflexivity. Qed.
Lemma count_free_cons_false r : count_free (false :: r) = count_free r + 1.
Proof. unfold count_free. simpl. lia. Qed.
Lemma count_free_le bm : 0 <= count_free bm <= Z.of_nat (length bm).
Proof.
  induction bm as [|[] r IH].
  - unfold count_free; simpl; lia.
  - rewrite count_free_cons_true. simpl length. lia.
  - rewrite count_free_cons_false. simpl length. lia.
Qed.

Lemma grab_count : forall bm rem idx,
  1 <= rem <= count_free bm -> Z.of_nat (length (snd (grab rem idx bm))) = rem.
Proof.
  induction bm as [|a r IH]; intros rem idx H.
  - unfold count_free in H; simpl in H; lia.
  - destruct a; simpl.
    + rewrite count_free_cons_true in H.
      specialize (IH rem (idx + 1) H). destruct (grab rem (idx + 1) r); simpl in *. exact IH.
    + rewrite count_free_cons_false in H. destruct (rem =? 1) eqn:E.
      * apply Z.eqb_eq in E. subst. reflexivity.
      * apply Z.eqb_neq in E.
        assert (H' : 1 <= rem - 1 <= count_free r) by lia.
        specialize (IH (rem - 1) (idx + 1) H'). destruct (grab (rem - 1) (idx + 1) r); simpl in *. lia.
Qed.

Lemma bm_of_nil n : bm_of n [] = repeat false n.
Proof.
  unfold bm_of. simpl. generalize 0%nat. induction n as [|n IH]; intro s; simpl; [reflexivity|].
  f_equal. apply IH.
Qed.

Lemma binv_nil bm : binv bm [] -> bm = repeat false (length bm).
Proof. intro H. rewrite <- bm_of_nil. apply binv_bm_of, H. Qed.

Lemma binv_free_count bm : binv bm [] -> count_free bm = Z.of_nat (length bm).
Proof.
  intro H. rewrite (binv_nil _ H), repeat_length.
  induction (length bm) as [|n IH]; [reflexivity|].
  simpl repeat. rewrite count_free_cons_false, IH. lia.
Qed.

Lemma binv_in_range bm held k : binv bm held -> In k held -> 0 <= k < Z.of_nat (length bm).
Proof. intros [_ Hk] Hin. apply busy_lt, Hk, Hin. Qed.

Lemma binv_init n : binv (repeat false n) [].
Proof.
  split; [constructor|]. intro k. split; [|intros []].
  intros [_ H]. apply nth_error_In in H. apply repeat_spec in H. discriminate.
Qed.

Definition hc (pool : list run) : list Z := concat (map u_cores pool).
Definition hg (pool : list run) : list Z := concat (map u_gpus pool).

Definition WInv (nc ng : nat) (st : wst) : Prop :=
  length (w_cb st) = nc /\ length (w_gb st) = ng /\
  binv (w_cb st) (hc (w_pool st)) /\ binv (w_gb st) (hg (w_pool st)).

Definition clean (e : wev) : Prop :=
  match e with
  | EvStart _ _ _ _ _ _ | EvResult _ _ _ _ _ => True
  | EvRaise 1 KeyError => True         (* a stale result: rejected before anything is freed *)
  | _ => False
  end.

Definition res_uids (evs : list wev) : list Z := map fst (results_of evs).

Lemma res_uids_app a b : res_uids (a ++ b) = res_uids a ++ res_uids b.
Proof. unfold res_uids, results_of. rewrite map_app, concat_app, map_app. reflexivity. Qed.

Lemma winit_inv nc ng : WInv nc ng (winit nc ng).
Proof.
  unfold WInv, winit; simpl. rewrite !repeat_length.
  split; [reflexivity|]. split; [reflexivity|]. split; apply binv_init.
Qed.

Lemma WInv_intro nc ng cb gb pool pid :
  length cb = nc -> length gb = ng -> binv cb (hc pool) -> binv gb (hg pool) ->
  WInv nc ng (mkW cb gb pool pid).
Proof. unfold WInv; simpl; auto. Qed.

Lemma pool_remove_some : forall pool pid r pool',
  pool_remove pid pool = Some (r, pool') ->
  exists p1 p2, pool = p1 ++ r :: p2 /\ pool' = p1 ++ p2.
Proof.
  induction pool as [|x rest IH]; intros pid r pool' H; simpl in H; [discriminate|].
  destruct (u_pid x =? pid).
  - injection H as <- <-. exists [], rest. auto.
  - destruct (pool_remove pid rest) as [[y rest']|] eqn:E; [|discriminate].
    injection H as <- <-. destruct (IH _ _ _ E) as (p1 & p2 & -> & ->).
    exists (x :: p1), p2. auto.
Qed.

Lemma pool_remove_none : forall pool pid,
  pool_remove pid pool = None -> ~ In pid (map u_pid pool).
Proof.
  induction pool as [|x rest IH]; intros pid H; simpl in *; [tauto|].
  destruct (u_pid x =? pid) eqn:E; [discriminate|].
  destruct (pool_remove pid rest) as [[y rest']|] eqn:E2; [discriminate|].
  apply Z.eqb_neq in E. intros [Hx|Hx]; [congruence|]. eapply IH; eauto.
Qed.

Lemma held_split (f : run -> list Z) p1 r p2 :
  Permutation (concat (map f (p1 ++ r :: p2))) (f r ++ concat (map f (p1 ++ p2))).
Proof.
  rewrite !map_app, !concat_app. simpl. apply Permutation_app_swap_app.
Qed.

Lemma held_snoc (f : run -> list Z) pool r :
  Permutation (f r ++ concat (map f pool)) (concat (map f (pool ++ [r]))).
Proof. rewrite map_app, concat_app. simpl. rewrite app_nil_r. apply Permutation_app_comm. Qed.

(* what a stretch of the worker's history did with the requests [us] handed in
   during it: nothing failed, and each of them, like each request that was
   running before, has come back or is running now *)
Definition accounted (st : wst) (us : list Z) (st' : wst) (evs : list wev) : Prop :=
  Forall clean evs /\
  Permutation (res_uids evs ++ map u_uid (w_pool st')) (us ++ map u_uid (w_pool st)).

Lemma accounted_refl st : accounted st [] st [].
Proof. split; [constructor | reflexivity]. Qed.

Lemma accounted_trans {st us1 st1 e1 us2 st2 e2} :
  accounted st us1 st1 e1 -> accounted st1 us2 st2 e2 ->
  accounted st (us1 ++ us2) st2 (e1 ++ e2).
Proof.
  intros [C1 P1] [C2 P2]. split; [apply Forall_app; auto|].
  rewrite res_uids_app. exact (conservation_trans P1 P2).
Qed.

(* a request's entry leaves the pool and _dealloc gives back what it held,
   raising nothing: the end of its process, or a process that could not be
   started (for the invariant, one that ended at once) *)
Lemma winv_finish nc ng st p1 r p2 pid :
  WInv nc ng st -> w_pool st = p1 ++ r :: p2 ->
  exists cb' gb', release (u_cores r) (w_cb st) = (cb', None) /\
                  release (u_gpus r) (w_gb st) = (gb', None) /\
                  WInv nc ng (mkW cb' gb' (p1 ++ p2) pid).
Proof.
  intros (Hlc & Hlg & Hbc & Hbg) Hp. rewrite Hp in Hbc, Hbg.
  destruct (release_binv _ _ _ (binv_perm _ _ _ (held_split u_cores p1 r p2) Hbc))
    as (cb' & Hr1 & Hb1 & Hl1).
  destruct (release_binv _ _ _ (binv_perm _ _ _ (held_split u_gpus p1 r p2) Hbg))
    as (gb' & Hr2 & Hb2 & Hl2).
  exists cb', gb'. split; [exact Hr1|]. split; [exact Hr2|].
  apply WInv_intro; try assumption; congruence.
Qed.

Lemma result_cb_spec nc ng st pid code exc st' evs :
  WInv nc ng st -> result_cb st pid code exc = (st', evs) ->
  WInv nc ng st' /\ accounted st [] st' evs /\
  (In pid (map u_pid (w_pool st)) -> S (length (w_pool st')) = length (w_pool st)).
Proof.
  intros Hinv H. unfold result_cb in H.
  destruct (pool_remove pid (w_pool st)) as [[r pool']|] eqn:E.
  - destruct (pool_remove_some _ _ _ _ E) as (p1 & p2 & Hp & ->).
    destruct (winv_finish _ _ _ _ _ _ (w_pid st) Hinv Hp) as (cb' & gb' & Hr1 & Hr2 & Hi).
    rewrite Hr1, Hr2 in H. injection H as <- <-.
    split; [exact Hi|]. split; [split; [repeat constructor|]|]; simpl; rewrite Hp.
    + unfold res_uids. simpl. rewrite !map_app. simpl.
      apply Permutation_cons_app. reflexivity.
    + intros _. rewrite !app_length. simpl. lia.
  - injection H as <- <-. split; [exact Hinv|].
    split; [split; [repeat constructor | reflexivity]|].
    intro Hin. exfalso. eapply pool_remove_none; eauto.
Qed.

Lemma complete_spec nc ng st p st' evs :
  WInv nc ng st -> complete st p = (st', evs) ->
  WInv nc ng st' /\ accounted st [] st' evs /\
  (w_pool st <> [] -> S (length (w_pool st')) = length (w_pool st)).
Proof.
  intros Hinv H. unfold complete in H. destruct p as [[k code] exc].
  destruct (w_pool st) as [|r0 rest] eqn:Ep.
  - injection H as <- <-. split; [exact Hinv|]. split; [apply accounted_refl|].
    rewrite Ep. intro Hx; congruence.
  - rewrite <- Ep in *.
    destruct (result_cb_spec _ _ _ _ _ _ _ _ Hinv H) as (H1 & H2 & H4).
    split; [exact H1|]. split; [exact H2|].
    intros _. apply H4. apply in_map. apply nth_In.
    assert (Hpos : 0 < Z.of_nat (length (w_pool st))) by (rewrite Ep; simpl length; lia).
    pose proof (Z.mod_pos_bound k (Z.of_nat (length (w_pool st))) Hpos). lia.
Qed.

(* _alloc on a worker in order, for a demand within the bound: it does not
   raise, it refuses only while something is running, and with what it hands out
   a process can be started *)
Lemma alloc_cases nc ng st c g :
  WInv nc ng st -> 1 <= c <= Z.of_nat nc -> 0 <= g <= Z.of_nat ng ->
  match alloc (w_cb st) (w_gb st) c g with
  | inl _ => False
  | inr None => w_pool st <> []
  | inr (Some (cb', gb', lc, lg)) =>
      forall uid pid pid', WInv nc ng (mkW cb' gb' (w_pool st ++ [mkRun uid pid lc lg]) pid')
  end.
Proof.
  intros (Hlc & Hlg & Hbc & Hbg) Hc Hg. unfold alloc. rewrite <- Hlc in Hc. rewrite <- Hlg in Hg.
  replace (1 <=? c) with true by (symmetry; apply Z.leb_le; lia).
  replace (c <=? Z.of_nat (length (w_cb st))) with true by (symmetry; apply Z.leb_le; lia).
  replace (g <=? Z.of_nat (length (w_gb st))) with true by (symmetry; apply Z.leb_le; lia).
  simpl.
  destruct (count_free (w_cb st) <? c) eqn:E1; [|destruct (count_free (w_gb st) <? g) eqn:E2].
  - intro Hp. rewrite Hp in Hbc. rewrite (binv_free_count _ Hbc) in E1. apply Z.ltb_lt in E1. lia.
  - intro Hp. rewrite Hp in Hbg. rewrite (binv_free_count _ Hbg) in E2. apply Z.ltb_lt in E2. lia.
  - destruct (take c (w_cb st)) as [cb' lc] eqn:T1. destruct (take g (w_gb st)) as [gb' lg] eqn:T2.
    destruct (take_binv _ _ _ _ _ Hbc T1) as [Hb1 Hl1], (take_binv _ _ _ _ _ Hbg T2) as [Hb2 Hl2].
    intros uid pid pid'. apply WInv_intro; [congruence | congruence | |].
    + exact (binv_perm _ _ _ (held_snoc u_cores _ (mkRun uid pid lc lg)) Hb1).
    + exact (binv_perm _ _ _ (held_snoc u_gpus _ (mkRun uid pid lc lg)) Hb2).
Qed.

Lemma wait_alloc_spec nc ng c g :
  1 <= c <= Z.of_nat nc -> 0 <= g <= Z.of_nat ng ->
  forall fuel st ps, WInv nc ng st -> (length (w_pool st) < fuel)%nat ->
  exists st' evs ps' lc lg,
    wait_alloc fuel st c g ps = WA_Ok st' evs ps' lc lg /\
    (forall uid pid pid',
       WInv nc ng (mkW (w_cb st') (w_gb st') (w_pool st' ++ [mkRun uid pid lc lg]) pid')) /\
    accounted st [] st' evs.
Proof.
  intros Hc Hg. induction fuel as [|f IH]; intros st ps Hinv Hf; [lia|].
  pose proof (alloc_cases _ _ _ _ _ Hinv Hc Hg) as Hal. simpl.
  destruct (alloc (w_cb st) (w_gb st) c g) as [e|[[[[cb' gb'] lc] lg]|]]; [destruct Hal| |].
  - exists (mkW cb' gb' (w_pool st) (w_pid st)), [], ps, lc, lg.
    split; [reflexivity|]. split; [exact Hal | apply (accounted_refl st)].
  - (* a refusal: the watcher completes one running request, which leaves one
       fewer to wait for *)
    destruct (w_pool st) as [|r0 rest] eqn:Ep; [congruence|]. rewrite <- Ep in *.
    destruct (pop_pick ps) as [p ps'].
    destruct (complete st p) as [st1 evs1] eqn:Ec.
    destruct (complete_spec _ _ _ _ _ _ Hinv Ec) as (Hi1 & Ha1 & Hlen1).
    destruct (IH st1 ps' Hi1) as (st' & evs & ps'' & lc & lg & Hw & Hm & Ha);
      [specialize (Hlen1 Hal); lia|].
    rewrite Hw. exists st', (evs1 ++ evs), ps'', lc, lg.
    split; [reflexivity|]. split; [exact Hm|]. exact (accounted_trans Ha1 Ha).
Qed.

Definition req_in_bound (nc ng : nat) (q : req) : Prop := in_bound nc ng q = true.

Lemma in_bound_spec nc ng q : req_in_bound nc ng q ->
  1 <= dflt 1 (q_cores q) <= Z.of_nat nc /\ 0 <= dflt 0 (q_gpus q) <= Z.of_nat ng.
Proof.
  unfold req_in_bound, in_bound. intro H.
  apply andb_true_iff in H as [H H4]. apply andb_true_iff in H as [H H3].
  apply andb_true_iff in H as [H1 H2].
  apply Z.leb_le in H1, H2, H3, H4. lia.
Qed.

Lemma request_cb_spec nc ng : forall batch st ps,
  Forall (req_in_bound nc ng) batch -> WInv nc ng st ->
  exists st' evs,
    request_cb st batch ps = (st', evs, true) /\ WInv nc ng st' /\
    accounted st (map q_uid batch) st' evs.
Proof.
  induction batch as [|q rest IH]; intros st ps Hb Hinv.
  - exists st, []. split; [reflexivity|]. split; [exact Hinv | apply accounted_refl].
  - inversion Hb as [|? ? Hq Hrest]; subst.
    destruct (in_bound_spec _ _ _ Hq) as [Hc Hg].
    destruct (wait_alloc_spec nc ng _ _ Hc Hg (S (length (w_pool st))) st ps Hinv)
      as (st1 & evs1 & ps1 & lc & lg & Hw & Hm & Ha1); [lia|].
    (* the request itself is one more stretch, of one event [ev]: it comes back
       at once when its process cannot be started, and joins the pool
       otherwise; either way the rest of the batch goes on from a state in order *)
    assert (Hgo : forall st2 ev, WInv nc ng st2 -> accounted st1 [q_uid q] st2 [ev] ->
              exists st' evs,
                (let '(st3, evs3, ok) := request_cb st2 rest ps1 in (st3, evs1 ++ ev :: evs3, ok)) = (st', evs, true) /\
                WInv nc ng st' /\ accounted st (map q_uid (q :: rest)) st' evs).
    { intros st2 ev Hi2 Ha2. destruct (IH st2 ps1 Hrest Hi2) as (st' & evs & Hreq & Hi & Ha).
      rewrite Hreq. eexists _, _. split; [reflexivity|]. split; [exact Hi|].
      exact (accounted_trans Ha1 (accounted_trans Ha2 Ha)). }
    cbn [request_cb]. rewrite Hw. destruct (q_startfail q).
    + (* read as started and ended at once: the entry appended last leaves again *)
      destruct (winv_finish _ _ _ _ _ [] (w_pid st1) (Hm (q_uid q) 0 0) eq_refl)
        as (cb' & gb' & Hr1 & Hr2 & Hi2).
      cbn [w_cb w_gb u_cores u_gpus] in Hr1, Hr2. rewrite app_nil_r in Hi2. rewrite Hr1, Hr2.
      apply Hgo; [exact Hi2|]. split; [repeat constructor | reflexivity].
    + apply Hgo; [exact (Hm (q_uid q) (w_pid st1) (w_pid st1 + 1))|].
      split; [repeat constructor|]. simpl. rewrite map_app.
      apply Permutation_sym, Permutation_cons_append.
Qed.

Definition op_in_bound (nc ng : nat) (o : wop) : Prop :=
  match o with OReq b _ => Forall (req_in_bound nc ng) b | _ => True end.

Lemma requests_of_cons o ops :
  requests_of (o :: ops) = (match o with OReq b _ => b | _ => [] end) ++ requests_of ops.
Proof. reflexivity. Qed.

Lemma wstep_spec nc ng st o st' evs :
  op_in_bound nc ng o -> WInv nc ng st -> wstep st o = (st', evs) ->
  WInv nc ng st' /\
  accounted st (map q_uid (match o with OReq b _ => b | _ => [] end)) st' evs.
Proof.
  intros Hb Hinv H. destruct o as [b ps|p|pid]; simpl in *.
  - destruct (request_cb_spec nc ng b st ps Hb Hinv) as (s & e & Hr & H1 & H2).
    rewrite Hr in H. injection H as <- <-. auto.
  - destruct (complete_spec _ _ _ _ _ _ Hinv H) as (H1 & H2 & _). auto.
  - destruct (result_cb_spec _ _ _ _ _ _ _ _ Hinv H) as (H1 & H2 & _). auto.
Qed.

Theorem wrun_spec nc ng : forall ops st st' evs,
  Forall (op_in_bound nc ng) ops -> WInv nc ng st -> wrun st ops = (st', evs) ->
  WInv nc ng st' /\ accounted st (map q_uid (requests_of ops)) st' evs.
Proof.
  induction ops as [|o ops IH]; intros st st' evs Hb Hinv H; simpl in H.
  - injection H as <- <-. split; [exact Hinv | apply accounted_refl].
  - inversion Hb as [|? ? Ho Hops]; subst.
    destruct (wstep st o) as [st1 e1] eqn:E1. destruct (wrun st1 ops) as [st2 e2] eqn:E2.
    injection H as <- <-.
    destruct (wstep_spec _ _ _ _ _ _ Ho Hinv E1) as (Hi1 & Ha1).
    destruct (IH _ _ _ Hops Hi1 E2) as (Hi2 & Ha2).
    split; [exact Hi2|]. rewrite requests_of_cons, map_app.
    exact (accounted_trans Ha1 Ha2).
Qed.

Lemma winv_disjoint nc ng st : WInv nc ng st ->
  NoDup (hc (w_pool st)) /\ NoDup (hg (w_pool st)) /\
  (forall k, In k (hc (w_pool st)) -> 0 <= k < Z.of_nat nc) /\
  (forall k, In k (hg (w_pool st)) -> 0 <= k < Z.of_nat ng).
Proof.
  intros (Hlc & Hlg & Hbc & Hbg). split; [apply Hbc|]. split; [apply Hbg|]. split; intros k Hk.
  - rewrite <- Hlc. eapply binv_in_range; eauto.
  - rewrite <- Hlg. eapply binv_in_range; eauto.
Qed.

Lemma winv_exact nc ng st : WInv nc ng st ->
  w_cb st = bm_of nc (hc (w_pool st)) /\ w_gb st = bm_of ng (hg (w_pool st)).
Proof.
  intros (Hlc & Hlg & Hbc & Hbg). split.
  - rewrite <- Hlc. apply binv_bm_of, Hbc.
  - rewrite <- Hlg. apply binv_bm_of, Hbg.
Qed.

Lemma winv_quiescent nc ng st : WInv nc ng st -> w_pool st = [] ->
  w_cb st = repeat false nc /\ w_gb st = repeat false ng.
Proof.
  intros (Hlc & Hlg & Hbc & Hbg) Hp. rewrite Hp in Hbc, Hbg.
  rewrite <- Hlc, <- Hlg. split; apply binv_nil; assumption.
Qed.

Lemma worker_disjoint nc ng ops st evs :
  Forall (op_in_bound nc ng) ops -> wrun (winit nc ng) ops = (st, evs) ->
  NoDup (hc (w_pool st)) /\ NoDup (hg (w_pool st)) /\
  (forall k, In k (hc (w_pool st)) -> 0 <= k < Z.of_nat nc) /\
  (forall k, In k (hg (w_pool st)) -> 0 <= k < Z.of_nat ng).
Proof.
  intros Hb Hr.
  exact (winv_disjoint _ _ _ (proj1 (wrun_spec nc ng ops _ _ _ Hb (winit_inv nc ng) Hr))).
Qed.

Lemma worker_no_failure nc ng ops st evs :
  Forall (op_in_bound nc ng) ops -> wrun (winit nc ng) ops = (st, evs) -> Forall clean evs.
Proof.
  intros Hb Hr. apply (wrun_spec nc ng ops _ _ _ Hb (winit_inv nc ng) Hr).
Qed.

Lemma target_done_iff : forall u code,
  target_of (u, None, code) = TDone <-> code = Some 0.
Proof.
  intros u [c|]; unfold target_of, dflt; simpl.
  - destruct (c =? 0) eqn:E; split; intro H; try discriminate; try reflexivity.
    + apply Z.eqb_eq in E; subst; reflexivity.
    + injection H as ->. discriminate.
  - split; intro H; discriminate.
Qed.

Definition eeq (a b : env) : Prop := forall k, elookup k a = elookup k b.
Definition weq (a b : world) : Prop :=
  eeq (py_env a) (py_env b) /\ eeq (pr_env a) (pr_env b) /\ bound a = bound b.
(* the process environment agrees with os.environ while it writes through *)
Definition sync (w : world) : Prop := bound w = true -> eeq (pr_env w) (py_env w).

Lemma eeq_refl a : eeq a a. Proof. intro; reflexivity. Qed.
Lemma eeq_sym a b : eeq a b -> eeq b a. Proof. intros H k; symmetry; apply H. Qed.
Lemma eeq_trans a b c : eeq a b -> eeq b c -> eeq a c.
Proof. intros H1 H2 k; rewrite H1; apply H2. Qed.
(* about one environment (`eeq`), whatever the name suggests *)
Lemma weq_view a b : eeq a b -> view a = view b.
Proof. intro H. unfold view. apply map_ext. intro k. apply H. Qed.

Lemma weq_refl a : weq a a. Proof. repeat split; apply eeq_refl. Qed.
Lemma weq_trans a b c : weq a b -> weq b c -> weq a c.
Proof.
  intros (A1 & A2 & A3) (B1 & B2 & B3). split; [eapply eeq_trans; eauto|].
  split; [eapply eeq_trans; eauto | congruence].
Qed.

Lemma elookup_eremove k a e :
  elookup k (eremove a e) = if k =? a then None else elookup k e.
Proof.
  induction e as [|[x v] r IH]; simpl.
  - destruct (k =? a); reflexivity.
  - destruct (x =? a) eqn:E1.
    + rewrite IH. apply Z.eqb_eq in E1. subst. destruct (k =? a) eqn:E2; [reflexivity|].
      rewrite Z.eqb_sym, E2. reflexivity.
    + simpl. destruct (x =? k) eqn:E2.
      * apply Z.eqb_eq in E2. subst. rewrite E1. reflexivity.
      * exact IH.
Qed.

Lemma elookup_eset k a v e :
  elookup k (eset a v e) = if k =? a then Some v else elookup k e.
Proof.
  unfold eset. simpl. rewrite Z.eqb_sym. destruct (k =? a) eqn:E; [reflexivity|].
  rewrite elookup_eremove, E. reflexivity.
Qed.

Lemma eset_ext a v e1 e2 : eeq e1 e2 -> eeq (eset a v e1) (eset a v e2).
Proof. intros H k. rewrite !elookup_eset, H. reflexivity. Qed.
Lemma eremove_ext a e1 e2 : eeq e1 e2 -> eeq (eremove a e1) (eremove a e2).
Proof. intros H k. rewrite !elookup_eremove, H. reflexivity. Qed.

Lemma w_update_bound e w : bound (w_update e w) = bound w.
Proof. induction e as [|[k v] r IH]; simpl; [reflexivity | exact IH]. Qed.

Lemma w_update_py e w k :
  elookup k (py_env (w_update e w)) =
  match elookup k e with Some v => Some v | None => elookup k (py_env w) end.
Proof.
  induction e as [|[a v] r IH]; [reflexivity|].
  change (w_update ((a, v) :: r) w) with (w_set a v (w_update r w)).
  unfold w_set at 1. cbn [py_env elookup]. rewrite elookup_eset, IH, (Z.eqb_sym a k).
  destruct (k =? a); reflexivity.
Qed.

Lemma w_update_pr e w k :
  elookup k (pr_env (w_update e w)) =
  if bound w then match elookup k e with Some v => Some v | None => elookup k (pr_env w) end
  else elookup k (pr_env w).
Proof.
  induction e as [|[a v] r IH]; [simpl; destruct (bound w); reflexivity|].
  change (w_update ((a, v) :: r) w) with (w_set a v (w_update r w)).
  unfold w_set at 1. cbn [pr_env elookup]. rewrite w_update_bound. destruct (bound w) eqn:Eb.
  - rewrite elookup_eset, IH, (Z.eqb_sym a k). destruct (k =? a); reflexivity.
  - exact IH.
Qed.

Lemma eremove_absent k : forall e, elookup k e = None -> eremove k e = e.
Proof.
  induction e as [|[a v] r IH]; simpl; [reflexivity|]. destruct (a =? k); [discriminate|].
  intro H. rewrite (IH H). reflexivity.
Qed.

Lemma w_del_py k w : py_env (w_del k w) = eremove k (py_env w).
Proof.
  unfold w_del. destruct (elookup k (py_env w)) eqn:E; [reflexivity|].
  symmetry. apply eremove_absent, E.
Qed.

(* of the world a python payload sees os.environ only: it prints what it would
   print in a child process started with that environment *)
Lemma run_acts_out : forall l w out err,
  (snd (fst (run_acts l w out err)), snd (run_acts l w out err)) = run_sub l (py_env w) out err.
Proof.
  induction l as [|a r IH]; intros w out err; simpl; [reflexivity|].
  destruct a; rewrite IH; try reflexivity. rewrite w_del_py. reflexivity.
Qed.

Lemma run_sub_ext : forall l e1 e2 out err,
  eeq e1 e2 -> run_sub l e1 out err = run_sub l e2 out err.
Proof.
  induction l as [|a r IH]; intros e1 e2 out err H; simpl; [reflexivity|].
  destruct a; try (apply IH; assumption).
  - apply IH, eset_ext, H.
  - apply IH, eremove_ext, H.
  - rewrite (H k). apply IH, H.
Qed.

Lemma w_del_bound k w : bound (w_del k w) = bound w.
Proof. unfold w_del. destruct (elookup k (py_env w)); reflexivity. Qed.

Lemma fold_eremove_lookup k : forall keys e,
  elookup k (fold_left (fun a kv => eremove (fst kv) a) keys e) =
  if existsb (fun kv : Z * Z => k =? fst kv) keys then None else elookup k e.
Proof.
  induction keys as [|[a v] r IH]; intro e; simpl; [reflexivity|].
  rewrite IH, elookup_eremove. destruct (k =? a); simpl; [|reflexivity].
  destruct (existsb _ r); reflexivity.
Qed.

Lemma elookup_none_keys k : forall e,
  existsb (fun kv : Z * Z => k =? fst kv) e = false -> elookup k e = None.
Proof.
  induction e as [|[a v] r IH]; simpl; [reflexivity|]. intro H.
  apply orb_false_iff in H as [H1 H2]. rewrite Z.eqb_sym, H1. apply IH, H2.
Qed.

(* os.environ.clear() empties the process environment too (of everything
   os.environ knew about), provided the two were in agreement *)
Lemma w_clear_pr w : sync w -> bound w = true -> eeq (pr_env (w_clear w)) [].
Proof.
  intros Hs Hb k. unfold w_clear; simpl. rewrite Hb, fold_eremove_lookup.
  destruct (existsb _ (py_env w)) eqn:E; [reflexivity|].
  rewrite (Hs Hb k). apply elookup_none_keys, E.
Qed.

(* [w'] was reached from [w] by os.environ operations *)
Definition tied (w w' : world) : Prop :=
  sync w' /\ bound w' = bound w /\ (bound w = false -> pr_env w' = pr_env w).

Lemma tied_refl w : sync w -> tied w w.
Proof. intro Hs. split; [exact Hs|]. split; reflexivity. Qed.

Lemma tied_set w k v w' : tied w w' -> tied w (w_set k v w').
Proof.
  intros (Hs & Hb & Hp). split; [|split; [exact Hb|]].
  - intro Hb'. simpl in *. rewrite Hb'. apply eset_ext, Hs, Hb'.
  - intro E. simpl. rewrite Hb, E. exact (Hp E).
Qed.

Lemma tied_del w k w' : tied w w' -> tied w (w_del k w').
Proof.
  intros (Hs & Hb & Hp). unfold w_del. destruct (elookup k (py_env w')); [|repeat split; assumption].
  split; [|split; [exact Hb|]].
  - intro Hb'. simpl in *. rewrite Hb'. apply eremove_ext, Hs, Hb'.
  - intro E. simpl. rewrite Hb, E. exact (Hp E).
Qed.

Lemma tied_clear w w' : tied w w' -> tied w (w_clear w').
Proof.
  intros (Hs & Hb & Hp). split; [exact (w_clear_pr w' Hs)|]. split; [exact Hb|].
  intro E. simpl. rewrite Hb, E. exact (Hp E).
Qed.

Lemma tied_update w e w' : tied w w' -> tied w (w_update e w').
Proof. intro H. induction e as [|[k v] r IH]; [exact H | apply tied_set, IH]. Qed.

Lemma tied_run_acts w l : forall w' out err,
  tied w w' -> tied w (fst (fst (run_acts l w' out err))).
Proof.
  induction l as [|a r IH]; intros w' out err H; simpl; [exact H|].
  destruct a; apply IH; [exact H | exact H | apply tied_set, H | apply tied_del, H | exact H].
Qed.

(* agreement makes the process environment a function of os.environ *)
Lemma tied_weq w w' : sync w -> tied w w' -> eeq (py_env w') (py_env w) -> weq w' w.
Proof.
  intros Hs (Hs' & Hb & Hp) Hpy. split; [exact Hpy|]. split; [|exact Hb].
  destruct (bound w) eqn:E.
  - intro k. rewrite (Hs' Hb k), Hpy. symmetry. apply Hs, E.
  - rewrite (Hp eq_refl). apply eeq_refl.
Qed.

Lemma dispatch_py_snd denv p w :
  snd (dispatch_py denv p w) =
  w_update (py_env w) (w_clear (fst (fst (run_acts (p_acts p) (w_update denv w) [] [])))).
Proof. unfold dispatch_py. destruct (run_acts _ _ [] []) as [[w2 out] err]. reflexivity. Qed.

(* clear() + update(old) puts os.environ back whatever happened in between *)
Theorem dispatch_py_restores denv p w :
  sync w -> weq (snd (dispatch_py denv p w)) w /\ sync (snd (dispatch_py denv p w)).
Proof.
  intro Hs. rewrite dispatch_py_snd.
  assert (Ht : tied w (w_update (py_env w)
                 (w_clear (fst (fst (run_acts (p_acts p) (w_update denv w) [] [])))))).
  { apply tied_update, tied_clear, tied_run_acts, tied_update, tied_refl, Hs. }
  split; [|apply Ht]. apply (tied_weq _ _ Hs Ht).
  intro k. rewrite w_update_py. simpl. destruct (elookup k (py_env w)); reflexivity.
Qed.

(* a sub-process payload cannot touch the worker's world, nor see it *)
Lemma dispatch_sub_snd tenv denv p w : snd (dispatch_sub tenv denv p w) = w.
Proof. unfold dispatch_sub. destruct denv; [destruct (run_sub _ _ [] [])|]; reflexivity. Qed.

Lemma dispatch_sub_fst tenv denv p w1 w2 :
  fst (dispatch_sub tenv denv p w1) = fst (dispatch_sub tenv denv p w2).
Proof. unfold dispatch_sub. destruct denv; [destruct (run_sub _ _ [] [])|]; reflexivity. Qed.

Lemma dispatch_py_ext de p w1 w2 :
  weq w1 w2 -> fst (dispatch_py de p w1) = fst (dispatch_py de p w2).
Proof.
  intros [H _]. unfold dispatch_py.
  assert (He : eeq (py_env (w_update de w1)) (py_env (w_update de w2)))
    by (intro k; rewrite !w_update_py, (H k); reflexivity).
  apply (run_sub_ext (p_acts p) _ _ [] []) in He. rewrite <- !run_acts_out in He.
  destruct (run_acts (p_acts p) (w_update de w1) [] []) as [[a1 o1] e1].
  destruct (run_acts (p_acts p) (w_update de w2) [] []) as [[a2 o2] e2].
  injection He as -> ->. reflexivity.
Qed.

Lemma dispatch_restores tenv r w :
  sync w -> weq (snd (dispatch tenv r w)) w /\ sync (snd (dispatch tenv r w)).
Proof.
  intro Hs. destruct r as [[m denv] p]. destruct m; cbn [dispatch].
  1-3: apply dispatch_py_restores, Hs.
  all: rewrite dispatch_sub_snd; split; [apply weq_refl | exact Hs].
Qed.

Lemma dispatch_ext tenv r w1 w2 :
  weq w1 w2 -> fst (dispatch tenv r w1) = fst (dispatch tenv r w2).
Proof.
  intro H. destruct r as [[m denv] p]. destruct m; cbn [dispatch].
  1-3: apply dispatch_py_ext, H.
  all: apply dispatch_sub_fst.
Qed.

Lemma dispatch_expected tenv r w : fst (dispatch tenv r w) = expected tenv w r.
Proof.
  destruct r as [[m denv] p]. destruct m; unfold dispatch, expected.
  1-3: unfold dispatch_py; destruct (run_acts (p_acts p) _ [] []) as [[a o] e]; reflexivity.
  all: unfold dispatch_sub; destruct denv; [destruct (run_sub (p_acts p) _ [] [])|]; reflexivity.
Qed.

Definition py_mode (m : dmode) : Prop := m = DFunc \/ m = DEval \/ m = DExec.

Lemma expected_py tenv w0 m denv p :
  py_mode m ->
  exists out err, expected tenv w0 (m, denv, p) =
    match p_fin p with
    | FReturn v => mkRes (Some out) err None 0 (Some v) false
    | FRaise x => mkRes (Some out) err (Some x) 1 None true
    end.
Proof.
  intro Hm. unfold expected. destruct (run_acts (p_acts p) _ [] []) as [[a out] err].
  exists out, err. destruct Hm as [->|[->| ->]]; reflexivity.
Qed.

Lemma expected_truthful tenv w0 r :
  (d_ret (expected tenv w0 r) =? 0) = succeeded r /\
  (forall m denv acts v, r = (m, denv, mkPayload acts (FReturn v)) -> py_mode m ->
     d_val (expected tenv w0 r) = Some v /\ d_exc (expected tenv w0 r) = false
     /\ d_fail (expected tenv w0 r) = None) /\
  (forall m denv acts x, r = (m, denv, mkPayload acts (FRaise x)) -> py_mode m ->
     d_ret (expected tenv w0 r) = 1 /\ d_val (expected tenv w0 r) = None
     /\ d_exc (expected tenv w0 r) = true /\ d_fail (expected tenv w0 r) = Some x).
Proof.
  split; [|split].
  - destruct r as [[m denv] p]. destruct m; unfold expected, succeeded.
    1-3: destruct (run_acts (p_acts p) _ [] []) as [[a o] e]; destruct (p_fin p); reflexivity.
    all: destruct denv; [destruct (run_sub (p_acts p) _ [] [])|]; destruct (p_fin p); reflexivity.
  - intros m denv acts v -> Hm.
    destruct (expected_py tenv w0 m denv (mkPayload acts (FReturn v)) Hm) as (out & err & ->). simpl. auto.
  - intros m denv acts x -> Hm.
    destruct (expected_py tenv w0 m denv (mkPayload acts (FRaise x)) Hm) as (out & err & ->). simpl. auto.
Qed.

(* every request of a sequence is answered as on a fresh worker, and leaves
   the worker's environment as it found it *)
Theorem drun_isolated tenv : forall rs w0 w,
  sync w -> weq w w0 ->
  map fst (drun tenv w rs) = map (expected tenv w0) rs /\
  Forall (fun x : dres * world => weq (snd x) w0) (drun tenv w rs).
Proof.
  induction rs as [|r rs IH]; intros w0 w Hs Hw; simpl; [split; constructor|].
  destruct (dispatch tenv r w) as [res w'] eqn:E.
  destruct (dispatch_restores tenv r w Hs) as [Hr Hs']. rewrite E in Hr, Hs'. simpl in Hr, Hs'.
  assert (Hw' : weq w' w0) by (eapply weq_trans; eauto).
  destruct (IH w0 w' Hs' Hw') as [H1 H2]. simpl. split.
  - f_equal; [|exact H1].
    change res with (fst (res, w')). rewrite <- E, <- dispatch_expected. apply dispatch_ext, Hw.
  - constructor; [exact Hw' | exact H2].
Qed.

Definition is_exec_task (t : itask) : bool := is_executable (submit_mode t).

Lemma agent_path_app a b : agent_path (a ++ b) = agent_path a ++ agent_path b.
Proof. unfold agent_path. rewrite map_app, concat_app. reflexivity. Qed.
Lemma worker_path_app a b : worker_path (a ++ b) = worker_path a ++ worker_path b.
Proof. unfold worker_path. rewrite map_app, concat_app. reflexivity. Qed.
Lemma agent_path_inserts l : agent_path (map (fun t => MInsert (i_uid t)) l) = [].
Proof. induction l as [|a r IH]; [reflexivity | exact IH]. Qed.
Lemma worker_path_inserts l : worker_path (map (fun t => MInsert (i_uid t)) l) = [].
Proof. induction l as [|a r IH]; [reflexivity | exact IH]. Qed.

(* the two blocks of events Master._submit_tasks emits, each for a non-empty
   share of the batch only *)
Lemma exec_events_paths l :
  let b := match l with
           | [] => []
           | _ => map (fun t => MInsert (i_uid t)) l
                  ++ [MAdvance (map i_uid l) S_STAGING_INPUT_PENDING true true]
           end in
  agent_path b = map i_uid l /\ worker_path b = [].
Proof.
  destruct l as [|t l]; [split; reflexivity|]. cbv zeta.
  rewrite agent_path_app, worker_path_app, agent_path_inserts, worker_path_inserts.
  split; [apply app_nil_r | reflexivity].
Qed.

Lemma request_events_paths l :
  let b := match l with
           | [] => []
           | _ => [MAdvance (map i_uid l) S_SCHEDULING true false; MReqPut (map i_uid l)]
           end in
  agent_path b = [] /\ worker_path b = map i_uid l.
Proof. destruct l as [|t l]; split; try reflexivity. apply app_nil_r. Qed.

(* executable requests take the agent path (advance with push to
   AGENT_STAGING_INPUT_PENDING), all others the workers' request queue *)
Lemma routing_by_mode ts evs :
  submit_tasks ts = inr evs ->
  agent_path evs = map i_uid (filter is_exec_task ts) /\
  worker_path evs = map i_uid (filter (fun t => negb (is_exec_task t)) ts) /\
  Permutation (agent_path evs ++ worker_path evs) (map i_uid ts).
Proof.
  unfold submit_tasks. destruct ts as [|t0 ts'] eqn:E; [intro H; injection H as <-; auto|].
  rewrite <- E. clear E. destruct (negb (forallb (fun t => snd (fst t)) ts)); [discriminate|].
  intro H. injection H as <-. rewrite agent_path_app, worker_path_app.
  destruct (exec_events_paths (filter (fun t => is_executable (submit_mode t)) ts)) as [-> ->].
  destruct (request_events_paths (filter (fun t => negb (is_executable (submit_mode t))) ts)) as [-> ->].
  rewrite app_nil_r, app_nil_l. split; [reflexivity|]. split; [reflexivity|].
  rewrite <- map_app. apply Permutation_map, filter_split.
Qed.

Lemma submit_accepts ts :
  forallb (fun t : itask => snd (fst t)) ts = true -> exists evs, submit_tasks ts = inr evs.
Proof.
  intro H. unfold submit_tasks. destruct ts as [|t0 ts']; [eauto|].
  unfold itask in *. rewrite H. eexists; reflexivity.
Qed.

Lemma mscan_spec : forall ts acc,
  forallb (fun t : itask => snd (fst t) && match snd t with Some _ => true | None => false end) ts = true ->
  mscan ts acc = (acc ++ map i_uid (filter is_exec_task ts), true).
Proof.
  induction ts as [|t r IH]; intros acc H; simpl in *; [rewrite app_nil_r; reflexivity|].
  apply andb_true_iff in H as [H1 H2]. apply andb_true_iff in H1 as [Hd Hm].
  rewrite Hd. simpl. unfold is_exec_task, submit_mode. destruct (snd t) as [m|]; [|discriminate].
  rewrite (IH _ H2). destruct (is_executable m); simpl; rewrite <- ?app_assoc; reflexivity.
Qed.

(* coq/Relay models the same code of base.py again, with its queue and cancel
   list (C05, C08); the two do not depend on each other *)
Definition sev_uids (e : sev) : list Z :=
  match e with SPut _ us => us | SLocal us => us | SFail u => [u] | SCancel us => us end.
Definition evs_uids (evs : list sev) : list Z := concat (map sev_uids evs).
Definition sop_uids (o : sop) : list Z :=
  match o with SIncoming ts => map s_uid ts | _ => [] end.

Lemma evs_uids_app a b : evs_uids (a ++ b) = evs_uids a ++ evs_uids b.
Proof. unfold evs_uids. rewrite map_app, concat_app. reflexivity. Qed.
Lemma evs_uids_cons e l : evs_uids (e :: l) = sev_uids e ++ evs_uids l.
Proof. reflexivity. Qed.
Lemma evs_uids_one e : evs_uids [e] = sev_uids e.
Proof. apply app_nil_r. Qed.

Lemma badd_perm k v : forall b,
  Permutation (backlog_uids (badd k v b)) (v ++ backlog_uids b).
Proof.
  unfold backlog_uids. induction b as [|[a x] r IH]; simpl.
  - reflexivity.
  - destruct (a =? k); simpl.
    + rewrite <- app_assoc. apply Permutation_app_swap_app.
    + rewrite IH. apply Permutation_app_swap_app.
Qed.

Lemma group_add_badd k u : forall g, group_add k u g = badd k [u] g.
Proof. induction g as [|[a x] r IH]; simpl; [reflexivity|]. rewrite IH. reflexivity. Qed.

Lemma bremove_perm k us : forall b,
  blookup k b = Some us ->
  Permutation (backlog_uids b) (us ++ backlog_uids (bremove k b)).
Proof.
  unfold backlog_uids. induction b as [|[a x] r IH]; simpl; [discriminate|].
  destruct (a =? k).
  - intro H. injection H as <-. reflexivity.
  - intro H. simpl. rewrite (IH H). apply Permutation_app_swap_app.
Qed.

Lemma rr_uids names n : forall us idx, evs_uids (rr names n idx us) = us.
Proof.
  induction us as [|u r IH]; intro idx; [reflexivity|].
  cbn [rr]. rewrite evs_uids_cons, IH. reflexivity.
Qed.

Lemma classify_perm ts :
  Permutation (fst (classify ts) ++ backlog_uids (snd (classify ts))) (map s_uid ts).
Proof.
  (* for any accumulator the fold starts from *)
  unfold classify.
  transitivity (map s_uid ts ++ fst (@nil Z, @nil (Z * list Z)) ++ backlog_uids (snd (@nil Z, @nil (Z * list Z))));
    [|simpl; rewrite app_nil_r; reflexivity].
  generalize (@nil Z, @nil (Z * list Z)).
  induction ts as [|[[[u rid] w] seen] ts IH]; intros [loc rap]; [reflexivity|].
  cbn [fold_left map s_uid fst snd].
  assert (Hloc : forall l r, Permutation (map s_uid ts ++ (l ++ [u]) ++ r) (u :: map s_uid ts ++ l ++ r)).
  { intros l r. rewrite <- app_assoc. simpl.
    apply Permutation_sym. rewrite !app_assoc. apply Permutation_middle. }
  destruct rid as [name|]; [destruct (negb w); [destruct seen|]|];
    try (rewrite IH; apply Hloc).
  rewrite IH. cbn [fst snd]. rewrite group_add_badd, badd_perm. simpl.
  apply Permutation_sym. rewrite !app_assoc. apply Permutation_middle.
Qed.

Lemma backlog_uids_cons k us r : backlog_uids ((k, us) :: r) = us ++ backlog_uids r.
Proof. reflexivity. Qed.

Lemma fail_uids_map us : evs_uids (map SFail us) = us.
Proof. induction us as [|u r IH]; [reflexivity|]. cbn [map]. rewrite evs_uids_cons, IH. reflexivity. Qed.

Lemma forward_perm : forall groups st,
  Permutation (evs_uids (snd (forward st groups)) ++ backlog_uids (s_backlog (fst (forward st groups))))
              (backlog_uids groups ++ backlog_uids (s_backlog st)).
Proof.
  induction groups as [|[name us] r IH]; intro st; [reflexivity|].
  cbn [forward]. rewrite backlog_uids_cons.
  (* three of the four cases go on from [st] and put events for [us] in front *)
  pose proof (IH st) as IHst. destruct (forward st r) as [st' evs]. cbn [fst snd] in IHst.
  assert (Hemit : forall e, evs_uids e = us ->
            Permutation (evs_uids (e ++ evs) ++ backlog_uids (s_backlog st'))
                        ((us ++ backlog_uids r) ++ backlog_uids (s_backlog st))).
  { intros e He. rewrite evs_uids_app, He, <- !app_assoc. apply Permutation_app_head, IHst. }
  destruct (memZ name (s_queues st)); [|destruct (negb _ && _); [|destruct (memZ name (s_gone st))]];
    cbn [fst snd].
  - apply (Hemit [SPut name us]), evs_uids_one.
  - apply Hemit, rr_uids.
  - apply Hemit, fail_uids_map.
  - rewrite IH. cbn [s_backlog]. rewrite badd_perm, <- !app_assoc. apply Permutation_app_swap_app.
Qed.

Lemma perm4 {A} (a b c d x y : list A) :
  Permutation (a ++ c) x -> Permutation (b ++ d) y ->
  Permutation ((a ++ b) ++ (c ++ d)) (x ++ y).
Proof.
  intros H1 H2. rewrite <- H1, <- H2, <- !app_assoc. apply Permutation_app_head.
  apply Permutation_app_swap_app.
Qed.

Lemma cancel_perm uids : forall b,
  Permutation (snd (cancel_backlog uids b) ++ backlog_uids (fst (cancel_backlog uids b)))
              (backlog_uids b).
Proof.
  unfold cancel_backlog, backlog_uids. cbn [fst snd].
  induction b as [|[k l] r IH]; [reflexivity|]. cbn [map concat fst snd].
  apply perm4; [apply filter_split | exact IH].
Qed.

Lemma sstep_perm st o :
  Permutation (evs_uids (snd (sstep st o)) ++ backlog_uids (s_backlog (fst (sstep st o))))
              (sop_uids o ++ backlog_uids (s_backlog st)).
Proof.
  destruct o as [ts|name|name|uids]; cbn [sstep sop_uids].
  - pose proof (classify_perm ts) as Hc. destruct (classify ts) as [loc rap]. cbn [fst snd] in Hc.
    pose proof (forward_perm rap st) as Hf. destruct (forward st rap) as [st' evs]. cbn [fst snd] in *.
    rewrite evs_uids_app.
    assert (Hl : evs_uids (match loc with [] => [] | _ => [SLocal loc] end) = loc).
    { destruct loc; [reflexivity | apply evs_uids_one]. }
    rewrite Hl, <- Hc. rewrite <- app_assoc.
    rewrite (Permutation_app_swap_app (evs_uids evs) loc). rewrite Hf.
    rewrite <- app_assoc. reflexivity.
  - destruct (blookup name (s_backlog st)) as [us|] eqn:E1.
    + destruct (blookup 0 (bremove name (s_backlog st))) as [us2|] eqn:E2; cbn [fst snd s_backlog app].
      * rewrite (bremove_perm _ _ _ E1), (bremove_perm _ _ _ E2).
        rewrite evs_uids_cons, evs_uids_one, <- app_assoc. reflexivity.
      * rewrite (bremove_perm _ _ _ E1), evs_uids_one. reflexivity.
    + destruct (blookup 0 (s_backlog st)) as [us2|] eqn:E2; cbn [fst snd s_backlog app].
      * rewrite (bremove_perm _ _ _ E2), evs_uids_one. reflexivity.
      * reflexivity.
  - destruct (blookup name (s_backlog st)) as [us|] eqn:E1; cbn [fst snd s_backlog].
    + rewrite fail_uids_map, (bremove_perm _ _ _ E1). reflexivity.
    + reflexivity.
  - pose proof (cancel_perm uids (s_backlog st)) as Hc.
    destruct (cancel_backlog uids (s_backlog st)) as [b' c]. cbn [fst snd s_backlog] in *.
    rewrite evs_uids_one. exact Hc.
Qed.

Lemma srun_conservation : forall ops st,
  Permutation (evs_uids (snd (srun st ops)) ++ backlog_uids (s_backlog (fst (srun st ops))))
              (concat (map sop_uids ops) ++ backlog_uids (s_backlog st)).
Proof.
  induction ops as [|o ops IH]; intro st; [reflexivity|].
  cbn [srun map concat].
  pose proof (sstep_perm st o) as H1. destruct (sstep st o) as [s1 e1]. cbn [fst snd] in H1.
  specialize (IH s1). destruct (srun s1 ops) as [s2 e2]. cbn [fst snd] in *.
  rewrite evs_uids_app. exact (conservation_trans H1 IH).
Qed.
