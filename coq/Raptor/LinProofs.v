(* The clauses lin_disjoint, lin_accounting and lin_quiescent that judge a
   two-thread outcome (Raptor.Lin) hold for the outcome of every worker state
   that satisfies WInv, so for the sequential model after EVERY operation
   sequence within the demand bound: an observed outcome that equals a
   sequential one passes them.  lin_once is not covered here. *)
From Coq Require Import ZArith List Bool Lia Permutation.
From RP Require Import Common.Eqb Raptor.Model Raptor.Oracle Raptor.Proofs Raptor.Lin.
Open Scope Z_scope.

Lemma insert_by_perm {A} (key : A -> Z) x l : Permutation (insert_by key x l) (x :: l).
Proof.
  induction l as [|y r IH]; simpl; [reflexivity|].
  destruct (key x <=? key y); [reflexivity|].
  rewrite IH. apply perm_swap.
Qed.

Lemma isort_perm {A} (key : A -> Z) l : Permutation (isort key l) l.
Proof.
  induction l as [|x r IH]; simpl; [constructor|].
  rewrite insert_by_perm. constructor. exact IH.
Qed.

Lemma nodupb_NoDup l : NoDup l -> nodupb l = true.
Proof.
  induction 1 as [|x l Hx Hn IH]; simpl; [reflexivity|].
  rewrite IH, andb_true_r. apply negb_true_iff, memZ_false, Hx.
Qed.

Lemma in_range_spec n l : (forall k, In k l -> 0 <= k < Z.of_nat n) -> in_range n l = true.
Proof.
  intro H. apply forallb_forall. intros x Hx. specialize (H x Hx).
  apply andb_true_iff. split; [apply Z.leb_le | apply Z.ltb_lt]; lia.
Qed.

Lemma bm_eqb_refl l : bm_eqb l l = true.
Proof. apply eqb_list_refl, Bool.eqb_reflx. Qed.

Lemma all_free_repeat n : all_free (repeat false n) = true.
Proof. induction n as [|n IH]; simpl; auto. Qed.

Lemma held_isort_perm {A} key (f : run -> A) (g : A -> list Z) pool :
  Permutation (concat (map g (isort key (map f pool)))) (concat (map (fun u => g (f u)) pool)).
Proof. rewrite <- !flat_map_concat_map, isort_perm, !flat_map_concat_map, map_map. reflexivity. Qed.

Theorem winv_outcome_ok nc ng st evs :
  WInv nc ng st ->
  let o := outcome_of (st, evs) in
  lin_disjoint nc ng o = true /\ lin_accounting nc ng o = true /\ lin_quiescent o = true.
Proof.
  intros (Hlc & Hlg & Hbc & Hbg). cbv zeta.
  (* the outcome lists what is held in another order: the maps mark exactly that, too *)
  apply (binv_perm _ _ (o_cores (outcome_of (st, evs))) (Permutation_sym (held_isort_perm _ _ (fun x => snd (fst x)) _))) in Hbc.
  apply (binv_perm _ _ (o_gpus (outcome_of (st, evs))) (Permutation_sym (held_isort_perm _ _ snd _))) in Hbg.
  split; [|split].
  - unfold lin_disjoint. rewrite !andb_true_iff. repeat split.
    + apply nodupb_NoDup, Hbc.
    + apply nodupb_NoDup, Hbg.
    + apply in_range_spec. rewrite <- Hlc. intro k. apply (binv_in_range _ _ _ Hbc).
    + apply in_range_spec. rewrite <- Hlg. intro k. apply (binv_in_range _ _ _ Hbg).
  - unfold lin_accounting. rewrite <- Hlc, <- Hlg, <- (binv_bm_of _ _ Hbc), <- (binv_bm_of _ _ Hbg).
    cbn [outcome_of]. rewrite !bm_eqb_refl. reflexivity.
  - unfold lin_quiescent, o_cores, o_gpus, outcome_of in *.
    destruct (isort _ (map _ (w_pool st))); [|reflexivity].
    rewrite (binv_nil _ Hbc), (binv_nil _ Hbg), !all_free_repeat. reflexivity.
Qed.

