(* C10 / the rank synchronisation rp_sync_ranks (Script.Model: bev, bstep, brun): for EVERY
   schedule of arrivals and polls of the concurrently running ranks the marker file only grows,
   no rank leaves before RP_RANKS lines are there, and once they are the next poll of any arrived
   rank lets it pass, whatever the arrival order.
   Unbounded in the number of ranks and in the schedule (induction over schedules). *)
From Coq Require Import ZArith List Bool Lia Permutation.
From RP Require Import Common.ZRange Common.ListFacts Script.Model.
Import ListNotations.
Open Scope Z_scope.

Lemma brun_app n a b s : brun n (a ++ b) s = brun n b (brun n a s).
Proof. unfold brun. apply fold_left_app. Qed.

Lemma brun_cons n e a s : brun n (e :: a) s = brun n a (bstep n e s).
Proof. reflexivity. Qed.

Lemma bstep_poll_file n r s : b_file (bstep n (Poll r) s) = b_file s.
Proof. simpl. destruct (_ && _ && _); reflexivity. Qed.

(* the marker file is exactly the arrivals so far, in order: it never shrinks *)
Lemma barrier_file_lemma n sched : forall s, b_file (brun n sched s) = b_file s ++ arrivals sched.
Proof.
  induction sched as [|e sched IH]; intro s.
  - simpl. now rewrite app_nil_r.
  - rewrite brun_cons, IH. destruct e as [r|r].
    + simpl. now rewrite <- app_assoc.
    + rewrite bstep_poll_file. reflexivity.
Qed.

Lemma brun_passed_mono n sched s r : In r (b_passed s) -> In r (b_passed (brun n sched s)).
Proof.
  apply (fold_left_inv _ (fun s => In r (b_passed s))). intros x e _ H.
  destruct e as [r0|r0]; simpl; [exact H|]. destruct (_ && _ && _); simpl; auto.
Qed.

(* invariant: whoever has passed has arrived, and saw at least n lines *)
Definition binv (n : nat) (s : bst) : Prop :=
  forall r, In r (b_passed s) -> In r (b_file s) /\ (n <= List.length (b_file s))%nat.

Lemma bstep_inv n e s : binv n s -> binv n (bstep n e s).
Proof.
  intros I r H. destruct e as [r0|r0]; simpl in *.
  - destruct (I r H) as [A B0]. split; [apply in_or_app; now left|].
    rewrite app_length. simpl. lia.
  - destruct (bmemZ r0 (b_file s) && negb (bmemZ r0 (b_passed s)) && Nat.leb n (List.length (b_file s))) eqn:E.
    + simpl in *. apply andb_true_iff in E as [E E3]. apply andb_true_iff in E as [E1 E2].
      apply Nat.leb_le in E3. destruct H as [<-|H].
      * split; [now apply (existsb_eqb_In _ Z.eqb_eq)|exact E3].
      * exact (I r H).
    + exact (I r H).
Qed.

Lemma brun_inv n sched : forall s, binv n s -> binv n (brun n sched s).
Proof. apply (fold_left_inv _ (binv n)). intros x e _. apply bstep_inv. Qed.

(* NONE PASSES EARLY: at every moment (= after every schedule), a rank that has left the
   synchronisation has arrived itself and the file holds at least n lines *)
Lemma barrier_none_early_lemma (n : nat) sched r :
  In r (b_passed (brun n sched b0)) ->
  In r (arrivals sched) /\ (n <= List.length (arrivals sched))%nat.
Proof.
  intro H. assert (I : binv n (brun n sched b0)) by (apply brun_inv; intros x []).
  destruct (I r H) as [A B0]. rewrite barrier_file_lemma in A, B0. simpl in A, B0. auto.
Qed.

(* NO RANK WAITS FOR EVER: once n lines are in the file, the next poll of a rank that has
   arrived lets it pass (and the file never shrinks, so this stays true at every later moment) *)
Lemma barrier_next_poll_passes_lemma (n : nat) sched later r :
  (n <= List.length (arrivals sched))%nat -> In r (arrivals sched) ->
  In r (b_passed (brun n (sched ++ later ++ [Poll r]) b0)).
Proof.
  intros L A. rewrite app_assoc, brun_app. set (s := brun n (sched ++ later) b0).
  assert (F : b_file s = arrivals sched ++ arrivals later).
  { subst s. rewrite barrier_file_lemma. simpl. unfold arrivals. now rewrite flat_map_app. }
  unfold brun. simpl fold_left. simpl bstep.
  destruct (bmemZ r (b_passed s)) eqn:P.
  - rewrite andb_false_r. simpl. now apply (existsb_eqb_In _ Z.eqb_eq).
  - assert (M : bmemZ r (b_file s) = true) by (apply (existsb_eqb_In _ Z.eqb_eq); rewrite F; apply in_or_app; now left).
    assert (N : Nat.leb n (List.length (b_file s)) = true)
      by (apply Nat.leb_le; rewrite F, app_length; lia).
    rewrite M, N. simpl. now left.
Qed.

Lemma barrier_every_order_lemma (n : nat) order sched :
  Permutation order (zrange n) -> arrivals sched = order ->
  forall r, In r (zrange n) -> In r (b_passed (brun n (sched ++ map Poll (zrange n)) b0)).
Proof.
  intros P A r Hr.
  assert (L : (n <= List.length (arrivals sched))%nat).
  { rewrite A, (Permutation_length P). unfold zrange. now rewrite map_length, seq_length. }
  assert (Ar : In r (arrivals sched)) by (rewrite A; apply (Permutation_in r (Permutation_sym P) Hr)).
  apply in_split in Hr as (l1 & l2 & E). rewrite E, map_app. simpl map.
  replace (sched ++ map Poll l1 ++ Poll r :: map Poll l2)
    with ((sched ++ map Poll l1 ++ [Poll r]) ++ map Poll l2) by (now rewrite <- !app_assoc).
  rewrite brun_app. apply brun_passed_mono.
  now apply barrier_next_poll_passes_lemma.
Qed.

Lemma barrier_with_removal_blocks_lemma :
  forall k, ~ In 1 (b_passed (brun_rm 2 ([Arrive 1; Poll 1; Arrive 0; Poll 0] ++ repeat (Poll 1) k) b0)).
Proof.
  intro k. unfold brun_rm. rewrite fold_left_app.
  change (fold_left (fun s e => bstep_rm 2 e s) [Arrive 1; Poll 1; Arrive 0; Poll 0] b0) with (mkB [] [0]).
  induction k as [|k IH]; simpl; [intros [H|[]]; discriminate|exact IH].
Qed.
