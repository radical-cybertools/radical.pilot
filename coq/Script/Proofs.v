(* C10 / Script: what running the generated exec script does on one rank,
   for EVERY task description (unbounded: induction over command lists,
   entry lists, statement lists). *)
From Coq Require Import ZArith String List Bool Lia.
From RP Require Import Common.ZRange Common.Eqb Common.ListFacts Quote.Model Quote.Proofs Script.Model Script.Oracle.
Import ListNotations.
Open Scope Z_scope.

Lemma bytes_of_uint_inj u : forall v, bytes_of_uint u = bytes_of_uint v -> u = v.
Proof.
  induction u; intros v H; destruct v; simpl in H; try discriminate; try reflexivity;
    injection H as H; f_equal; auto.
Qed.

Lemma bytes_of_uint_digits u : forallb is_digit (bytes_of_uint u) = true.
Proof. induction u; simpl; auto. Qed.

Lemma dec_inj a b : dec a = dec b -> a = b.
Proof.
  unfold dec. intro H.
  rewrite <- (DecimalZ.of_to a), <- (DecimalZ.of_to b).
  destruct (Z.to_int a) as [u|u], (Z.to_int b) as [v|v]; simpl in H.
  - now rewrite (bytes_of_uint_inj u v H).
  - exfalso. pose proof (bytes_of_uint_digits u) as D. rewrite H in D. discriminate D.
  - exfalso. pose proof (bytes_of_uint_digits v) as D. rewrite <- H in D. discriminate D.
  - injection H as H. now rewrite (bytes_of_uint_inj u v H).
Qed.

Lemma digit_plain c : is_digit c = true -> is_plain c = true.
Proof. intro H. unfold is_plain, is_ident_char. rewrite H. now rewrite orb_true_r. Qed.

Lemma dec_plain a : 0 <= a -> forallb is_plain (dec a) = true /\ dec a <> [].
Proof.
  intro Ha. unfold dec. destruct a as [|p|p]; try lia.
  - split; [reflexivity|discriminate].
  - simpl. split.
    + rewrite forallb_forall. intros x Hx. apply digit_plain.
      pose proof (bytes_of_uint_digits (Pos.to_uint p)) as D. rewrite forallb_forall in D. auto.
    + pose proof (DecimalPos.Unsigned.to_uint_nonnil p) as N.
      destruct (Pos.to_uint p); try congruence; discriminate.
Qed.

Lemma lookup_setenv k v k' e :
  lookup k' (setenv k v e) = if bytes_eqb k' k then Some v else lookup k' e.
Proof.
  induction e as [|[k0 v0] e IH]; simpl.
  - reflexivity.
  - destruct (bytes_eqb k k0) eqn:E; simpl.
    + apply bytes_eqb_eq in E. subst k0. destruct (bytes_eqb k' k); reflexivity.
    + rewrite IH. destruct (bytes_eqb k' k0) eqn:E0; [|reflexivity].
      apply bytes_eqb_eq in E0. subst k0. destruct (bytes_eqb k' k) eqn:E1; [|reflexivity].
      apply bytes_eqb_eq in E1. subst k'. now rewrite bytes_eqb_refl in E.
Qed.

Lemma getenv_setenv_other k v k' e : bytes_eqb k' k = false -> getenv k' (setenv k v e) = getenv k' e.
Proof. intro H. unfold getenv. now rewrite lookup_setenv, H. Qed.

Lemma getenv_setenv_same k v e : getenv k (setenv k v e) = v.
Proof. unfold getenv. now rewrite lookup_setenv, bytes_eqb_refl. Qed.

Lemma lookup_unsetenv_other k k' e : bytes_eqb k' k = false -> lookup k' (unsetenv k e) = lookup k' e.
Proof.
  intro H. induction e as [|[k0 v0] e IH]; simpl; [reflexivity|].
  destruct (bytes_eqb k k0) eqn:E; simpl.
  - apply bytes_eqb_eq in E. subst k0. now rewrite H.
  - now rewrite IH.
Qed.

(* from s to s': q was appended to the trace and the script has left with status x (None: it goes on);
   the record of the executable, RP_RET and the directory are as they were *)
Record did (s s' : st) (q : list event) (x : option Z) : Prop := {
  d_tr : s_tr s' = s_tr s ++ q; d_exit : s_exit s' = x;
  d_probe : s_probe s' = s_probe s; d_ret : s_ret s' = s_ret s; d_cwd : s_cwd s' = s_cwd s }.
Arguments d_exit {s s' q x}.

Lemma did_nil s x : s_exit s = x -> did s s [] x.
Proof. intro H. split; auto. now rewrite app_nil_r. Qed.

Lemma did_app {s s1 s2 q1 q2 x1 x2} : did s s1 q1 x1 -> did s1 s2 q2 x2 -> did s s2 (q1 ++ q2) x2.
Proof. intros [T1 _ P1 R1 C1] [T2 X2 P2 R2 C2]. split; try congruence. now rewrite T2, T1, app_assoc. Qed.

Lemma did_w_env f s x : s_exit s = x -> did s (w_env f s) [] x.
Proof. intro H. split; auto. simpl. now rewrite app_nil_r. Qed.

Lemma did_w_unmod s x : s_exit s = x -> did s (w_unmod s) [] x.
Proof. intro H. split; auto. simpl. now rewrite app_nil_r. Qed.

Lemma did_w_tr e s x : s_exit s = x -> did s (w_tr e s) [e] x.
Proof. intro H. now split. Qed.

Lemma did_w_fail g s : did s (w_fail g s) [] (Some 1).
Proof. split; auto. simpl. now rewrite app_nil_r. Qed.

Definition cmd_keeps (k : bytes) (c : cmd) : bool :=
  match c with CStub _ _ => true | CExport k' _ => negb (bytes_eqb k k') end.

Lemma do_cmds_exited cs g s x : s_exit s = Some x -> do_cmds cs g s = s.
Proof. intro H. destruct cs; simpl; [reflexivity|now rewrite H]. Qed.

Lemma do_cmds_spec cs g : forall s, s_exit s = None ->
  did s (do_cmds cs g s) (map ECmd (until_fail (stubs cs))) (if all_ok (stubs cs) then None else Some 1) /\
  (forall k, forallb (cmd_keeps k) cs = true -> getenv k (s_env (do_cmds cs g s)) = getenv k (s_env s)).
Proof.
  induction cs as [|c cs IH]; intros s Hs; [split; [now apply did_nil|auto]|].
  simpl do_cmds. rewrite Hs. destruct c as [id rc|k v]; simpl do_cmd; simpl stubs.
  - destruct (Z.eqb_spec rc 0) as [->|Hrc].
    + destruct (IH (w_tr (ECmd id) s) Hs) as [D F]. split.
      * exact (did_app (did_w_tr (ECmd id) s None Hs) D).
      * intros k Hk. now rewrite (F k Hk).
    + rewrite do_cmds_exited with (x := 1) by reflexivity.
      unfold all_ok. simpl. apply Z.eqb_neq in Hrc. rewrite Hrc.
      split; [exact (did_app (did_w_tr (ECmd id) s None Hs) (did_w_fail g _))|auto].
  - destruct (forallb is_plain v).
    + destruct (IH (w_env (setenv k v) s) Hs) as [D F]. split.
      * exact (did_app (did_w_env (setenv k v) s None Hs) D).
      * intros k' Hk. simpl in Hk. apply andb_true_iff in Hk as [H1 H2]. rewrite (F k' H2). simpl.
        apply getenv_setenv_other. now apply negb_true_iff in H1.
    + destruct (IH (w_unmod s) Hs) as [D F]. split.
      * exact (did_app (did_w_unmod s None Hs) D).
      * intros k' Hk. simpl in Hk. apply andb_true_iff in Hk as [H1 H2]. now rewrite (F k' H2).
Qed.

(* the per-rank switch selects the arm of this rank *)
Lemma find_arm_map (f : Z -> list cmd) r l :
  In r l -> find_arm (dec r) (map (fun i => (i, f i)) l) = f r.
Proof.
  induction l as [|i l IH]; intro H; [destruct H|].
  simpl. destruct (bytes_eqb (dec i) (dec r)) eqn:E.
  - apply bytes_eqb_eq in E. apply dec_inj in E. now subst.
  - destruct H as [->|H]; [now rewrite bytes_eqb_refl in E|auto].
Qed.

Lemma per_rank_cmds_noper es : has_per es = false -> forall r, per_rank_cmds es r = per_rank_cmds es 0.
Proof.
  induction es as [|e es IH]; intros H r; [reflexivity|].
  simpl in H. destruct e; [|discriminate]. simpl in *. f_equal. auto.
Qed.

(* statements that neither run a command nor leave the script *)
Definition quiet (x : stmt) : bool :=
  match x with
  | SExportQ _ _ | SUnset _ | SProf _ | SRankFromVar _ | SCtrl | SFiles | SDot => true
  | _ => false
  end.

(* the events such statements leave in the trace *)
Definition quiet_ev (e : event) : bool := match e with EProf _ | ECtrl => true | _ => false end.

Notation kRANK := (B "RP_RANK").

Definition assigns (k : bytes) (x : stmt) : bool :=
  match x with
  | SExportQ k' _ | SUnset k' => bytes_eqb k k'
  | SRankFromVar _ => bytes_eqb k kRANK
  | _ => false
  end.

Lemma step_quiet rc x s : quiet x = true -> s_exit s = None ->
  exists q, forallb quiet_ev q = true /\ did s (step rc x s) q None /\
            (forall k, assigns k x = false -> getenv k (s_env (step rc x s)) = getenv k (s_env s)).
Proof.
  intros Hq Hs. unfold step. rewrite Hs.
  destruct x; try discriminate Hq.
  - (* SExportQ *) exists []. destruct (bash_word (s_env s) q); [|auto using did_w_unmod].
    split; [reflexivity|]. split; [now apply did_w_env|]. intros k' Hk. now apply getenv_setenv_other.
  - (* SUnset *) exists []. split; [reflexivity|]. split; [now apply did_w_env|].
    intros k' Hk. unfold getenv. simpl. now rewrite lookup_unsetenv_other.
  - (* SProf *) exists [EProf ev]. auto using did_w_tr.
  - (* SRankFromVar *) exists []. destruct (getenv v (s_env s)) as [|c0 val]; [auto using did_nil|].
    destruct (forallb is_plain (c0 :: val)); [|auto using did_w_unmod].
    split; [reflexivity|]. split; [now apply did_w_env|]. intros k' Hk. now apply getenv_setenv_other.
  - (* SCtrl *) destruct (bytes_eqb (getenv (B "RP_RANK") (s_env s)) (B "0")).
    + exists [ECtrl]. auto using did_w_tr.
    + exists []. auto using did_nil.
  - (* SFiles *) exists []. auto using did_nil.
  - (* SDot *) exists []. auto using did_nil.
Qed.

Lemma run_app rc p1 : forall p2 s, run rc (p1 ++ p2) s = run rc p2 (run rc p1 s).
Proof. induction p1 as [|x p1 IH]; intros; simpl; auto. Qed.

Lemma run_exited rc p : forall s x, s_exit s = Some x -> run rc p s = s.
Proof.
  induction p as [|y p IH]; intros s x H; [reflexivity|].
  simpl. unfold step at 1. rewrite H. eauto.
Qed.

Lemma run_map_cmd rc g cs : forall s, run rc (map (fun c => SCmd c g) cs) s = do_cmds cs g s.
Proof.
  induction cs as [|c cs IH]; intro s; [reflexivity|].
  simpl. destruct (s_exit s) eqn:E.
  - unfold step. rewrite E. apply run_exited with (x := z). exact E.
  - unfold step at 1. rewrite E. apply IH.
Qed.

Lemma run_quiet rc p : forall s, forallb quiet p = true -> s_exit s = None ->
  exists q, forallb quiet_ev q = true /\ did s (run rc p s) q None /\
            (forall k, forallb (fun x => negb (assigns k x)) p = true ->
                       getenv k (s_env (run rc p s)) = getenv k (s_env s)).
Proof.
  induction p as [|x p IH]; intros s Hq Hs; [exists []; auto using did_nil|].
  simpl in Hq. apply andb_true_iff in Hq as [Hx Hp].
  destruct (step_quiet rc x s Hx Hs) as (q1 & Q1 & D1 & K1).
  destruct (IH (step rc x s) Hp (d_exit D1)) as (q2 & Q2 & D2 & K2).
  exists (q1 ++ q2). simpl run. repeat split; try apply (did_app D1 D2).
  - rewrite forallb_app. now rewrite Q1, Q2.
  - intros k Hk. simpl in Hk. apply andb_true_iff in Hk as [Hk1 Hk2].
    rewrite (K2 k Hk2). apply K1. now apply negb_true_iff in Hk1.
Qed.

Definition entry_keeps (k : bytes) (e : entry) : bool := forallb (cmd_keeps k) (entry_cmds e).

(* what the quoting promises to handle, and nothing described exports RP_RANK itself *)
Definition wfb (c : cfg) (t : task) : bool :=
  plain_word (t_exe t) && forallb safe (t_args t) && (1 <=? t_ranks t)
  && forallb (fun kv => negb (bytes_eqb kRANK (fst kv))) (t_env t)
  && forallb (entry_keeps kRANK) (t_pre t) && forallb (entry_keeps kRANK) (t_post t)
  && forallb (cmd_keeps kRANK) (c_task_pre_exec c).

Lemma wfb_parts c t : wfb c t = true ->
  plain_word (t_exe t) = true /\ forallb safe (t_args t) = true /\
  forallb (fun kv => negb (bytes_eqb kRANK (fst kv))) (t_env t) = true /\
  forallb (entry_keeps kRANK) (t_pre t) = true /\
  forallb (cmd_keeps kRANK) (c_task_pre_exec c) = true.
Proof. unfold wfb. rewrite !andb_true_iff. tauto. Qed.

Lemma zlookup_in {A} r (m : list (Z * A)) x : zlookup r m = Some x -> In x (map snd m).
Proof.
  induction m as [|[r' y] m IH]; simpl; [discriminate|].
  destruct (r =? r'); [intro H; injection H as ->; now left|auto].
Qed.

Lemma per_rank_sub es r x : In x (per_rank_cmds es r) -> In x (flat_map entry_cmds es).
Proof.
  induction es as [|e es IH]; [auto|]. unfold per_rank_cmds. simpl flat_map. fold (per_rank_cmds es r).
  intro H. apply in_app_or in H as [H|H]; apply in_or_app; [left|right; auto].
  destruct e as [c0|m]; [exact H|]. simpl.
  destruct (zlookup r m) as [cs|] eqn:E; [|destruct H].
  apply zlookup_in in E. apply in_map_iff in E as ([r' cs'] & E1 & E2). simpl in E1. subst cs'.
  apply in_flat_map. exists (r', cs). auto.
Qed.

Lemma per_rank_keeps k es r :
  forallb (entry_keeps k) es = true -> forallb (cmd_keeps k) (per_rank_cmds es r) = true.
Proof.
  rewrite !forallb_forall. intros H x Hx. apply per_rank_sub, in_flat_map in Hx as (e & He & Hx).
  specialize (H e He). unfold entry_keeps in H. rewrite forallb_forall in H. exact (H x Hx).
Qed.

Lemma stubs_app a b : stubs (a ++ b) = stubs a ++ stubs b.
Proof. unfold stubs. apply flat_map_app. Qed.

Lemma per_rank_app a b r : per_rank_cmds (a ++ b) r = per_rank_cmds a r ++ per_rank_cmds b r.
Proof. unfold per_rank_cmds. apply flat_map_app. Qed.

Lemma per_rank_all cs r : per_rank_cmds (map EAll cs) r = cs.
Proof. induction cs as [|x cs IH]; [reflexivity|]. simpl. f_equal. exact IH. Qed.

(* an export, and not of RP_RANK *)
Definition added (x : cmd) : bool :=
  match x with CExport k _ => negb (bytes_eqb kRANK k) | CStub _ _ => false end.

Lemma added_spec xs : forallb added xs = true -> forallb (cmd_keeps kRANK) xs = true /\ stubs xs = [].
Proof.
  induction xs as [|[id rc|k v] xs IH]; simpl; [auto|discriminate|].
  intros [H1 H2]%andb_true_iff. rewrite H1. exact (IH H2).
Qed.

Lemma mapi_added (f : list Z -> bytes) key r : bytes_eqb kRANK key = false -> forall gl i,
  forallb added (match zlookup r (mapi_from i (fun r g => (r, [CExport key (f g)])) gl) with
                 | Some cs => cs | None => [] end) = true.
Proof.
  intros Hk gl. induction gl as [|g gl IH]; intro i; [reflexivity|].
  cbn [mapi_from zlookup]. destruct (r =? i); [cbn [forallb added]; now rewrite Hk|apply IH].
Qed.

(* what _extend_pre_exec puts between the task's entries and the platform's, for any rank: such exports only *)
Lemma ext_pre_rank c t r : exists xs, forallb added xs = true /\
  per_rank_cmds (ext_pre c t) r = per_rank_cmds (t_pre t) r ++ xs ++ c_task_pre_exec c.
Proof.
  unfold ext_pre. rewrite !per_rank_app, per_rank_all.
  rewrite (app_assoc (per_rank_cmds (if t_omp t then _ else _) r)).
  eexists. split; [|reflexivity]. rewrite forallb_app. apply andb_true_iff. split.
  - destruct (t_omp t); reflexivity.
  - destruct (negb (t_gpr_q t =? 0) && t_cuda t && match t_gpus t with [] => false | _ => true end); [|reflexivity].
    unfold per_rank_cmds. simpl flat_map. rewrite app_nil_r. now apply mapi_added.
Qed.

Lemma ext_pre_keeps c t r : wfb c t = true ->
  forallb (cmd_keeps kRANK) (per_rank_cmds (ext_pre c t) r) = true.
Proof.
  intros (_ & _ & _ & Hpre & Hcfg)%wfb_parts. destruct (ext_pre_rank c t r) as (xs & A & ->).
  rewrite !forallb_app, (per_rank_keeps _ _ r Hpre), (proj1 (added_spec xs A)). exact Hcfg.
Qed.

Lemma prep_spec rc es n g sync r s :
  s_exit s = None -> getenv kRANK (s_env s) = dec r -> 0 <= r < n ->
  let cs := per_rank_cmds es r in
  let s' := run rc (prep es n g sync) s in
  did s s' (map ECmd (until_fail (stubs cs))) (if all_ok (stubs cs) then None else Some 1) /\
  (forallb (cmd_keeps kRANK) cs = true -> getenv kRANK (s_env s') = dec r).
Proof.
  intros Hs Hr Hrn cs s'. subst s'. unfold prep. rewrite run_app.
  set (s1 := run rc (if has_per es then _ else _) s).
  assert (E1 : s1 = do_cmds cs g s).
  { subst s1 cs. destruct (has_per es) eqn:Hp.
    - simpl run. unfold step. rewrite Hs, Hr. rewrite find_arm_map; [reflexivity|].
      apply zrange_in. lia.
    - rewrite run_map_cmd. now rewrite <- (per_rank_cmds_noper es Hp r). }
  destruct (do_cmds_spec cs g s Hs) as [D F]. rewrite <- E1 in *.
  (* rp_sync_ranks only writes the marker *)
  assert (S : did s1 (run rc (if sync then [SSync g] else []) s1) [] (s_exit s1) /\
              s_env (run rc (if sync then [SSync g] else []) s1) = s_env s1).
  { destruct sync; simpl; [|auto using did_nil].
    unfold step. destruct (s_exit s1) eqn:E2; simpl; split; auto using did_nil.
    split; auto. simpl. now rewrite app_nil_r. }
  destruct S as [S1 S2]. pose proof (did_app D S1) as D'.
  rewrite app_nil_r, (d_exit D) in D'. split; [exact D'|].
  intro K. rewrite S2, (F kRANK K). exact Hr.
Qed.

Notation kVR := (B "VERIF_RANK").

(* how the launcher starts rank r: Fork rank 0 only, the stand-in MPI launcher with VERIF_RANK preset *)
Definition ready (l : lm) (r : Z) (s : st) : Prop :=
  match l with
  | LFork => r = 0
  | LFake => getenv kVR (s_env s) = dec r /\ 0 <= r
  end.

(* exec_prog is always these stretches in a row (exec_prog_eq) *)
Definition head_prog (c : cfg) (t : task) : list stmt :=
  rp_env c t ++ [SExportQ (B "RP_RANKS") (dec (t_ranks t))].

Definition mid_prog (t : task) : list stmt :=
  (if t_startup_to t then [SCtrl] else []) ++ [SProf (B "exec_start")] ++ task_env t ++ [SProf (B "exec_pre")].

Definition exec_tail (t : task) : list stmt :=
  [SFiles; SProf (B "rank_start"); SExec (get_exec (t_exe t) (t_args t)); SProf (B "rank_stop");
   SFiles; SProf (B "exec_post")].

Definition exec_body (c : cfg) (l : lm) (t : task) : list stmt :=
  head_prog c t ++ rank_cmd l ++ mid_prog t ++ prep (ext_pre c t) (t_ranks t) PreExec (t_sync t)
  ++ exec_tail t ++ prep (t_post t) (t_ranks t) PostExec false ++ [SProf (B "exec_stop"); SExitRet].

Lemma exec_prog_eq c l t : exec_prog c l t = inr (exec_body c l t).
Proof.
  unfold exec_prog, exports_rank. rewrite andb_false_r. f_equal.
  unfold exec_body, head_prog, mid_prog, exec_tail. rewrite <- !app_assoc. reflexivity.
Qed.

Lemma head_quiet c t : forallb quiet (head_prog c t) = true.
Proof. unfold head_prog, rp_env. destruct (c_prof c); reflexivity. Qed.

Lemma mid_quiet t : forallb quiet (mid_prog t) = true.
Proof.
  unfold mid_prog. rewrite !forallb_app. destruct (t_startup_to t); simpl;
    rewrite andb_true_r; unfold task_env; induction (t_env t); simpl; auto.
Qed.

Lemma mid_keeps c t : wfb c t = true -> forallb (fun x => negb (assigns kRANK x)) (mid_prog t) = true.
Proof.
  intros (_ & _ & Henv & _)%wfb_parts.
  unfold mid_prog. rewrite !forallb_app. destruct (t_startup_to t); simpl; rewrite andb_true_r;
    unfold task_env; induction (t_env t) as [|kv l IH]; simpl in *; auto;
    apply andb_true_iff in Henv as [H1 H2]; rewrite H1; simpl; auto.
Qed.

Lemma rank_cmd_quiet l : forallb quiet (rank_cmd l) = true.
Proof. now destruct l. Qed.

Lemma rank_cmd_spec rc l r s : s_exit s = None -> ready l r s ->
  getenv kRANK (s_env (run rc (rank_cmd l) s)) = dec r.
Proof.
  intros Hs Hr. destruct l; simpl in Hr; simpl run; unfold step; rewrite Hs.
  - subst r. change (bash_word (s_env s) (B "0")) with (Some (B "0")). simpl. apply getenv_setenv_same.
  - destruct Hr as [Hv H0]. rewrite Hv. destruct (dec_plain r H0) as [Hp Hn].
    destruct (dec r) as [|d0 dr] eqn:E; [congruence|]. rewrite Hp. simpl. apply getenv_setenv_same.
Qed.

(* up to pre_exec the script shows nothing but quiet events and sets RP_RANK to the rank *)
Lemma preamble_spec rc c l t r s0 : wfb c t = true -> s_exit s0 = None -> ready l r s0 ->
  let s3 := run rc (mid_prog t) (run rc (rank_cmd l) (run rc (head_prog c t) s0)) in
  exists q, forallb quiet_ev q = true /\ did s0 s3 q None /\ getenv kRANK (s_env s3) = dec r.
Proof.
  intros W Hs0 Hrdy.
  destruct (run_quiet rc (head_prog c t) s0 (head_quiet c t) Hs0) as (q1 & Q1 & D1 & K1).
  set (s1 := run rc (head_prog c t) s0) in *.
  assert (Hrdy1 : ready l r s1).
  { destruct l; [exact Hrdy|]. destruct Hrdy as [Hv H0]. split; [|exact H0].
    rewrite (K1 kVR); [exact Hv|]. unfold head_prog, rp_env. destruct (c_prof c); reflexivity. }
  destruct (run_quiet rc (rank_cmd l) s1 (rank_cmd_quiet l) (d_exit D1)) as (q2 & Q2 & D2 & _).
  pose proof (rank_cmd_spec rc l r s1 (d_exit D1) Hrdy1) as R2.
  set (s2 := run rc (rank_cmd l) s1) in *.
  destruct (run_quiet rc (mid_prog t) s2 (mid_quiet t) (d_exit D2)) as (q3 & Q3 & D3 & K3).
  exists ((q1 ++ q2) ++ q3). split; [rewrite !forallb_app; now rewrite Q1, Q2, Q3|].
  split; [exact (did_app (did_app D1 D2) D3)|].
  rewrite (K3 kRANK (mid_keeps c t W)). exact R2.
Qed.

Definition ev_exec : list event := [EProf (B "rank_start"); EExec; EProf (B "rank_stop"); EProf (B "exec_post")].

Lemma step_files rc s : step rc SFiles s = s.
Proof. unfold step. destruct (s_exit s); reflexivity. Qed.

Lemma step_prof rc ev s : s_exit s = None -> step rc (SProf ev) s = w_tr (EProf ev) s.
Proof. intro H. unfold step. now rewrite H. Qed.

Lemma step_exec rc ln s w ws : s_exit s = None -> bash_words (s_env s) ln = Some (w :: ws) ->
  step rc (SExec ln) s =
  mkSt (s_env s) (s_cwd s) (s_tr s ++ [EExec]) (Some rc) None (Some (w :: ws, s_cwd s, s_env s))
       (s_out s ++ [LOut (getenv kRANK (s_env s))]) (s_err s ++ [LErr (getenv kRANK (s_env s))])
       (s_sig s) (s_unmod s).
Proof. intros H E. unfold step. now rewrite H, E. Qed.

Lemma step_exit rc s : s_exit s = None ->
  step rc SExitRet s = w_exit (match s_ret s with Some r => r | None => 0 end) s.
Proof. intro H. unfold step. now rewrite H. Qed.

(* from the executable on: it runs, the post_exec commands of this rank run, the script leaves with the
   executable's status unless one of them failed *)
Lemma from_exec rc c t r s : wfb c t = true -> s_exit s = None ->
  getenv kRANK (s_env s) = dec r -> 0 <= r < t_ranks t ->
  let post := stubs (per_rank_cmds (t_post t) r) in
  let s' := run rc [SProf (B "exec_stop"); SExitRet]
              (run rc (prep (t_post t) (t_ranks t) PostExec false) (run rc (exec_tail t) s)) in
  s_tr s' = s_tr s ++ ev_exec ++ map ECmd (until_fail post)
            ++ (if all_ok post then [EProf (B "exec_stop")] else []) /\
  s_exit s' = Some (if all_ok post then rc else 1) /\
  s_probe s' = Some (t_exe t :: t_args t, s_cwd s, s_env s).
Proof.
  intros (Hexe & Hargs & _)%wfb_parts Hs Hr Hrn post.
  set (stop := [_; SExitRet]). unfold exec_tail. cbn [run].
  rewrite !step_files. rewrite (step_prof rc _ s Hs).
  set (s1 := w_tr (EProf (B "rank_start")) s).
  rewrite (step_exec rc _ s1 (t_exe t) (t_args t) Hs
             (argv_roundtrip_lemma (s_env s1) (t_exe t) (t_args t) Hexe Hargs)).
  set (s2 := mkSt _ _ _ _ _ _ _ _ _ _).
  rewrite (step_prof rc _ s2 eq_refl).
  rewrite (step_prof rc (B "exec_post")) by reflexivity.
  set (s5 := w_tr _ (w_tr _ s2)).
  destruct (prep_spec rc (t_post t) (t_ranks t) PostExec false r s5 eq_refl Hr Hrn) as ([T X P R _] & _).
  fold post in T, X.
  destruct (all_ok post).
  - subst stop. cbn [run]. rewrite (step_prof rc _ _ X). rewrite step_exit by exact X.
    simpl. rewrite R, T, P. simpl. rewrite <- !app_assoc. auto.
  - rewrite (run_exited rc _ _ 1 X). rewrite T, X, P, app_nil_r. simpl. rewrite <- !app_assoc. auto.
Qed.

(* Everything the run of rank r's exec script does that the property talks about. *)
Theorem rank_spec c l t rc r s0 ep :
  wfb c t = true -> exec_prog c l t = inr ep ->
  s_exit s0 = None -> s_tr s0 = [] -> s_probe s0 = None -> ready l r s0 -> 0 <= r < t_ranks t ->
  let pre := stubs (per_rank_cmds (ext_pre c t) r) in
  let post := stubs (per_rank_cmds (t_post t) r) in
  let s' := run rc ep s0 in
  exists qA, forallb quiet_ev qA = true /\
    s_tr s' = qA ++ map ECmd (until_fail pre)
              ++ (if all_ok pre
                  then ev_exec ++ map ECmd (until_fail post)
                       ++ (if all_ok post then [EProf (B "exec_stop")] else [])
                  else []) /\
    s_exit s' = Some (if all_ok pre then if all_ok post then rc else 1 else 1) /\
    (if all_ok pre
     then exists e, s_probe s' = Some (t_exe t :: t_args t, s_cwd s0, e)
     else s_probe s' = None).
Proof.
  intros W Hep Hs0 Htr0 Hp0 Hrdy Hr pre post s'. subst s'.
  assert (Eep : ep = exec_body c l t) by (rewrite exec_prog_eq in Hep; congruence).
  rewrite Eep. unfold exec_body.
  rewrite !run_app.
  destruct (preamble_spec rc c l t r s0 W Hs0 Hrdy) as (qA & Q & D3 & R3).
  set (s3 := run rc (mid_prog t) _) in *.
  destruct (prep_spec rc (ext_pre c t) (t_ranks t) PreExec (t_sync t) r s3 (d_exit D3) R3 Hr) as (D4 & R4).
  set (s4 := run rc (prep (ext_pre c t) (t_ranks t) PreExec (t_sync t)) s3) in *.
  specialize (R4 (ext_pre_keeps c t r W)). fold pre in D4.
  destruct (did_app D3 D4) as [T4 X4 P4 _ C4].
  rewrite Htr0 in T4. simpl in T4.
  exists qA. split; [exact Q|].
  destruct (all_ok pre).
  - destruct (from_exec rc c t r s4 W X4 R4 Hr) as (T & X & P). fold post in T, X.
    rewrite T, X, P, T4, C4, <- !app_assoc. eauto.
  - (* a pre_exec command failed: the script has left *)
    rewrite !(run_exited rc _ s4 1 X4). rewrite T4, X4, P4, app_nil_r. auto.
Qed.

Lemma pre_stubs_eq c t r : stubs (per_rank_cmds (ext_pre c t) r) = pre_stubs c t r.
Proof.
  unfold pre_stubs, desc_pre. rewrite per_rank_app, per_rank_all.
  destruct (ext_pre_rank c t r) as (xs & A & ->). now rewrite !stubs_app, (proj2 (added_spec xs A)).
Qed.

(* a trace is read by cutting it at the executable *)
Definition noex (a : list event) : Prop := forallb (fun e => negb (is_exec e)) a = true.

Lemma noex_quiet q : forallb quiet_ev q = true -> noex q.
Proof.
  unfold noex. induction q as [|e q IH]; intro H; [reflexivity|]. simpl in *.
  apply andb_true_iff in H as [He Hq]. rewrite (IH Hq). destruct e; try discriminate He; reflexivity.
Qed.

Lemma noex_cmds l : noex (map ECmd l).
Proof. unfold noex. induction l; simpl; auto. Qed.

Lemma noex_app a b : noex a -> noex b -> noex (a ++ b).
Proof. unfold noex. intros. rewrite forallb_app. now rewrite H, H0. Qed.

(* a stretch without the executable is passed over *)
Lemma cut_app a x : noex a ->
  n_exec (a ++ x) = n_exec x /\ before_exec (a ++ x) = a ++ before_exec x /\ after_exec (a ++ x) = after_exec x.
Proof.
  unfold noex, n_exec. induction a as [|e a IH]; intro H; [auto|]. simpl in *.
  apply andb_true_iff in H as [He Ha]. apply negb_true_iff in He. rewrite He.
  destruct (IH Ha) as (N & B0 & A0). now rewrite B0.
Qed.

Lemma cmd_ids_app a b ids : cmd_ids (a ++ b) ids = cmd_ids a ids ++ cmd_ids b ids.
Proof. unfold cmd_ids. apply flat_map_app. Qed.

Lemma cmd_ids_quiet q ids : forallb quiet_ev q = true -> cmd_ids q ids = [].
Proof.
  induction q as [|e q IH]; intro H; [reflexivity|]. simpl in *.
  apply andb_true_iff in H as [He Hq]. rewrite (IH Hq). destruct e; try discriminate He; reflexivity.
Qed.

Lemma cmd_ids_cut tr ids : cmd_ids tr ids = cmd_ids (before_exec tr) ids ++ cmd_ids (after_exec tr) ids.
Proof. induction tr as [|e tr IH]; [reflexivity|]. destruct e; simpl; rewrite ?IH; auto using app_assoc. Qed.

Lemma cmd_ids_in l ids : (forall i, In i l -> mem i ids = true) -> cmd_ids (map ECmd l) ids = l.
Proof.
  induction l as [|i l IH]; intro H; [reflexivity|]. simpl. rewrite (H i (or_introl eq_refl)). simpl.
  f_equal. apply IH. intros j Hj. apply H. now right.
Qed.

Lemma cmd_ids_out l ids : (forall i, In i l -> mem i ids = false) -> cmd_ids (map ECmd l) ids = [].
Proof.
  induction l as [|i l IH]; intro H; [reflexivity|]. simpl. rewrite (H i (or_introl eq_refl)). simpl.
  apply IH. intros j Hj. apply H. now right.
Qed.

Lemma until_fail_sub l i : In i (until_fail l) -> In i (map fst l).
Proof.
  induction l as [|[j rc] l IH]; simpl; [auto|].
  destruct (rc =? 0); simpl; intros [H|H]; auto. destruct H.
Qed.

Lemma ran_ids_sub es r i :
  In i (until_fail (stubs (per_rank_cmds es r))) -> mem i (map fst (stubs (flat_map entry_cmds es))) = true.
Proof.
  intro H. apply (existsb_eqb_In _ Z.eqb_eq). apply until_fail_sub in H.
  apply in_map_iff in H as (x & <- & Hx). apply in_map.
  unfold stubs in *. apply in_flat_map in Hx as (y & Hy & Hx).
  apply in_flat_map. exists y. eauto using per_rank_sub.
Qed.

(* then a trace tells pre_exec from post_exec commands *)
Definition disjoint_ids (c : cfg) (t : task) : bool :=
  forallb (fun i => negb (mem i (all_post_ids t))) (all_pre_ids c t).

Lemma disjoint_ids_spec c t i : disjoint_ids c t = true ->
  mem i (all_pre_ids c t) = true -> mem i (all_post_ids t) = true -> False.
Proof.
  unfold disjoint_ids. rewrite forallb_forall. intros D Hpre Hpost.
  apply (existsb_eqb_In _ Z.eqb_eq), D in Hpre. now rewrite Hpost in Hpre.
Qed.

Section RankClauses.
  Variables (c : cfg) (l : lm) (t : task) (rcs : list Z) (r : Z) (s0 : st) (ep : list stmt).
  Hypothesis W : wfb c t = true.
  Hypothesis WI : disjoint_ids c t = true.
  Hypothesis Hep : exec_prog c l t = inr ep.
  Hypothesis Hs0 : s_exit s0 = None.
  Hypothesis Htr0 : s_tr s0 = [].
  Hypothesis Hp0 : s_probe s0 = None.
  Hypothesis Hrdy : ready l r s0.
  Hypothesis Hr : 0 <= r < t_ranks t.

  Let s' := run (nth_rc rcs r) ep s0.
  Let tr := o_tr (robs_of s').

  (* rank_spec as the readings the oracle takes: how often the executable ran, the commands before
     and after it, what the executable saw *)
  Lemma rank_readings :
    n_exec tr = (if all_ok (pre_stubs c t r) then 1 else 0)%nat /\
    (forall ids, cmd_ids (before_exec tr) ids = cmd_ids (map ECmd (until_fail (pre_stubs c t r))) ids) /\
    (forall ids, cmd_ids (after_exec tr) ids =
                 if all_ok (pre_stubs c t r) then cmd_ids (map ECmd (until_fail (post_stubs t r))) ids else []) /\
    (if all_ok (pre_stubs c t r)
     then exists d e, o_probe (robs_of s') = Some (t_args t, d, e)
     else o_probe (robs_of s') = None).
  Proof.
    destruct (rank_spec c l t (nth_rc rcs r) r s0 ep W Hep Hs0 Htr0 Hp0 Hrdy Hr) as (qA & Q & T & _ & P).
    fold s' in T, P. rewrite pre_stubs_eq in T, P. fold (post_stubs t r) in T.
    subst tr. unfold robs_of. simpl o_tr. simpl o_probe. rewrite T.
    (* up to the last pre_exec command the two cases read alike *)
    rewrite app_assoc.
    edestruct (cut_app (qA ++ map ECmd (until_fail (pre_stubs c t r)))) as (-> & -> & ->);
      [auto using noex_app, noex_cmds, noex_quiet|].
    assert (Hpre : forall x ids, cmd_ids ((qA ++ map ECmd (until_fail (pre_stubs c t r))) ++ x) ids =
                     cmd_ids (map ECmd (until_fail (pre_stubs c t r))) ids ++ cmd_ids x ids)
      by (intros; now rewrite !cmd_ids_app, (cmd_ids_quiet qA _ Q)).
    destruct (all_ok (pre_stubs c t r)).
    - destruct P as [e ->]. unfold ev_exec. cbn [app before_exec after_exec is_exec].
      edestruct (cut_app (map ECmd (until_fail (post_stubs t r)))) as (N & _ & _); [apply noex_cmds|].
      unfold n_exec in *. cbn [filter is_exec length]. rewrite N.
      repeat split; eauto.
      + destruct (all_ok (post_stubs t r)); reflexivity.
      + intro ids. rewrite Hpre. apply app_nil_r.
      + intro ids. unfold cmd_ids. cbn [flat_map app]. rewrite flat_map_app.
        destruct (all_ok (post_stubs t r)); apply app_nil_r.
    - rewrite P. repeat split; auto. intro ids. rewrite Hpre. apply app_nil_r.
  Qed.

  Lemma exit_code_rule_lemma :
    exit_code s' = want_rank_rc c t rcs r /\ okr_rc c t rcs r (robs_of s') = true.
  Proof.
    destruct (rank_spec c l t (nth_rc rcs r) r s0 ep W Hep Hs0 Htr0 Hp0 Hrdy Hr) as (qA & _ & _ & E & _).
    fold s' in E. rewrite pre_stubs_eq in E. fold (post_stubs t r) in E.
    assert (X : exit_code s' = want_rank_rc c t rcs r).
    { unfold exit_code, want_rank_rc. rewrite E.
      destruct (all_ok (pre_stubs c t r)); [|reflexivity]. now destruct (all_ok (post_stubs t r)). }
    split; [exact X|]. unfold okr_rc, robs_of. simpl. rewrite X. apply Z.eqb_refl.
  Qed.

  Lemma rank_okr_argv : okr_argv t r (robs_of s') = true.
  Proof.
    destruct rank_readings as (_ & _ & _ & P). unfold okr_argv.
    destruct (all_ok (pre_stubs c t r)).
    - destruct P as (d & e & ->). now apply (eqb_list_spec bytes_eqb bytes_eqb_eq).
    - now rewrite P.
  Qed.

  (* (a rank only runs when the launch script got past pre_launch) *)
  Lemma rank_okr_pre_blocks : launched t = true -> okr_pre_blocks c t r (robs_of s') = true.
  Proof.
    intro HL. destruct rank_readings as (N & _ & _ & P).
    unfold okr_pre_blocks. fold tr. rewrite HL, N.
    destruct (all_ok (pre_stubs c t r)); [reflexivity|]. now rewrite P.
  Qed.

  Lemma rank_okr_runs : okr_runs c t r (robs_of s') = true.
  Proof.
    destruct rank_readings as (N & _ & _ & P). unfold okr_runs. fold tr. rewrite N.
    destruct (all_ok (pre_stubs c t r)); [|now rewrite andb_false_r].
    destruct P as (d & e & ->). now rewrite orb_true_r.
  Qed.

  (* with distinguishable ids, the filters tell which pre_exec and which post_exec commands ran *)
  Lemma pre_shown :
    cmd_ids (map ECmd (until_fail (pre_stubs c t r))) (all_pre_ids c t) = until_fail (pre_stubs c t r) /\
    cmd_ids (map ECmd (until_fail (pre_stubs c t r))) (all_post_ids t) = [].
  Proof.
    split; [apply cmd_ids_in|apply cmd_ids_out]; intros i Hi; apply ran_ids_sub in Hi; [exact Hi|].
    destruct (mem i (all_post_ids t)) eqn:E; [|reflexivity]. destruct (disjoint_ids_spec c t i WI Hi E).
  Qed.

  Lemma post_shown :
    cmd_ids (map ECmd (until_fail (post_stubs t r))) (all_pre_ids c t) = [] /\
    cmd_ids (map ECmd (until_fail (post_stubs t r))) (all_post_ids t) = until_fail (post_stubs t r).
  Proof.
    split; [apply cmd_ids_out|apply cmd_ids_in]; intros i Hi; apply ran_ids_sub in Hi; [|exact Hi].
    destruct (mem i (all_pre_ids c t)) eqn:E; [|reflexivity]. destruct (disjoint_ids_spec c t i WI E Hi).
  Qed.

  Lemma rank_okr_order : okr_order c t r (robs_of s') = true.
  Proof.
    unfold okr_order. fold tr. rewrite (cmd_ids_cut tr).
    destruct rank_readings as (-> & Bf & Af & _). rewrite !Bf, !Af.
    destruct pre_shown as [_ P0]. destruct post_shown as [Q0 _].
    destruct (all_ok (pre_stubs c t r)); [now rewrite Q0, P0|now rewrite app_nil_r, P0].
  Qed.

  Lemma rank_okr_per_rank : okr_per_rank c t r (robs_of s') = true.
  Proof.
    unfold okr_per_rank. fold tr.
    assert (Body : eqb_list Z.eqb (cmd_ids tr (all_pre_ids c t)) (until_fail (pre_stubs c t r))
                   && eqb_list Z.eqb (cmd_ids tr (all_post_ids t))
                        (match n_exec tr with O => [] | _ => until_fail (post_stubs t r) end)
                   = true);
      [|destruct tr; [reflexivity|exact Body]].
    rewrite !(cmd_ids_cut tr).
    destruct rank_readings as (-> & Bf & Af & _). rewrite !Bf, !Af.
    destruct pre_shown as [P1 P0]. destruct post_shown as [Q0 Q1]. rewrite P1, P0.
    destruct (all_ok (pre_stubs c t r)); rewrite ?Q0, ?Q1, ?app_nil_r;
      apply andb_true_iff; split; now apply (eqb_list_spec Z.eqb Z.eqb_eq).
  Qed.
End RankClauses.

(* RP_* variables: what both scripts export (partial: see Props/C10.v) *)
Definition rp_ids (c : cfg) (t : task) : list (bytes * bytes) :=
  [ (B "RP_TASK_ID", t_uid t); (B "RP_TASK_NAME", name_of t); (B "RP_PILOT_ID", c_pid c);
    (B "RP_SESSION_ID", c_sid c); (B "RP_RESOURCE", c_resource c); (B "RP_REGISTRY_ADDRESS", c_reg c) ].

(* rp_env is a table: an entry is shown at its position *)
Lemma rp_env_exports_ids c t kv : In kv (rp_ids c t) -> In (SExportQ (fst kv) (dq (snd kv))) (rp_env c t).
Proof.
  intros [<-|[<-|[<-|[<-|[<-|[<-|[]]]]]]];
    [apply (nth_error_In _ 0)|apply (nth_error_In _ 1)|apply (nth_error_In _ 2)|apply (nth_error_In _ 3)
    |apply (nth_error_In _ 4)|apply (nth_error_In _ 9)]; reflexivity.
Qed.

Lemma rp_env_exports_counts c t :
  In (SExportQ (B "RP_CORES_PER_RANK") (dec (t_cpr t))) (rp_env c t) /\
  In (SExportQ (B "RP_GPUS_PER_RANK") (fmt_gpr (t_gpr_q t))) (rp_env c t) /\
  In (SExportQ (B "RP_CONTROL_PUB_ADDRESS") (c_pub c)) (rp_env c t) /\
  In (SExportQ (B "RP_CONTROL_SUB_ADDRESS") (c_sub c)) (rp_env c t) /\
  In (SExportQ (B "RP_TASK_SANDBOX") (dq (tsbox_text t))) (rp_env c t).
Proof.
  repeat split; [apply (nth_error_In _ 12)|apply (nth_error_In _ 13)|apply (nth_error_In _ 10)
                |apply (nth_error_In _ 11)|apply (nth_error_In _ 8)]; reflexivity.
Qed.

Lemma rp_env_in_both c l t ep x : exec_prog c l t = inr ep -> In x (rp_env c t) ->
  In x ep /\ In x (launch_prog c l t).
Proof.
  intros Hep Hx. rewrite exec_prog_eq in Hep. injection Hep as <-. split.
  - unfold exec_body, head_prog. apply in_or_app. left. apply in_or_app. now left.
  - unfold launch_prog. apply in_or_app. now left.
Qed.

Lemma export_step_value rc k q s v : s_exit s = None -> bash_word (s_env s) q = Some v ->
  lookup k (s_env (step rc (SExportQ k q) s)) = Some v.
Proof. intros H E. unfold step. rewrite H, E. simpl. now rewrite lookup_setenv, bytes_eqb_refl. Qed.

