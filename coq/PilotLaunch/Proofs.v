(* What the launcher tells each pilot of a bulk.  The buckets are two nested
   insertion-ordered dictionaries of lists; both levels are filled by the same
   operation ([upsert]: append to the entry of a key, or open one at the end),
   so what a pilot is told through them is computed once for that operation
   and used at both levels. *)
From Coq Require Import ZArith List Bool.
From RP Require Import PilotLaunch.Model.
Import ListNotations.
Open Scope Z_scope.

Lemma zmem_In x l : zmem x l = true <-> In x l.
Proof.
  induction l as [|y r IH]; simpl; [split; [discriminate|tauto]|].
  rewrite orb_true_iff, Z.eqb_eq, IH. tauto.
Qed.

Lemma zmem_app x l1 l2 : zmem x (l1 ++ l2) = zmem x l1 || zmem x l2.
Proof. induction l1 as [|y r IH]; simpl; [reflexivity|]. rewrite IH, orb_assoc. reflexivity. Qed.

Definition uids (ps : list lp) : list Z := map lp_uid ps.

(* d[k] = f(d.get(k, dflt)) on an insertion-ordered dictionary *)
Section Upsert.
  Context {V X : Type}.

  Fixpoint upsert (k : Z) (f : V -> V) (dflt : V) (l : list (Z * V)) : list (Z * V) :=
    match l with
    | [] => [(k, f dflt)]
    | (k', v) :: r => if k' =? k then (k', f v) :: r else (k', v) :: upsert k f dflt r
    end.

  Variable m : Z -> V -> list X.
  Definition collect (l : list (Z * V)) : list X := flat_map (fun e => m (fst e) (snd e)) l.

  Lemma collect_upsert_other k f dflt l :
    (forall v, m k (f v) = m k v) -> m k dflt = [] -> collect (upsert k f dflt l) = collect l.
  Proof.
    intros Hf Hd. induction l as [|[k' v] r IH]; simpl.
    - rewrite Hf, Hd. reflexivity.
    - destruct (k' =? k) eqn:E; simpl; [|rewrite IH; reflexivity].
      apply Z.eqb_eq in E. subst k'. rewrite Hf. reflexivity.
  Qed.

  (* nothing collected so far: what is collected afterwards is what the
     update shows in the one entry it touches *)
  Lemma collect_upsert_self k f dflt l x :
    (forall v, m k v = [] -> m k (f v) = x) -> m k dflt = [] -> collect l = [] ->
    collect (upsert k f dflt l) = x.
  Proof.
    intros Hf Hd. induction l as [|[k' v] r IH]; simpl; intro Hl.
    - rewrite (Hf _ Hd). apply app_nil_r.
    - apply app_eq_nil in Hl as [Hv Hr]. destruct (k' =? k) eqn:E; simpl.
      + apply Z.eqb_eq in E. subst k'. fold (collect r). rewrite (Hf _ Hv), Hr. apply app_nil_r.
      + rewrite Hv. exact (IH Hr).
  Qed.
End Upsert.

Lemma add_schema_upsert p l : add_schema p l = upsert (lp_sch p) (fun ps => ps ++ [p]) [] l.
Proof. induction l as [|[s ps] r IH]; simpl; [|rewrite IH]; reflexivity. Qed.

Lemma add_bucket_upsert p b : add_bucket p b = upsert (lp_res p) (add_schema p) [] b.
Proof. induction b as [|[r ss] rest IH]; simpl; [|rewrite IH]; reflexivity. Qed.

(* the states pilot u is told through the buckets *)
Definition sts_s (fails : Z -> Z -> bool) (u r : Z) (ss : list (Z * list lp)) : list lst :=
  collect (fun s l => if zmem u (uids l) then [bucket_state fails r s] else []) ss.
Definition sts (fails : Z -> Z -> bool) (u : Z) (b : list (Z * list (Z * list lp))) : list lst :=
  collect (sts_s fails u) b.

Lemma proj_app u a b : proj u (a ++ b) = proj u a ++ proj u b.
Proof. unfold proj. apply flat_map_app. Qed.

Lemma proj_cons u (a : adv) l : proj u (a :: l) = (if zmem u (fst a) then [snd a] else []) ++ proj u l.
Proof. reflexivity. Qed.

Lemma proj_map_bucket fails u r ss :
  proj u (map (fun sb : Z * list lp => (map lp_uid (snd sb), bucket_state fails r (fst sb))) ss) = sts_s fails u r ss.
Proof.
  unfold proj, sts_s, collect, uids. induction ss as [|[s l] t IH]; [reflexivity|].
  cbn [map flat_map fst snd]. rewrite IH. reflexivity.
Qed.

Lemma proj_launch_all fails u b : proj u (launch_all fails b) = sts fails u b.
Proof.
  unfold launch_all, sts, collect. induction b as [|[r ss] rest IH]; [reflexivity|].
  cbn [flat_map fst snd]. rewrite proj_app, proj_map_bucket, IH. reflexivity.
Qed.

Lemma zmem_uids_snoc u l p : zmem u (uids (l ++ [p])) = zmem u (uids l) || (lp_uid p =? u).
Proof. unfold uids. rewrite map_app, zmem_app. cbn [map zmem]. rewrite orb_false_r. reflexivity. Qed.

Lemma sts_s_add_other fails u r p ss : lp_uid p <> u -> sts_s fails u r (add_schema p ss) = sts_s fails u r ss.
Proof.
  intro Hne. rewrite add_schema_upsert. apply collect_upsert_other; [|reflexivity].
  intro l. cbv beta. rewrite zmem_uids_snoc, (proj2 (Z.eqb_neq _ _) Hne), orb_false_r. reflexivity.
Qed.

Lemma sts_add_other fails u p b : lp_uid p <> u -> sts fails u (add_bucket p b) = sts fails u b.
Proof.
  intro Hne. rewrite add_bucket_upsert. apply collect_upsert_other; [|reflexivity].
  intro ss. apply sts_s_add_other, Hne.
Qed.

Lemma sts_s_add_self fails r p ss :
  sts_s fails (lp_uid p) r ss = [] ->
  sts_s fails (lp_uid p) r (add_schema p ss) = [bucket_state fails r (lp_sch p)].
Proof.
  rewrite add_schema_upsert. apply collect_upsert_self; [|reflexivity].
  intros l _. cbv beta. rewrite zmem_uids_snoc, Z.eqb_refl, orb_true_r. reflexivity.
Qed.

Lemma sts_add_self fails p b :
  sts fails (lp_uid p) b = [] ->
  sts fails (lp_uid p) (add_bucket p b) = [bucket_state fails (lp_res p) (lp_sch p)].
Proof.
  rewrite add_bucket_upsert. apply collect_upsert_self; [|reflexivity].
  intros ss. apply sts_s_add_self.
Qed.

(* what the pilot with uid u, if it is in the bulk, is told by its bucket *)
Definition own_state (fails : Z -> Z -> bool) (u : Z) (ps : list lp) : list lst :=
  match find (fun p => lp_uid p =? u) ps with
  | Some p => [bucket_state fails (lp_res p) (lp_sch p)]
  | None => []
  end.

Lemma own_state_in fails ps p :
  NoDup (uids ps) -> In p ps -> own_state fails (lp_uid p) ps = [bucket_state fails (lp_res p) (lp_sch p)].
Proof.
  unfold own_state. induction ps as [|q r IH]; intros Hnd Hin; [destruct Hin|].
  destruct Hin as [-> | Hin]; simpl.
  - rewrite Z.eqb_refl. reflexivity.
  - inversion Hnd as [|x l Hni Hnd']; subst.
    destruct (lp_uid q =? lp_uid p) eqn:E; [|exact (IH Hnd' Hin)].
    apply Z.eqb_eq in E. exfalso. apply Hni. rewrite E. apply in_map. exact Hin.
Qed.

Lemma sts_fold fails u : forall ps b,
  NoDup (uids ps) -> (forall p, In p ps -> sts fails (lp_uid p) b = []) ->
  sts fails u (fold_left (fun b p => add_bucket p b) ps b) = sts fails u b ++ own_state fails u ps.
Proof.
  induction ps as [|p r IH]; intros b Hnd Hab; simpl.
  - symmetry. apply app_nil_r.
  - inversion Hnd as [|x l Hni Hnd']; subst.
    assert (Hother : forall q, In q r -> lp_uid p <> lp_uid q).
    { intros q Hq E. apply Hni. rewrite E. apply in_map. exact Hq. }
    rewrite IH; [|exact Hnd'|].
    + unfold own_state. simpl. destruct (lp_uid p =? u) eqn:E.
      * apply Z.eqb_eq in E. subst u.
        rewrite sts_add_self, (Hab p (or_introl eq_refl)) by (apply Hab; left; reflexivity).
        destruct (find (fun q => lp_uid q =? lp_uid p) r) as [q|] eqn:F; [|reflexivity].
        apply find_some in F as [Hq E]. apply Z.eqb_eq in E. destruct (Hother q Hq). congruence.
      * apply Z.eqb_neq in E. rewrite sts_add_other by exact E. reflexivity.
    + intros q Hq. rewrite sts_add_other by exact (Hother q Hq). apply Hab. right; exact Hq.
Qed.

Lemma NoDup_filter_uids f ps : NoDup (uids ps) -> NoDup (uids (filter f ps)).
Proof.
  unfold uids. induction ps as [|p r IH]; simpl; intro H; [constructor|].
  inversion H as [|x l Hni Hnd]; subst. destruct (f p); simpl; [|auto].
  constructor; [|auto]. intro Hin. apply Hni. apply in_map_iff in Hin. destruct Hin as [q [E Hq]].
  apply filter_In in Hq. rewrite <- E. apply in_map. tauto.
Qed.

Lemma zmem_uids_filter (g : Z -> bool) u ps :
  zmem u (uids (filter (fun p => g (lp_uid p)) ps)) = zmem u (uids ps) && g u.
Proof.
  induction ps as [|q r IH]; simpl; [reflexivity|].
  destruct (Z.eqb_spec (lp_uid q) u) as [<- | NE].
  - destruct (g (lp_uid q)); simpl;
      [rewrite Z.eqb_refl; reflexivity | rewrite IH, andb_false_r; reflexivity].
  - apply Z.eqb_neq in NE. destruct (g (lp_uid q)); simpl; rewrite ?NE, IH; reflexivity.
Qed.

Lemma own_state_filter (g : Z -> bool) fails u ps :
  own_state fails u (filter (fun p => g (lp_uid p)) ps) = if g u then own_state fails u ps else [].
Proof.
  unfold own_state. induction ps as [|q r IH]; simpl; [destruct (g u); reflexivity|].
  destruct (Z.eqb_spec (lp_uid q) u) as [<- | NE].
  - destruct (g (lp_uid q)); simpl; [rewrite Z.eqb_refl; reflexivity | exact IH].
  - apply Z.eqb_neq in NE. destruct (g (lp_uid q)); simpl; rewrite ?NE; exact IH.
Qed.

(* what every pilot of the bulk is told, irrespective of the others *)
Theorem work_per_pilot cancelled fails ps p :
  NoDup (uids ps) -> In p ps ->
  proj (lp_uid p) (work cancelled fails ps) =
    if zmem (lp_uid p) cancelled then [LCanceled]
    else [LLaunching; bucket_state fails (lp_res p) (lp_sch p)].
Proof.
  intros Hnd Hin. unfold work, buckets. rewrite !proj_cons. cbn [fst snd].
  rewrite proj_launch_all, sts_fold by first [reflexivity | apply NoDup_filter_uids; exact Hnd].
  rewrite (own_state_filter (fun u => negb (zmem u cancelled))).
  fold (uids (filter (fun q => zmem (lp_uid q) cancelled) ps)).
  fold (uids (filter (fun q => negb (zmem (lp_uid q) cancelled)) ps)).
  rewrite (zmem_uids_filter (fun u => zmem u cancelled)), (zmem_uids_filter (fun u => negb (zmem u cancelled))).
  replace (zmem (lp_uid p) (uids ps)) with true by (symmetry; apply zmem_In, in_map, Hin).
  rewrite (own_state_in fails ps p Hnd Hin). destruct (zmem (lp_uid p) cancelled); reflexivity.
Qed.
