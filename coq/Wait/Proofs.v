(* Each of the four wait calls polls until a test of the clock holds and returns at
   the first tick at which it does ([first_stop]); the test is: every awaited entity has
   left the watch list ([watch]: it was seen in a requested or final state at SOME poll),
   the timeout has expired, or the manager terminates.  Three facts about a call's test --
   it holds once every entity was seen, by the deadline, and only for a reason -- give
   the oracle clauses ([loop_clauses]). *)
From Coq Require Import ZArith List Bool Lia.
From RP Require Import Common.Eqb Common.ListFacts Wait.Model Wait.Oracle.
Import ListNotations.

Section FirstStop.
  Variable stop : nat -> bool.

  (* the first tick c, c+1, .., c+fuel at which the test holds *)
  Fixpoint first_stop (fuel c : nat) : option nat :=
    if stop c then Some c
    else match fuel with O => None | S f => first_stop f (S c) end.

  Lemma first_stop_eq fuel c :
    first_stop fuel c =
    if stop c then Some c else match fuel with O => None | S f => first_stop f (S c) end.
  Proof. destruct fuel; reflexivity. Qed.

  Lemma first_stop_by fuel : forall c k,
    c <= k -> k - c <= fuel -> stop k = true ->
    exists t, c <= t <= k /\ first_stop fuel c = Some t.
  Proof.
    induction fuel as [|f IH]; intros c k Hc Hf Hk; rewrite first_stop_eq;
      destruct (stop c) eqn:E; try (exists c; split; [lia | reflexivity]).
    - replace k with c in Hk by lia. congruence.
    - assert (c <> k) by congruence.
      destruct (IH (S c) k) as [t [Ht H']]; [lia | lia | exact Hk |].
      exists t. split; [lia | exact H'].
  Qed.

  Lemma first_stop_Some fuel : forall c t,
    first_stop fuel c = Some t -> c <= t /\ stop t = true.
  Proof.
    induction fuel as [|f IH]; intros c t; rewrite first_stop_eq;
      destruct (stop c) eqn:E; try discriminate;
      try (intro H; injection H as <-; split; [lia | exact E]).
    intro H. apply IH in H. split; [lia | apply H].
  Qed.

  Lemma first_stop_None fuel : forall c j,
    first_stop fuel c = None -> c <= j <= c + fuel -> stop j = false.
  Proof.
    induction fuel as [|f IH]; intros c j; rewrite first_stop_eq;
      destruct (stop c) eqn:E; try discriminate; intros H Hj.
    - replace j with c by lia. exact E.
    - destruct (Nat.eq_dec j c) as [-> | NE]; [exact E|]. apply (IH (S c)); [exact H | lia].
  Qed.

  Lemma first_stop_quiet fuel : forall c,
    (forall j, c <= j -> stop j = false) -> first_stop fuel c = None.
  Proof.
    induction fuel as [|f IH]; intros c H; rewrite first_stop_eq, (H c (le_n c)); [reflexivity|].
    apply IH. intros j Hj. apply H. lia.
  Qed.

  Lemma first_stop_forever fuel :
    first_stop fuel 0 = None -> (forall j, fuel <= j -> stop j = false) ->
    forall fuel', first_stop fuel' 0 = None.
  Proof.
    intros H Hq fuel'. apply first_stop_quiet. intros j _.
    destruct (Nat.le_gt_cases fuel j); [apply Hq; assumption|].
    apply (first_stop_None fuel 0 j H). lia.
  Qed.
End FirstStop.

Definition nilb {A} (l : list A) : bool := match l with [] => true | _ :: _ => false end.

Section Watch.
  Context {A : Type}.
  Variable keep : nat -> A -> bool.

  (* what is left of the watch list aw after the polls a, a+1, .., a+n-1 *)
  Fixpoint watch (a n : nat) (aw : list A) : list A :=
    match n with O => aw | S m => filter (keep (a + m)) (watch a m aw) end.

  Lemma watch_In a n aw x :
    In x (watch a n aw) -> In x aw /\ forall j, a <= j < a + n -> keep j x = true.
  Proof.
    induction n as [|m IH]; simpl; [intro H; split; [exact H | intros; lia]|].
    intro H. apply filter_In in H as [H Hk]. destruct (IH H) as [H1 H2]. split; [exact H1|].
    intros j Hj. destruct (Nat.eq_dec j (a + m)) as [-> | NE]; [exact Hk | apply H2; lia].
  Qed.

  Lemma watch_out a n aw x :
    In x aw -> In x (watch a n aw) \/ exists j, a <= j < a + n /\ keep j x = false.
  Proof.
    intro Hx. induction n as [|m IH]; simpl; [left; exact Hx|].
    destruct IH as [H | [j [Hj H]]]; [|right; exists j; split; [lia | exact H]].
    destruct (keep (a + m) x) eqn:E.
    - left. apply filter_In. split; assumption.
    - right. exists (a + m). split; [lia | exact E].
  Qed.

  Lemma watch_nilb a n aw :
    nilb (watch a n aw) = true <->
    forall x, In x aw -> exists j, a <= j < a + n /\ keep j x = false.
  Proof.
    split.
    - intros H x Hx. destruct (watch_out a n aw x Hx) as [Hin | Hj]; [|exact Hj].
      destruct (watch a n aw); [destruct Hin | discriminate].
    - intro H. destruct (watch a n aw) as [|x l] eqn:E; [reflexivity|].
      destruct (watch_In a n aw x) as [Hx Hk]; [rewrite E; left; reflexivity|].
      destruct (H x Hx) as [j [Hj Hf]]. rewrite (Hk j Hj) in Hf. discriminate.
  Qed.
End Watch.

(* the two shapes of sweep the oracle makes over ticks *)
Lemma existsb_window (f : nat -> bool) p0 k :
  existsb f (seq p0 (S k - p0)) = true <-> exists j, p0 <= j <= k /\ f j = true.
Proof.
  rewrite existsb_exists.
  split; intros [j [Hj H]]; exists j; (split; [|exact H]); [apply in_seq in Hj | apply in_seq]; lia.
Qed.

Lemma forallb_implb_intro (prem concl : nat -> bool) n :
  (forall k, k < n -> prem k = true -> concl k = true) ->
  forallb (fun k => implb (prem k) (concl k)) (seq 0 n) = true.
Proof.
  intro H. apply forallb_forall. intros k Hk. apply in_seq in Hk.
  destruct (prem k) eqn:E; [|reflexivity]. apply H; [lia | exact E].
Qed.

(* the hypothesis final_top below, for a finite state type, in a form that can be evaluated *)
Lemma final_top_check {state} (seqb : state -> state -> bool) (final : list state) (value : state -> Z)
  (all : list state) :
  (forall s, In s all) ->
  forallb (fun f => forallb (fun s => implb (value f <=? value s)%Z (is_final seqb final s)) all) final = true ->
  forall f s, In f final -> (value f <= value s)%Z -> is_final seqb final s = true.
Proof.
  intros Hall H f s Hf Hle. rewrite forallb_forall in H. specialize (H f Hf).
  rewrite forallb_forall in H. specialize (H s (Hall s)).
  apply Z.leb_le in Hle. rewrite Hle in H. exact H.
Qed.

Section Proofs.
  Context {state : Type}.
  Variable seqb : state -> state -> bool.
  Variable final : list state.
  Variable value : state -> Z.
  Hypothesis seqb_spec : forall a b, seqb a b = true <-> a = b.
  (* no non-final state is as late as a final one (values of FINAL are the top) *)
  Hypothesis final_top :
    forall f s, In f final -> (value f <= value s)%Z -> is_final seqb final s = true.
  (* wait_tasks reads FINAL[-1] *)
  Hypothesis final_ne : final <> [].

  Notation mem := (mem seqb).
  Notation is_final := (is_final seqb final).
  Notation poll1 := (poll1 seqb final).
  Notation entity_wait := (entity_wait seqb final).
  Notation wt_loop := (wt_loop seqb final value).
  Notation wt_keep := (wt_keep seqb final value).
  Notation wp_loop := (wp_loop seqb final).
  Notation wp_keep := (wp_keep seqb final).
  Notation traj := (@traj state).
  Notation table := (@Model.table state).

  Lemma seqb_refl s : seqb s s = true.
  Proof. apply seqb_spec; reflexivity. Qed.

  (* the timeout test in terms of the deadline: the first tick at which it holds *)
  Lemma timed_out_deadline T d c : deadline T = Some d -> timed_out T c = (d <=? c).
  Proof.
    destruct T as [| |[|n]]; simpl; try discriminate; intro H; injection H as <-; reflexivity.
  Qed.
  Lemma timed_out_no_deadline T c : deadline T = None -> timed_out T c = false.
  Proof. destruct T as [| |[|n]]; simpl; try discriminate; reflexivity. Qed.

  Lemma timed_out_mono T c c' : c <= c' -> timed_out T c = true -> timed_out T c' = true.
  Proof.
    intros Hc H. destruct (deadline T) as [d|] eqn:HD.
    - rewrite (timed_out_deadline _ _ c HD) in H. rewrite (timed_out_deadline _ _ c' HD).
      apply Nat.leb_le in H. apply Nat.leb_le. lia.
    - rewrite (timed_out_no_deadline _ _ HD) in H. discriminate.
  Qed.
  Lemma term_set_mono term c c' : c <= c' -> term_set term c = true -> term_set term c' = true.
  Proof.
    destruct term as [k|]; simpl; try discriminate. intros Hc H.
    apply Nat.leb_le in H. apply Nat.leb_le. lia.
  Qed.

  Definition ret_at (lst : bool) (aw : list traj) (o : option nat) : @res state :=
    match o with None => Spins | Some c => ret_states lst (states_at c aw) c end.

  Lemma ret_states_ok (lst : bool) (aw : list traj) c :
    (lst = false -> exists tr, aw = [tr]) ->
    exists v, ret_states lst (states_at c aw) c = Returned v c /\
              ok_truthful seqb lst aw (Returned v c) = true.
  Proof.
    intro Hone. unfold ret_states. destruct lst.
    - eexists; split; [reflexivity|]. simpl. apply eqb_list_refl, seqb_refl.
    - destruct (Hone eq_refl) as [tr ->]. simpl. eexists; split; [reflexivity|].
      simpl. apply seqb_refl.
  Qed.

  Lemma ret_at_by lst (aw : list traj) stop fuel b :
    (lst = false -> exists tr, aw = [tr]) -> b <= fuel ->
    (exists k, k <= b /\ stop k = true) ->
    exists v t, t <= b /\ ret_at lst aw (first_stop stop fuel 0) = Returned v t /\
                ok_truthful seqb lst aw (Returned v t) = true.
  Proof.
    intros Hone Hb [k [Hk Hs]].
    destruct (first_stop_by stop fuel 0 k) as [t [Ht E]]; [lia | lia | exact Hs |].
    rewrite E. destruct (ret_states_ok lst aw t Hone) as [v [H1 H2]].
    exists v, t. split; [lia|]. split; [exact H1 | exact H2].
  Qed.

  (* what an entity must show to count for `timely`: a requested or final state, or
     (lib: the value-based call, wait_tasks) a state that is requested, later, or final *)
  Definition hit (lib : bool) (states : list state) (s : state) : bool :=
    if lib then passed seqb final value states s else mem s states || is_final s.

  Lemma passed_of_shown states s : mem s states || is_final s = true -> passed seqb final value states s = true.
  Proof. unfold Oracle.passed. destruct (is_final s), (mem s states); simpl; congruence. Qed.

  Lemma hit_of_shown lib states s : mem s states || is_final s = true -> hit lib states s = true.
  Proof. destruct lib; [apply passed_of_shown | exact (fun H => H)]. Qed.

  Lemma shown_by_spec p0 states (tr : traj) k :
    shown_by seqb final p0 states tr k = true <->
    exists j, p0 <= j <= k /\ mem (at_ tr j) states || is_final (at_ tr j) = true.
  Proof. apply (existsb_window (fun j => mem (at_ tr j) states || is_final (at_ tr j))). Qed.

  Lemma sat_forall states (aw : list traj) k :
    sat seqb final states aw k = true ->
    forall tr, In tr aw -> mem (at_ tr k) states || is_final (at_ tr k) = true.
  Proof. unfold sat. rewrite forallb_forall. auto. Qed.

  Lemma ret_by_mono (o : @res state) b b' : b <= b' -> ret_by o b = true -> ret_by o b' = true.
  Proof.
    destruct o; simpl; try discriminate. intros Hb H. apply Nat.leb_le in H. apply Nat.leb_le. lia.
  Qed.

  (* all three readings of `timely` from one: a call that first looks at the
     entities at tick p0 has returned by k+1-p0 once each has hit by tick k *)
  Lemma ok_timely_intro p0 (lib : bool) states (aw : list traj) o :
    p0 <= 1 ->
    (forall k, k <= S (horizon aw) ->
       (forall tr, In tr aw -> exists j, p0 <= j <= k /\ hit lib states (at_ tr j) = true) ->
       ret_by o (k + 1 - p0) = true) ->
    ok_timely seqb final value p0 lib states aw o = true.
  Proof.
    intros Hp H. unfold ok_timely. apply andb_true_iff. split; [apply andb_true_iff; split|].
    - unfold ok_timely_all. apply forallb_implb_intro. intros k Hk E.
      apply andb_true_iff in E as [H1 H2].
      (* the first look is at tick p0: all satisfied there and at the next tick *)
      assert (Hs : sat seqb final states aw (k + p0) = true).
      { destruct p0 as [|[|p]]; [rewrite Nat.add_0_r; exact H1 | rewrite Nat.add_1_r; exact H2 | lia]. }
      apply (ret_by_mono o (k + p0 + 1 - p0)); [lia|]. apply H; [lia|].
      intros tr Htr. exists (k + p0). split; [lia|]. apply hit_of_shown, (sat_forall _ _ _ Hs _ Htr).
    - unfold ok_timely_each. apply forallb_implb_intro. intros k Hk E. rewrite forallb_forall in E.
      apply (ret_by_mono o (k + 1 - p0)); [lia|]. apply H; [lia|]. intros tr Htr.
      destruct (proj1 (shown_by_spec _ _ _ _) (E tr Htr)) as [j [Hj Hs]].
      exists j. split; [exact Hj | apply hit_of_shown; exact Hs].
    - destruct lib; [|reflexivity]. unfold ok_timely_reached. apply forallb_implb_intro.
      intros k Hk E. rewrite forallb_forall in E.
      apply (ret_by_mono o (k + 1 - p0)); [lia|]. apply H; [lia|]. intros tr Htr.
      exact (proj1 (existsb_window _ _ _) (E tr Htr)).
  Qed.

  (* Oracle.reached is Oracle.passed_by 0 with two disjuncts swapped *)
  Lemma reached_intro states (tr : traj) t j :
    j <= t -> passed seqb final value states (at_ tr j) = true -> reached seqb final value states tr t = true.
  Proof.
    intros Hj H. unfold Oracle.reached. apply existsb_exists. exists j. split; [apply in_seq; lia|].
    cbv zeta. rewrite (orb_comm (mem (at_ tr j) states)). exact H.
  Qed.

  (* The oracle clauses for any call that returns at the first tick at which
     its test `stop` holds. *)
  Theorem loop_clauses p0 (lib lst : bool) states T term (aw : list traj) stop fuel :
    (lst = false -> exists tr, aw = [tr]) -> p0 <= 1 ->
    horizon aw + 2 <= fuel -> (forall d, deadline T = Some d -> d + 2 <= fuel) ->
    (forall k, (forall tr, In tr aw -> exists j, p0 <= j <= k /\ hit lib states (at_ tr j) = true) ->
       exists t, t <= k + 1 - p0 /\ stop t = true) ->
    (forall d, deadline T = Some d -> exists t, t <= S d /\ stop t = true) ->
    (forall t, stop t = true ->
       term_set term t = true \/ timed_out T t = true \/
       forall tr, In tr aw -> reached seqb final value states tr t = true) ->
    clauses seqb final value p0 lib lst states T term (Some aw)
            (ret_at lst aw (first_stop stop fuel 0)) = [true; true; true; true; true].
  Proof.
    intros Hone Hp Hfuel HT Hhit Htmo Hwhy.
    assert (Hby : forall b, b <= fuel -> (exists t, t <= b /\ stop t = true) ->
                    ret_by (ret_at lst aw (first_stop stop fuel 0)) b = true).
    { intros b Hb Hex. destruct (ret_at_by lst aw stop fuel b Hone Hb Hex) as [v [t [Ht [E _]]]].
      rewrite E. apply Nat.leb_le. exact Ht. }
    assert (E2 : ok_timely seqb final value p0 lib states aw
                   (ret_at lst aw (first_stop stop fuel 0)) = true).
    { apply ok_timely_intro; [exact Hp|]. intros k Hk Hall. apply Hby; [lia | exact (Hhit k Hall)]. }
    assert (E3 : ok_timeout T (ret_at lst aw (first_stop stop fuel 0)) = true).
    { unfold ok_timeout. destruct (deadline T) as [d|] eqn:HD; [|reflexivity].
      apply Hby; [specialize (HT d eq_refl); lia | exact (Htmo d eq_refl)]. }
    unfold clauses. rewrite E2, E3.
    destruct (first_stop stop fuel 0) as [c|] eqn:E; [|reflexivity].
    cbn [ret_at]. destruct (ret_states_ok lst aw c Hone) as [v [-> ->]].
    assert (E4 : ok_justified seqb final value states T term aw (Returned v c) = true).
    { unfold ok_justified.
      destruct (Hwhy c (proj2 (first_stop_Some stop fuel 0 c E))) as [H | [H | H]].
      - rewrite H, orb_true_r. reflexivity.
      - rewrite H. reflexivity.
      - apply orb_true_iff. right. apply forallb_forall. exact H. }
    rewrite E4. reflexivity.
  Qed.

  Lemma poll1_eq fuel states T term (tr : traj) c :
    poll1 fuel states T term tr c =
    if mem (at_ tr c) states then Returned (VOne (at_ tr c)) c
    else if is_final (at_ tr c) then Returned (VOne (at_ tr c)) c
    else match fuel with
         | O => Spins
         | S f =>
             if timed_out T (S c) then Returned (VOne (at_ tr (S c))) (S c)
             else if term_set term (S c) then Returned (VOne (at_ tr (S c))) (S c)
             else poll1 f states T term tr (S c)
         end.
  Proof. destruct fuel; reflexivity. Qed.

  (* the entity shows a requested or final state; or, after the first sleep,
     the timeout has expired or the manager terminates *)
  Definition estop states T term (tr : traj) (t : nat) : bool :=
    mem (at_ tr t) states || is_final (at_ tr t)
    || (0 <? t) && (timed_out T t || term_set term t).

  Lemma estop_quiet states T term (tr : traj) c :
    (c <> 0 -> timed_out T c = false /\ term_set term c = false) ->
    estop states T term tr c = mem (at_ tr c) states || is_final (at_ tr c).
  Proof.
    intro Hc. unfold estop. destruct c; [apply orb_false_r|].
    destruct Hc as [-> ->]; [discriminate | apply orb_false_r].
  Qed.

  Lemma poll1_first fuel states T term (tr : traj) : forall c,
    (c <> 0 -> timed_out T c = false /\ term_set term c = false) ->
    poll1 fuel states T term tr c = ret_at false [tr] (first_stop (estop states T term tr) fuel c).
  Proof.
    induction fuel as [|f IH]; intros c Hc; rewrite poll1_eq, first_stop_eq, (estop_quiet _ _ _ _ _ Hc);
      destruct (mem (at_ tr c) states); try reflexivity;
      destruct (is_final (at_ tr c)); try reflexivity.
    (* the sleep: timeout and termination are tested at the new tick, the state
       in the next round; either way the return is at that tick *)
    cbn [orb]. destruct (timed_out T (S c)) eqn:Hto.
    { rewrite first_stop_eq. unfold estop. rewrite Hto, orb_true_r. reflexivity. }
    destruct (term_set term (S c)) eqn:Hte.
    { rewrite first_stop_eq. unfold estop. rewrite Hte, !orb_true_r. reflexivity. }
    apply IH. intros _. split; assumption.
  Qed.

  Lemma entity_wait_first r T term fuel (tr : traj) :
    entity_wait r T term fuel tr =
    ret_at false [tr] (first_stop (estop (norm final r) T term tr) fuel 0).
  Proof.
    unfold Model.entity_wait. destruct (is_final (at_ tr 0)) eqn:Hfi.
    - rewrite first_stop_eq. unfold estop. rewrite Hfi, orb_true_r.
      destruct (mem (at_ tr 0) (norm final r)); reflexivity.
    - apply poll1_first. intro H; contradiction.
  Qed.

  Lemma estop_timeout states T term (tr : traj) d :
    deadline T = Some d -> estop states T term tr (Nat.max d 1) = true.
  Proof.
    intro HD. unfold estop. rewrite (timed_out_deadline _ _ _ HD).
    replace (0 <? Nat.max d 1) with true by (symmetry; apply Nat.ltb_lt; lia).
    replace (d <=? Nat.max d 1) with true by (symmetry; apply Nat.leb_le; lia).
    apply orb_true_r.
  Qed.

  Lemma estop_reason states T term (tr : traj) t :
    estop states T term tr t = true ->
    timed_out T t = true \/ term_set term t = true \/
    mem (at_ tr t) states || is_final (at_ tr t) = true.
  Proof.
    unfold estop.
    destruct (mem (at_ tr t) states || is_final (at_ tr t)), (timed_out T t), (term_set term t);
      auto. rewrite andb_false_r. discriminate.
  Qed.

  Lemma entity_by r T term fuel (tr : traj) k b :
    k <= b -> b <= fuel -> estop (norm final r) T term tr k = true ->
    exists t, t <= b /\ entity_wait r T term fuel tr = Returned (VOne (at_ tr t)) t.
  Proof.
    intros Hk Hb Hs. rewrite entity_wait_first.
    destruct (first_stop_by _ fuel 0 k (Nat.le_0_l k) ltac:(lia) Hs) as [t [Ht ->]].
    exists t. split; [lia | reflexivity].
  Qed.

  Lemma entity_shape r T term fuel (tr : traj) :
    entity_wait r T term fuel tr = Spins \/
    exists t, entity_wait r T term fuel tr = Returned (VOne (at_ tr t)) t.
  Proof.
    rewrite entity_wait_first.
    destruct (first_stop _ fuel 0) as [t|]; [right; exists t | left]; reflexivity.
  Qed.

  Lemma entity_returns_by r T term fuel (tr : traj) k :
    k <= fuel ->
    mem (at_ tr k) (norm final r) || is_final (at_ tr k) = true ->
    exists t, t <= k /\ entity_wait r T term fuel tr = Returned (VOne (at_ tr t)) t.
  Proof.
    intros Hf Hsat. apply (entity_by r T term fuel tr k k (le_n k) Hf).
    unfold estop. rewrite Hsat. reflexivity.
  Qed.

  (* a deadline d (d = T for a timeout of T > 0 ticks, d = 0 for a negative
     timeout) ==> returned by tick max d 1: Task.wait / Pilot.wait test the
     timeout only after the first sleep *)
  Lemma entity_timeout r T term fuel (tr : traj) d :
    deadline T = Some d -> Nat.max d 1 <= fuel ->
    exists t, t <= Nat.max d 1 /\
      entity_wait r T term fuel tr = Returned (VOne (at_ tr t)) t.
  Proof.
    intros HD Hf. exact (entity_by r T term fuel tr _ _ (le_n _) Hf (estop_timeout _ _ _ _ _ HD)).
  Qed.

  Lemma entity_justified r T term fuel (tr : traj) v t :
    entity_wait r T term fuel tr = Returned v t ->
    timed_out T t = true \/ term_set term t = true \/
    mem (at_ tr t) (norm final r) || is_final (at_ tr t) = true.
  Proof.
    rewrite entity_wait_first.
    destruct (first_stop _ fuel 0) as [c|] eqn:E; [|discriminate].
    intro H; injection H as _ <-. apply estop_reason, (first_stop_Some _ _ _ _ E).
  Qed.

  Theorem entity_clauses r T term fuel (tr : traj) :
    horizon [tr] + 2 <= fuel ->
    (forall d, deadline T = Some d -> d + 2 <= fuel) ->
    clauses seqb final value 0 false false (norm final r) T term (Some [tr])
            (entity_wait r T term fuel tr) = [true; true; true; true; true].
  Proof.
    intros Hfuel HT. rewrite entity_wait_first.
    apply (loop_clauses 0 false false);
      [intros _; exists tr; reflexivity | lia | exact Hfuel | exact HT | | |].
    - intros k Hall. destruct (Hall tr (or_introl eq_refl)) as [j [Hj Hs]].
      exists j. split; [lia|]. unfold estop. unfold hit in Hs. rewrite Hs. reflexivity.
    - intros d HD. exists (Nat.max d 1). split; [lia | apply estop_timeout; exact HD].
    - intros t Ht. destruct (estop_reason _ _ _ _ _ Ht) as [H | [H | H]]; auto.
      right; right. intros tr' [<- | []].
      exact (reached_intro _ _ t t (le_n t) (passed_of_shown _ _ H)).
  Qed.

  Lemma nth_length_last (rest : list state) : forall s0 d, nth (length rest) (s0 :: rest) d = last rest s0.
  Proof.
    induction rest as [|x r IH]; intros s0 d; [reflexivity|].
    change (nth (length (x :: r)) (s0 :: x :: r) d) with (nth (length r) (x :: r) d).
    rewrite IH. symmetry. apply last_cons.
  Qed.

  Lemma at_stable (tr : traj) k : length (snd tr) <= k -> at_ tr k = at_ tr (length (snd tr)).
  Proof.
    intro Hk. unfold at_. destruct tr as [s0 rest]. simpl fst in *; simpl snd in *.
    rewrite nth_length_last.
    destruct (Nat.eq_dec k (length rest)) as [-> | NE]; [apply nth_length_last|].
    apply nth_overflow. simpl. lia.
  Qed.

  (* Task.wait / Pilot.wait: if the model is out of fuel after polling past
     the end of the trajectory, the timeout and the termination tick, then
     it is out of fuel for every larger amount of fuel -- the call never
     returns.  The test has failed at tick `fuel`, and from there on nothing
     it looks at changes. *)
  Theorem entity_spins_forever r T term fuel (tr : traj) :
    length (snd tr) + 1 <= fuel ->
    (forall d, deadline T = Some d -> d + 1 <= fuel) ->
    (forall k, term = Some k -> k + 1 <= fuel) ->
    entity_wait r T term fuel tr = Spins ->
    forall fuel', entity_wait r T term fuel' tr = Spins.
  Proof.
    intros Hlen HT Hterm. rewrite entity_wait_first. intros H fuel'.
    destruct (first_stop (estop (norm final r) T term tr) fuel 0) eqn:E; [discriminate|].
    rewrite entity_wait_first, (first_stop_forever _ fuel E); [reflexivity|].
    intros j Hj. pose proof (first_stop_None _ fuel 0 fuel E ltac:(lia)) as Hq.
    unfold estop in Hq |- *. rewrite (at_stable tr j), <- (at_stable tr fuel) by lia.
    apply orb_false_iff in Hq as [-> Hq].
    replace (0 <? fuel) with true in Hq by (symmetry; apply Nat.ltb_lt; lia).
    apply orb_false_iff in Hq as [Hto Hte].
    replace (timed_out T j) with false; [replace (term_set term j) with false|].
    - apply andb_false_r.
    - destruct term as [k|]; [|reflexivity]. specialize (Hterm k eq_refl).
      simpl in Hte. apply Nat.leb_gt in Hte. lia.
    - destruct (deadline T) as [d|] eqn:HD; [|symmetry; apply timed_out_no_deadline; exact HD].
      specialize (HT d eq_refl). rewrite (timed_out_deadline _ _ _ HD) in Hto. apply Nat.leb_gt in Hto. lia.
  Qed.

  (* The two manager calls keep a watch list.  At tick t it has been through the polls
     a, .., a+t-1 (wait_tasks sleeps before its first look: a = 1; wait_pilots looks before it
     sleeps: a = 0).  A call leaves when the list is empty, when the manager terminates, or on
     the timeout -- which wait_pilots (pend) heeds only while the poll at tick t leaves pilots
     pending.  What the calls differ in besides is the filter `keep`. *)
  Section Manager.
    Variable keep : nat -> traj -> bool.
    Variables (a : nat) (pend : bool).

    Definition mstop T term (aw : list traj) (t : nat) : bool :=
      nilb (watch keep a t aw) || term_set term t
      || (if pend then negb (nilb (watch keep a (S t) aw)) else true) && timed_out T t.

    Lemma mstop_gone T term (aw : list traj) k :
      (forall tr, In tr aw -> exists j, a <= j <= k /\ keep j tr = false) -> mstop T term aw (k + 1 - a) = true.
    Proof.
      intro Hall. unfold mstop. rewrite (proj2 (watch_nilb keep a (k + 1 - a) aw)); [reflexivity|].
      intros tr Htr. destruct (Hall tr Htr) as [j [Hj Hk]]. exists j. split; [lia | exact Hk].
    Qed.

    (* tested before the sleep: left by tick d (at once for a negative timeout); when the timeout
       is not heeded at tick d the list is empty one poll later *)
    Lemma mstop_timeout T term (aw : list traj) d :
      deadline T = Some d -> exists t, t <= (if pend then S d else d) /\ mstop T term aw t = true.
    Proof.
      intro HD. unfold mstop. destruct pend; [destruct (nilb (watch keep a (S d) aw)) eqn:E|].
      - exists (S d). rewrite E. auto.
      - exists d. rewrite E, (timed_out_deadline _ _ _ HD), Nat.leb_refl. split; [lia | apply orb_true_r].
      - exists d. rewrite (timed_out_deadline _ _ _ HD), Nat.leb_refl. split; [lia | apply orb_true_r].
    Qed.

    Variables (lib : bool) (states : list state).
    Hypothesis keep_hit : forall j tr, hit lib states (at_ tr j) = true -> keep j tr = false.
    Hypothesis keep_why : forall j tr, keep j tr = false -> passed seqb final value states (at_ tr j) = true.
    Hypothesis first_look : a <= 1.

    Lemma mstop_reason T term (aw : list traj) t :
      mstop T term aw t = true ->
      term_set term t = true \/ timed_out T t = true \/
      forall tr, In tr aw -> reached seqb final value states tr t = true.
    Proof.
      unfold mstop. intro H.
      apply orb_true_iff in H as [H | H]; [apply orb_true_iff in H as [H | H]|]; auto.
      - right; right. intros tr Htr.
        destruct (proj1 (watch_nilb keep a t aw) H tr Htr) as [j [Hj Hk]].
        exact (reached_intro _ _ t j ltac:(lia) (keep_why _ _ Hk)).
      - right; left. apply andb_true_iff in H. apply H.
    Qed.

    Theorem manager_clauses lst T term (aw : list traj) fuel :
      (lst = false -> exists tr, aw = [tr]) ->
      horizon aw + 2 <= fuel -> (forall d, deadline T = Some d -> d + 2 <= fuel) ->
      clauses seqb final value a lib lst states T term (Some aw)
              (ret_at lst aw (first_stop (mstop T term aw) fuel 0)) = [true; true; true; true; true].
    Proof.
      intros Hone Hfuel HT.
      apply (loop_clauses a lib); [exact Hone | exact first_look | exact Hfuel | exact HT | | |].
      - intros k Hall. exists (k + 1 - a). split; [lia | apply mstop_gone].
        intros tr Htr. destruct (Hall tr Htr) as [j [Hj Hh]]. exists j. split; [exact Hj | exact (keep_hit _ _ Hh)].
      - intros d HD. destruct (mstop_timeout T term aw d HD) as [t [Ht H]].
        exists t. split; [destruct pend; lia | exact H].
      - apply mstop_reason.
    Qed.
  End Manager.

  Lemma wt_loop_eq fuel v T term (chk : list traj) c :
    wt_loop fuel v T term chk c =
    match chk with
    | [] => Some c
    | _ :: _ =>
        if term_set term c then Some c
        else if timed_out T c then Some c
        else match fuel with
             | O => None
             | S f => wt_loop f v T term (filter (wt_keep v (S c)) chk) (S c)
             end
    end.
  Proof. destruct fuel; reflexivity. Qed.

  Lemma wt_loop_first fuel v T term (aw : list traj) : forall c,
    wt_loop fuel v T term (watch (wt_keep v) 1 c aw) c = first_stop (mstop (wt_keep v) 1 false T term aw) fuel c.
  Proof.
    induction fuel as [|f IH]; intro c; rewrite wt_loop_eq, first_stop_eq; unfold mstop at 1;
      [|rewrite <- (IH (S c))]; cbn [watch Nat.add];
      (destruct (watch (wt_keep v) 1 c aw); [reflexivity|]);
      (destruct (term_set term c); [reflexivity|]);
      destruct (timed_out T c); reflexivity.
  Qed.

  Lemma fold_min_le_iff (l : list state) x : forall a,
    (fold_left (fun acc s => Z.min acc (value s)) l a <= x)%Z <->
    (a <= x)%Z \/ exists q, In q l /\ (value q <= x)%Z.
  Proof.
    induction l as [|y l IH]; intro a; simpl; [split; [auto | intros [H | [q [[] _]]]; exact H]|].
    rewrite IH, Z.min_le_iff. split.
    - intros [[H | H] | [q [Hq H]]]; [left; exact H | right; exists y; auto | right; exists q; auto].
    - intros [H | [q [[<- | Hq] H]]]; [left; left; exact H | left; right; exact H | right; exists q; auto].
  Qed.

  Lemma check_val_view states v :
    check_val final value states = Some v ->
    exists f, In f final /\
      forall x, (v <= x)%Z <-> (value f <= x)%Z \/ exists q, In q states /\ (value q <= x)%Z.
  Proof.
    unfold check_val. destruct (rev final) as [|f fs] eqn:Hrev; [discriminate|].
    intro H; injection H as <-. exists f. split; [|intro x; apply fold_min_le_iff].
    apply in_rev. rewrite Hrev. left; reflexivity.
  Qed.

  (* a task is dropped from the watch list when it has reached (passed) a
     requested state ... *)
  Lemma wt_keep_false_of_passed states v (tr : traj) k :
    check_val final value states = Some v ->
    passed seqb final value states (at_ tr k) = true -> wt_keep v k tr = false.
  Proof.
    intros Hv Hp. destruct (check_val_view _ _ Hv) as [f [_ Hle]].
    unfold Model.wt_keep. unfold Oracle.passed in Hp.
    destruct (is_final (at_ tr k)); [reflexivity|]. cbn [negb andb orb] in *. apply Z.ltb_ge, Hle. right.
    apply orb_true_iff in Hp as [Hp | Hp].
    - exists (at_ tr k). split; [apply (existsb_eqb_In seqb seqb_spec), Hp | lia].
    - apply existsb_exists in Hp as [q [Hq H]]. exists q. split; [exact Hq | apply Z.leb_le; exact H].
  Qed.

  (* ... and only then: a state as late as a final one is final *)
  Lemma passed_of_wt_keep_false states v (tr : traj) k :
    check_val final value states = Some v ->
    wt_keep v k tr = false -> passed seqb final value states (at_ tr k) = true.
  Proof.
    intros Hv Hk. destruct (check_val_view _ _ Hv) as [f [Hf Hle]].
    unfold Model.wt_keep in Hk. unfold Oracle.passed.
    destruct (is_final (at_ tr k)) eqn:Hfi; [reflexivity|]. cbn [negb andb orb] in *.
    apply Z.ltb_ge, Hle in Hk. destruct Hk as [H | [q [Hq H]]]; [rewrite (final_top f _ Hf H) in Hfi; discriminate|].
    apply orb_true_iff. right. apply existsb_exists. exists q. split; [exact Hq | apply Z.leb_le; exact H].
  Qed.

  Lemma wp_loop_eq fuel states T term (chk : list traj) c :
    wp_loop fuel states T term chk c =
    match chk with
    | [] => Some c
    | _ :: _ =>
        if term_set term c then Some c
        else
          let chk' := filter (wp_keep states c) chk in
          if (match chk' with [] => false | _ :: _ => timed_out T c end) then Some c
          else match fuel with
               | O => None
               | S f => wp_loop f states T term chk' (S c)
               end
    end.
  Proof. destruct fuel; reflexivity. Qed.

  Lemma wp_keep_false_iff states (tr : traj) k :
    wp_keep states k tr = false <-> mem (at_ tr k) states || is_final (at_ tr k) = true.
  Proof.
    unfold Model.wp_keep. destruct (mem (at_ tr k) states), (is_final (at_ tr k)); simpl; intuition congruence.
  Qed.

  Lemma wp_loop_first fuel states T term (aw : list traj) : forall c,
    wp_loop fuel states T term (watch (wp_keep states) 0 c aw) c
    = first_stop (mstop (wp_keep states) 0 true T term aw) fuel c.
  Proof.
    induction fuel as [|f IH]; intro c; rewrite wp_loop_eq, first_stop_eq; unfold mstop at 1;
      [|rewrite <- (IH (S c))]; cbn [watch Nat.add];
      (destruct (watch (wp_keep states) 0 c aw) as [|x l]; [reflexivity|]);
      (destruct (term_set term c); [reflexivity|]); cbv zeta;
      (destruct (filter (wp_keep states c) (x :: l)); [reflexivity|]);
      destruct (timed_out T c); reflexivity.
  Qed.

  Lemma check_val_some states : exists v, check_val final value states = Some v.
  Proof.
    unfold check_val. destruct (rev final) as [|f fs] eqn:E; [|eexists; reflexivity].
    exfalso. apply final_ne. rewrite <- (rev_involutive final), E. reflexivity.
  Qed.

  Lemma find_all_one (tab : table) x (aw : list traj) :
    find_all tab [x] = Some aw -> exists tr, aw = [tr].
  Proof.
    simpl. destruct (find x tab) as [tr|]; [|discriminate]. intro H; injection H as <-.
    exists tr; reflexivity.
  Qed.

  Lemma sel_tasks_fst (tab : table) u : fst (sel_tasks tab u) = as_list u.
  Proof. destruct u as [|x|[|y l]]; reflexivity. Qed.
  Lemma sel_pilots_fst (tab : table) u : fst (sel_pilots seqb final tab u) = as_list u.
  Proof. destruct u as [|x|[|y l]]; reflexivity. Qed.

  Lemma awaited_one_tasks (tab : table) u (aw : list traj) :
    awaited_tasks tab u = Some aw -> as_list u = false -> exists tr, aw = [tr].
  Proof.
    unfold awaited_tasks. destruct u as [|x|l]; simpl; try discriminate.
    intros H _. exact (find_all_one _ _ _ H).
  Qed.
  Lemma awaited_one_pilots (tab : table) u (aw : list traj) :
    awaited_pilots seqb final tab u = Some aw -> as_list u = false -> exists tr, aw = [tr].
  Proof.
    unfold awaited_pilots. destruct u as [|x|l]; simpl; try discriminate.
    intros H _. exact (find_all_one _ _ _ H).
  Qed.

  Lemma wait_tasks_first r T term fuel (tab : table) u (aw : list traj) v :
    awaited_tasks tab u = Some aw -> check_val final value (norm final r) = Some v ->
    wait_tasks seqb final value r T term fuel tab u =
    ret_at (as_list u) aw (first_stop (mstop (wt_keep v) 1 false T term aw) fuel 0).
  Proof.
    unfold awaited_tasks, Model.wait_tasks. intros Ha Hv.
    rewrite <- (sel_tasks_fst tab u), <- (wt_loop_first fuel v T term aw 0).
    destruct (sel_tasks tab u) as [rl uids]. simpl in *. rewrite Hv, Ha. reflexivity.
  Qed.

  Lemma wait_pilots_first r T term fuel (tab : table) u (aw : list traj) :
    awaited_pilots seqb final tab u = Some aw ->
    wait_pilots seqb final r T term fuel tab u =
    ret_at (as_list u) aw (first_stop (mstop (wp_keep (norm final r)) 0 true T term aw) fuel 0).
  Proof.
    unfold awaited_pilots, Model.wait_pilots. intros Ha.
    rewrite <- (sel_pilots_fst tab u), <- (wp_loop_first fuel (norm final r) T term aw 0).
    destruct (sel_pilots seqb final tab u) as [rl uids]. simpl in *. rewrite Ha. reflexivity.
  Qed.

  Theorem wait_tasks_clauses r T term fuel (tab : table) u (aw : list traj) :
    awaited_tasks tab u = Some aw ->
    horizon aw + 2 <= fuel ->
    (forall d, deadline T = Some d -> d + 2 <= fuel) ->
    clauses seqb final value 1 true (as_list u) (norm final r) T term (Some aw)
            (wait_tasks seqb final value r T term fuel tab u) = [true; true; true; true; true].
  Proof.
    intros Ha Hfuel HT. destruct (check_val_some (norm final r)) as [v Hv].
    rewrite (wait_tasks_first _ _ _ _ _ _ _ _ Ha Hv).
    apply (manager_clauses _ 1 false true (norm final r)); [| | auto | exact (awaited_one_tasks _ _ _ Ha) | exact Hfuel | exact HT].
    - intros j tr. exact (wt_keep_false_of_passed _ _ tr j Hv).
    - intros j tr. exact (passed_of_wt_keep_false _ _ tr j Hv).
  Qed.

  Theorem wait_pilots_clauses r T term fuel (tab : table) u (aw : list traj) :
    awaited_pilots seqb final tab u = Some aw ->
    horizon aw + 2 <= fuel ->
    (forall d, deadline T = Some d -> d + 2 <= fuel) ->
    clauses seqb final value 0 false (as_list u) (norm final r) T term (Some aw)
            (wait_pilots seqb final r T term fuel tab u) = [true; true; true; true; true].
  Proof.
    intros Ha Hfuel HT. rewrite (wait_pilots_first _ _ _ _ _ _ _ Ha).
    apply (manager_clauses _ 0 true false (norm final r)); [| | auto | exact (awaited_one_pilots _ _ _ Ha) | exact Hfuel | exact HT].
    - intros j tr. apply wp_keep_false_iff.
    - intros j tr Hk. apply passed_of_shown, wp_keep_false_iff, Hk.
  Qed.

  (* "reached": every awaited task shows at some tick 1 <= j <= k a state that
     is requested, LATER than a requested state, or final (it may have been past
     the awaited state when the call began, or have jumped over it)
     ==> wait_tasks has returned by tick k, with the actual states *)
  Theorem wait_tasks_returns_when_reached r T term fuel (tab : table) u (aw : list traj) k :
    awaited_tasks tab u = Some aw -> 1 <= k <= fuel ->
    (forall tr, In tr aw -> exists j, 1 <= j <= k /\
        passed seqb final value (norm final r) (at_ tr j) = true) ->
    exists v t, t <= k /\
      wait_tasks seqb final value r T term fuel tab u = Returned v t /\
      ok_truthful seqb (as_list u) aw (Returned v t) = true.
  Proof.
    intros Ha Hk Hall. destruct (check_val_some (norm final r)) as [cv Hv].
    rewrite (wait_tasks_first _ _ _ _ _ _ _ _ Ha Hv).
    apply ret_at_by; [exact (awaited_one_tasks _ _ _ Ha) | lia |].
    exists (k + 1 - 1). split; [lia | apply mstop_gone]. intros tr Htr.
    destruct (Hall tr Htr) as [j [Hj Hp]]. exists j. split; [exact Hj | exact (wt_keep_false_of_passed _ _ _ _ Hv Hp)].
  Qed.

  (* every awaited task HAS shown a requested or final state at some tick
     1 <= j <= k (each at its own tick; it may have moved on since)
     ==> wait_tasks has returned by tick k, with their actual states *)
  Theorem wait_tasks_returns_by r T term fuel (tab : table) u (aw : list traj) k :
    awaited_tasks tab u = Some aw -> 1 <= k <= fuel ->
    (forall tr, In tr aw -> exists j, 1 <= j <= k /\
        mem (at_ tr j) (norm final r) || is_final (at_ tr j) = true) ->
    exists v t, t <= k /\
      wait_tasks seqb final value r T term fuel tab u = Returned v t /\
      ok_truthful seqb (as_list u) aw (Returned v t) = true.
  Proof.
    intros Ha Hk Hall. apply (wait_tasks_returns_when_reached _ _ _ _ _ _ _ _ Ha Hk).
    intros tr Htr. destruct (Hall tr Htr) as [j [Hj Hs]].
    exists j. split; [exact Hj | apply passed_of_shown; exact Hs].
  Qed.

  (* every awaited pilot HAS shown a requested or final state at some tick
     j <= k (each at its own tick; it may have moved on since)
     ==> wait_pilots has returned by tick k+1, with their actual states *)
  Theorem wait_pilots_returns_by r T term fuel (tab : table) u (aw : list traj) k :
    awaited_pilots seqb final tab u = Some aw -> S k <= fuel ->
    (forall tr, In tr aw -> exists j, j <= k /\
        mem (at_ tr j) (norm final r) || is_final (at_ tr j) = true) ->
    exists v t, t <= S k /\
      wait_pilots seqb final r T term fuel tab u = Returned v t /\
      ok_truthful seqb (as_list u) aw (Returned v t) = true.
  Proof.
    intros Ha Hk Hall. rewrite (wait_pilots_first _ _ _ _ _ _ _ Ha).
    apply ret_at_by; [exact (awaited_one_pilots _ _ _ Ha) | exact Hk |].
    exists (k + 1 - 0). split; [lia | apply mstop_gone]. intros tr Htr.
    destruct (Hall tr Htr) as [j [Hj Hs]]. exists j. split; [lia | apply wp_keep_false_iff; exact Hs].
  Qed.

  (* timeouts of the manager calls.  wait_tasks tests the timeout before its
     first sleep: with a deadline d (d = T for T > 0 ticks, d = 0 for a negative
     timeout) it has returned by tick d -- at once, without a poll, for a
     negative timeout -- with the tasks' actual states *)
  Theorem wait_tasks_timeout r T term fuel (tab : table) u (aw : list traj) d :
    awaited_tasks tab u = Some aw -> deadline T = Some d -> d <= fuel ->
    exists v t, t <= d /\
      wait_tasks seqb final value r T term fuel tab u = Returned v t /\
      ok_truthful seqb (as_list u) aw (Returned v t) = true.
  Proof.
    intros Ha HD Hf. destruct (check_val_some (norm final r)) as [cv Hv].
    rewrite (wait_tasks_first _ _ _ _ _ _ _ _ Ha Hv).
    apply ret_at_by; [exact (awaited_one_tasks _ _ _ Ha) | exact Hf |].
    exact (mstop_timeout _ 1 false T term aw d HD).
  Qed.

  (* wait_pilots: returned by tick d+1 (by tick 1 for a negative timeout) *)
  Theorem wait_pilots_timeout r T term fuel (tab : table) u (aw : list traj) d :
    awaited_pilots seqb final tab u = Some aw -> deadline T = Some d -> S d <= fuel ->
    exists v t, t <= S d /\
      wait_pilots seqb final r T term fuel tab u = Returned v t /\
      ok_truthful seqb (as_list u) aw (Returned v t) = true.
  Proof.
    intros Ha HD Hf. rewrite (wait_pilots_first _ _ _ _ _ _ _ Ha).
    apply ret_at_by; [exact (awaited_one_pilots _ _ _ Ha) | exact Hf | exact (mstop_timeout _ 0 true T term aw d HD)].
  Qed.

  (* an unknown uid raises (KeyError / ValueError), nothing is claimed *)
  Theorem wait_tasks_unknown_uid r T term fuel (tab : table) u :
    awaited_tasks tab u = None ->
    wait_tasks seqb final value r T term fuel tab u = Raised KeyError.
  Proof.
    unfold awaited_tasks, Model.wait_tasks. intro Ha.
    destruct (sel_tasks tab u) as [rl uids]. simpl in Ha.
    destruct (check_val_some (norm final r)) as [v Hv]. rewrite Hv, Ha. reflexivity.
  Qed.
  Theorem wait_pilots_unknown_uid r T term fuel (tab : table) u :
    awaited_pilots seqb final tab u = None ->
    wait_pilots seqb final r T term fuel tab u = Raised ValueError.
  Proof.
    unfold awaited_pilots, Model.wait_pilots. intro Ha.
    destruct (sel_pilots seqb final tab u) as [rl uids]. simpl in Ha. rewrite Ha. reflexivity.
  Qed.
End Proofs.
