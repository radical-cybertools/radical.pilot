(* AppSlots -- lists by positions, then ONE resource list of a node (cores or gpus, `None` = DOWN) against an RO list
   (index, occupation).  Where a lemma is followed by a special case of itself (Incr_sum_entry / Incr_sum_cases,
   pick_acc_spec / pick_spec / pick_top) the first is the one to use. *)
From Coq Require Import ZArith List Bool Lia.
From RP Require Import AppSlots.Model AppSlots.Oracle.
Import ListNotations.
Open Scope Z_scope.

Lemma zlen_nonneg {A} (l : list A) : 0 <= zlen l.
Proof. unfold zlen. lia. Qed.

Lemma zlen_app {A} (a b : list A) : zlen (a ++ b) = zlen a + zlen b.
Proof. unfold zlen. rewrite app_length. lia. Qed.

Lemma zlen_cons {A} (x : A) (l : list A) : zlen (x :: l) = 1 + zlen l.
Proof. unfold zlen. cbn [List.length]. lia. Qed.

Lemma nth_error_ext {A} (a b : list A) : (forall p, nth_error a p = nth_error b p) -> a = b.
Proof.
  revert b. induction a as [|x a IH]; intros [|y b] H; try reflexivity.
  - specialize (H O). discriminate.
  - specialize (H O). discriminate.
  - pose proof (H O) as H0. cbn in H0. injection H0 as ->. f_equal. apply IH. intro p. exact (H (S p)).
Qed.

Lemma upd_length {A} (l : list A) k x : List.length (upd l k x) = List.length l.
Proof. revert k. induction l as [|h t IH]; intros [|k]; cbn; auto. Qed.

Lemma nth_error_upd {A} (l : list A) k x p :
  nth_error (upd l k x) p = if Nat.eqb p k then (match nth_error l k with Some _ => Some x | None => None end)
                            else nth_error l p.
Proof.
  revert k p. induction l as [|h t IH]; intros k p.
  - destruct k, p; cbn; try reflexivity; destruct (Nat.eqb p k); reflexivity.
  - destruct k as [|k], p as [|p]; cbn; try reflexivity. apply IH.
Qed.

Lemma nth_error_upd_same {A} (l : list A) k x y : nth_error l k = Some y -> nth_error (upd l k x) k = Some x.
Proof. intro H. rewrite nth_error_upd, Nat.eqb_refl, H. reflexivity. Qed.

Lemma nth_error_upd_other {A} (l : list A) k x p : p <> k -> nth_error (upd l k x) p = nth_error l p.
Proof. intro H. rewrite nth_error_upd. apply Nat.eqb_neq in H. rewrite H. reflexivity. Qed.

Lemma upd_same {A} (l : list A) k x : nth_error l k = Some x -> upd l k x = l.
Proof.
  intro H. apply nth_error_ext. intro p. rewrite nth_error_upd.
  destruct (Nat.eqb p k) eqn:E; [apply Nat.eqb_eq in E; subst; rewrite H; reflexivity | reflexivity].
Qed.

Lemma upd_upd {A} (l : list A) k x y : upd (upd l k x) k y = upd l k y.
Proof.
  apply nth_error_ext. intro p. rewrite !nth_error_upd.
  destruct (Nat.eqb p k) eqn:E; [|reflexivity].
  rewrite Nat.eqb_refl. destruct (nth_error l k); reflexivity.
Qed.

Lemma Forall2_nth_l {A B} (R : A -> B -> Prop) l0 l k a :
  Forall2 R l0 l -> nth_error l0 k = Some a -> exists b, nth_error l k = Some b /\ R a b.
Proof.
  intro H. revert k. induction H as [|x y l0 l Hxy H IH]; intros [|k] Hk; cbn in *; try discriminate.
  - injection Hk as <-. eauto.
  - apply IH. exact Hk.
Qed.

Lemma Forall2_nth_r {A B} (R : A -> B -> Prop) l0 l k b :
  Forall2 R l0 l -> nth_error l k = Some b -> exists a, nth_error l0 k = Some a /\ R a b.
Proof.
  intro H. revert k. induction H as [|x y l0 l Hxy H IH]; intros [|k] Hk; cbn in *; try discriminate.
  - injection Hk as <-. eauto.
  - apply IH. exact Hk.
Qed.

Lemma Forall2_len {A B} (R : A -> B -> Prop) l0 l : Forall2 R l0 l -> List.length l0 = List.length l.
Proof. induction 1; cbn; congruence. Qed.

Lemma Forall2_impl_nth {A B} (R R' : A -> B -> Prop) l0 l :
  Forall2 R l0 l ->
  (forall p x y, nth_error l0 p = Some x -> nth_error l p = Some y -> R x y -> R' x y) ->
  Forall2 R' l0 l.
Proof.
  induction 1 as [|x y l0 l Hxy H IH]; intro Himp; constructor.
  - exact (Himp O x y eq_refl eq_refl Hxy).
  - apply IH. intro p. exact (Himp (S p)).
Qed.

Lemma Forall2_impl {A B} (R R' : A -> B -> Prop) l0 l :
  (forall a b, R a b -> R' a b) -> Forall2 R l0 l -> Forall2 R' l0 l.
Proof. intros H HF. apply (Forall2_impl_nth _ _ _ _ HF). intros p x y _ _. apply H. Qed.

Lemma Forall2_upd_change {A B} (R R' : A -> B -> Prop) l0 l k a b' :
  Forall2 R l0 l -> nth_error l0 k = Some a -> R' a b' ->
  (forall p x y, p <> k -> nth_error l0 p = Some x -> nth_error l p = Some y -> R x y -> R' x y) ->
  Forall2 R' l0 (upd l k b').
Proof.
  intro H. revert k. induction H as [|x y l0 l Hxy H IH]; intros [|k] Hk Hb Hoth; try discriminate; cbn in *; constructor.
  - injection Hk as <-. exact Hb.
  - apply (Forall2_impl_nth _ _ _ _ H). intros p x' y'. apply (Hoth (S p)). discriminate.
  - apply (Hoth O); auto.
  - apply IH; auto. intros p x' y' Hp. apply (Hoth (S p)). congruence.
Qed.

Lemma Forall2_functional {A B} (R : A -> B -> Prop) l0 a b :
  (forall x y z, R x y -> R x z -> y = z) -> Forall2 R l0 a -> Forall2 R l0 b -> a = b.
Proof.
  intros HR Ha. revert b. induction Ha as [|x y l0 a Hxy Ha IH]; intros b Hb; inversion Hb; subst; auto.
  f_equal; [eapply HR; eauto | apply IH; assumption].
Qed.

Lemma forallb2_of_Forall2 {A B} (R : A -> B -> Prop) (f : A -> B -> bool) l0 l :
  (forall a b, R a b -> f a b = true) -> Forall2 R l0 l -> forallb2 f l0 l = true.
Proof. intros H HF. induction HF; cbn; auto. rewrite H by assumption. assumption. Qed.

Lemma forallb_of_Forall2_l {A B} (R : A -> B -> Prop) (f : A -> bool) l0 l :
  (forall a b, R a b -> f a = true) -> Forall2 R l0 l -> forallb f l0 = true.
Proof. intros H HF. induction HF; cbn; auto. erewrite H by eassumption. assumption. Qed.

Lemma sum_at_app j a b : sum_at j (a ++ b) = sum_at j a + sum_at j b.
Proof. induction a as [|[i d] a IH]; cbn [sum_at app]; lia. Qed.

Lemma sum_at_notin l j : (forall d, ~ In (j, d) l) -> sum_at j l = 0.
Proof.
  induction l as [|[i d] l IH]; intro H; cbn [sum_at]; auto.
  destruct (i =? j) eqn:E.
  - apply Z.eqb_eq in E. subst. exfalso. apply (H d). left. reflexivity.
  - rewrite IH; [lia|]. intros d' Hd. apply (H d'). right. exact Hd.
Qed.

Lemma sum_at_nonneg l j : Forall (fun p => 0 <= snd p) l -> 0 <= sum_at j l.
Proof.
  induction 1 as [|[i d] l Hd HF IH]; cbn [sum_at]; [lia|]. cbn in Hd. destruct (i =? j); lia.
Qed.

(* a list of RO names usable (in range, not DOWN) entries of cs *)
Definition ro_fit (cs : list (option Z)) (l : list (Z * Z)) : Prop :=
  Forall (fun p => 0 <= fst p /\ exists a, nth_error cs (Z.to_nat (fst p)) = Some (Some a)) l.

(* every "the list is its earlier self plus ..." is stated with this, g = sum_at . l for an RO list l *)
Definition shifted (g : Z -> Z) (cs cs' : list (option Z)) : Prop :=
  forall p, nth_error cs' p = match nth_error cs p with
                              | Some (Some o) => Some (Some (o + g (Z.of_nat p)))
                              | x => x
                              end.

Lemma shifted_zero cs : shifted (fun _ => 0) cs cs.
Proof. intro p. destruct (nth_error cs p) as [[o|]|]; auto. f_equal. f_equal. lia. Qed.

Lemma shifted_ext f g a b : (forall j, f j = g j) -> shifted f a b -> shifted g a b.
Proof. intros H Hs p. rewrite (Hs p). destruct (nth_error a p) as [[o|]|]; auto. rewrite H. reflexivity. Qed.

Lemma shifted_comp f g a b c : shifted f a b -> shifted g b c -> shifted (fun j => f j + g j) a c.
Proof.
  intros H1 H2 p. rewrite (H2 p), (H1 p). destruct (nth_error a p) as [[o|]|]; auto.
  f_equal. f_equal. lia.
Qed.

Lemma shifted_some f a b p o : shifted f a b -> nth_error b p = Some (Some o) ->
  exists o0, nth_error a p = Some (Some o0) /\ o = o0 + f (Z.of_nat p).
Proof.
  intros H Hb. rewrite (H p) in Hb. destruct (nth_error a p) as [[o0|]|]; try discriminate.
  injection Hb as <-. eauto.
Qed.

Lemma shifted_some_l f a b p o0 : shifted f a b -> nth_error a p = Some (Some o0) ->
  nth_error b p = Some (Some (o0 + f (Z.of_nat p))).
Proof. intros H Ha. rewrite (H p), Ha. reflexivity. Qed.

Lemma shifted_functional f a b c : shifted f a b -> shifted f a c -> b = c.
Proof. intros H1 H2. apply nth_error_ext. intro p. rewrite (H1 p), (H2 p). reflexivity. Qed.

Lemma shifted_length g cs cs' : shifted g cs cs' -> List.length cs' = List.length cs.
Proof.
  intro H. apply Nat.le_antisymm; apply nth_error_None.
  - specialize (H (List.length cs)). rewrite (proj2 (nth_error_None cs _) (le_n _)) in H. exact H.
  - specialize (H (List.length cs')). rewrite (proj2 (nth_error_None cs' _) (le_n _)) in H.
    destruct (nth_error cs (List.length cs')) as [[o|]|]; [discriminate H .. | reflexivity].
Qed.

(* `x.occupation += d` on the entry with index i *)
Lemma shifted_upd cs i a d : 0 <= i -> nth_error cs (Z.to_nat i) = Some (Some a) ->
  shifted (fun j => if i =? j then d else 0) cs (upd cs (Z.to_nat i) (Some (a + d))).
Proof.
  intros Hi Ha p. rewrite nth_error_upd. destruct (Nat.eqb_spec p (Z.to_nat i)) as [->|Hne].
  - rewrite Ha, Z2Nat.id, Z.eqb_refl by exact Hi. reflexivity.
  - destruct (Z.eqb_spec i (Z.of_nat p)) as [->|_]; [rewrite Nat2Z.id in Hne; contradiction|].
    destruct (nth_error cs p) as [[o|]|]; auto. rewrite Z.add_0_r. reflexivity.
Qed.

Lemma ro_fit_shifted g cs cs' l : shifted g cs cs' -> ro_fit cs l <-> ro_fit cs' l.
Proof.
  intro Hs. unfold ro_fit. split; apply Forall_impl; intros p [Hp [a Ha]]; (split; [exact Hp|]).
  - rewrite (shifted_some_l _ _ _ _ _ Hs Ha). eauto.
  - destruct (shifted_some _ _ _ _ _ Hs Ha) as [o0 [Ho0 _]]. eauto.
Qed.

Lemma sum_at_down cs l p : ro_fit cs l -> nth_error cs p = Some None -> sum_at (Z.of_nat p) l = 0.
Proof.
  intros Hf Hp. apply sum_at_notin. intros d Hin. unfold ro_fit in Hf. rewrite Forall_forall in Hf.
  destruct (Hf _ Hin) as [_ [a Ha]]. cbn [fst] in Ha. rewrite Nat2Z.id in Ha. congruence.
Qed.

Lemma get_pos_in {A} (l : list A) i x :
  0 <= i -> nth_error l (Z.to_nat i) = Some x -> get_pos l i = Some (Z.to_nat i) /\ py_pos l i = Some (Z.to_nat i).
Proof.
  intros Hi Hn. assert (Hlt : (Z.to_nat i < List.length l)%nat) by (apply nth_error_Some; congruence).
  unfold get_pos, py_pos, zlen.
  assert (E : (0 <=? i) && (i <? Z.of_nat (List.length l)) = true).
  { apply andb_true_iff. split; [apply Z.leb_le; lia | apply Z.ltb_lt; lia]. }
  rewrite E. auto.
Qed.

Lemma add_at_spec cs k d o :
  nth_error cs k = Some (Some o) ->
  add_at cs k d = Some (upd cs k (Some (o + d))).
Proof. intro H. unfold add_at. rewrite H. reflexivity. Qed.

Lemma alloc_list_ok l : forall cs, ro_fit cs l ->
  exists cs', alloc_list cs l = (cs', None) /\ shifted (fun j => sum_at j l) cs cs'.
Proof.
  induction l as [|[i d] l IH]; intros cs Hf.
  - exists cs. split; [reflexivity | apply shifted_zero].
  - destruct (Forall_inv Hf) as [Hi [a Ha]]. cbn [fst] in Hi, Ha.
    pose proof (shifted_upd cs i a d Hi Ha) as H1.
    destruct (IH _ (proj1 (ro_fit_shifted _ _ _ l H1) (Forall_inv_tail Hf))) as [cs' [Hal Hsh]].
    exists cs'. cbn [alloc_list]. rewrite (proj1 (get_pos_in cs i _ Hi Ha)), (add_at_spec cs _ d a Ha).
    split; [exact Hal | exact (shifted_comp _ _ _ _ _ H1 Hsh)].
Qed.

Lemma dealloc_list_ok l : forall cs, ro_fit cs l ->
  exists cs', dealloc_list cs l = (cs', None) /\ shifted (fun j => - sum_at j l) cs cs'.
Proof.
  induction l as [|[i d] l IH]; intros cs Hf.
  - exists cs. split; [reflexivity | apply shifted_zero].
  - destruct (Forall_inv Hf) as [Hi [a Ha]]. cbn [fst] in Hi, Ha.
    pose proof (shifted_upd cs i a (- d) Hi Ha) as H1.
    destruct (IH _ (proj1 (ro_fit_shifted _ _ _ l H1) (Forall_inv_tail Hf))) as [cs' [Hal Hsh]].
    exists cs'. cbn [dealloc_list]. rewrite (proj2 (get_pos_in cs i _ Hi Ha)), (add_at_spec cs _ (- d) a Ha).
    split; [exact Hal|]. eapply shifted_ext; [|exact (shifted_comp _ _ _ _ _ H1 Hsh)].
    intro j. cbn [sum_at]. destruct (i =? j); lia.
Qed.

Fixpoint Incr (lo hi : Z) (l : list (Z * Z)) : Prop :=
  match l with
  | [] => True
  | (i, _) :: l' => lo <= i < hi /\ Incr (i + 1) hi l'
  end.

Lemma Incr_weaken lo lo' hi hi' l : lo' <= lo -> hi <= hi' -> Incr lo hi l -> Incr lo' hi' l.
Proof.
  revert lo lo'. induction l as [|[i d] l IH]; intros lo lo' H1 H2 H; cbn in *; auto.
  destruct H as [Hi H]. split; [lia|]. eapply IH; [| exact H2 | exact H]. lia.
Qed.

Lemma Incr_snoc lo i d l : lo <= i -> Incr lo i l -> Incr lo (i + 1) (l ++ [(i, d)]).
Proof.
  revert lo. induction l as [|[j e] l IH]; intros lo Hlo H; cbn in *.
  - split; [lia|exact I].
  - destruct H as [Hj H]. split; [lia|]. apply IH; [lia | exact H].
Qed.

Lemma Incr_sum_below lo hi l j : Incr lo hi l -> j < lo -> sum_at j l = 0.
Proof.
  revert lo. induction l as [|[i d] l IH]; intros lo H Hj; cbn in *; auto.
  destruct H as [Hi H]. destruct (i =? j) eqn:E; [apply Z.eqb_eq in E; lia|].
  rewrite (IH (i + 1)); auto; lia.
Qed.

Lemma Incr_increasing lo hi l : Incr lo hi l -> increasing lo l = true.
Proof.
  revert lo. induction l as [|[i d] l IH]; intros lo H; cbn in *; auto.
  destruct H as [Hi H]. apply andb_true_iff. split; [apply Z.leb_le; lia | apply IH; exact H].
Qed.

(* an increasing list names an index at most once: what it adds there is nothing or its one entry *)
Lemma Incr_sum_entry lo hi l j : Incr lo hi l -> sum_at j l = 0 \/ exists d, In (j, d) l /\ sum_at j l = d.
Proof.
  revert lo. induction l as [|[i d] l IH]; intros lo H; cbn [sum_at]; auto.
  cbn in H. destruct H as [Hi H]. destruct (Z.eqb_spec i j) as [->|_].
  - right. exists d. rewrite (Incr_sum_below _ _ _ j H) by lia. split; [left; reflexivity | lia].
  - destruct (IH _ H) as [H0|[d' [Hin Hd']]]; [left; lia | right; exists d'; split; [right; exact Hin | lia]].
Qed.

Lemma Incr_sum_cases lo hi l occ j :
  Incr lo hi l -> Forall (fun p => snd p = occ) l ->
  sum_at j l = 0 \/ (sum_at j l = occ /\ In (j, occ) l).
Proof.
  intros H HF. destruct (Incr_sum_entry lo hi l j H) as [H0|[d [Hin Hd]]]; [left; exact H0 | right].
  rewrite Forall_forall in HF. pose proof (HF _ Hin) as E. cbn [snd] in E. rewrite E in Hd, Hin.
  split; [exact Hd | exact Hin].
Qed.

Definition takes (occ : Z) (full : list (option Z)) (p : Z * Z) : Prop :=
  snd p = occ /\ 0 <= fst p /\ exists o, nth_error full (Z.to_nat (fst p)) = Some (Some o) /\ occ <= BUSY - o.

(* pre: the entries the loop has passed, so that the indices are the positions in pre ++ cs *)
Lemma pick_acc_spec occ n cs : forall pre acc,
  zlen acc < n ->
  Forall (takes occ (pre ++ cs)) acc -> Incr 0 (zlen pre) acc ->
  let r := pick occ n cs (zlen pre) acc in
  Forall (takes occ (pre ++ cs)) r /\ Incr 0 (zlen (pre ++ cs)) r /\ zlen r <= n.
Proof.
  induction cs as [|c cs IH]; intros pre acc Hacc HF HI; cbn [pick].
  - rewrite app_nil_r in *. repeat split; auto. lia.
  - assert (Hpre : pre ++ c :: cs = (pre ++ [c]) ++ cs) by (rewrite <- app_assoc; reflexivity).
    assert (Hz : zlen (pre ++ [c]) = zlen pre + 1) by (rewrite zlen_app; unfold zlen; cbn; lia).
    rewrite Hpre in *. rewrite <- Hz.
    (* an entry that is DOWN or has no room is passed over *)
    assert (HI1 : Incr 0 (zlen (pre ++ [c])) acc) by (eapply Incr_weaken; [| | exact HI]; lia).
    pose proof (IH _ _ Hacc HF HI1) as Hskip.
    destruct c as [o|]; [|exact Hskip].
    destruct (occ <=? BUSY - o) eqn:E; [|destruct (Z.eqb_spec (zlen acc) n); [lia | exact Hskip]].
    apply Z.leb_le in E. set (acc' := acc ++ [(zlen pre, occ)]).
    assert (HF' : Forall (takes occ ((pre ++ [Some o]) ++ cs)) acc').
    { apply Forall_app. split; [exact HF|]. constructor; [|constructor].
      split; [reflexivity|]. split; [apply zlen_nonneg|]. exists o. split; [|exact E].
      cbn [fst]. unfold zlen. rewrite Nat2Z.id, <- app_assoc, nth_error_app2, Nat.sub_diag by lia. reflexivity. }
    assert (HI' : Incr 0 (zlen (pre ++ [Some o])) acc') by (rewrite Hz; apply Incr_snoc; [apply zlen_nonneg | exact HI]).
    assert (Hl' : zlen acc' = zlen acc + 1) by (unfold acc'; rewrite zlen_app; reflexivity).
    destruct (Z.eqb_spec (zlen acc') n) as [En|En].
    + split; [exact HF'|]. split; [|lia].
      eapply Incr_weaken; [| | exact HI']; [lia|]. rewrite (zlen_app _ cs). pose proof (zlen_nonneg cs). lia.
    + apply IH; [lia | exact HF' | exact HI'].
Qed.

Lemma pick_spec occ n cs : forall pre acc,
  0 < n -> zlen acc < n ->
  Forall (takes occ (pre ++ cs)) acc -> Incr 0 (zlen pre) acc ->
  let r := pick occ n cs (zlen pre) acc in
  Forall (takes occ (pre ++ cs)) r /\ Incr 0 (zlen (pre ++ cs)) r /\ zlen r <= n.
Proof. intros pre acc _. exact (pick_acc_spec occ n cs pre acc). Qed.

Lemma pick_top occ n cs : 0 < n ->
  let r := pick occ n cs 0 [] in
  Forall (takes occ cs) r /\ Incr 0 (zlen cs) r /\ zlen r <= n.
Proof. intro Hn. exact (pick_spec occ n cs [] [] Hn Hn (Forall_nil _) I). Qed.
