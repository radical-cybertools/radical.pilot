(* AppSlots -- Node.allocate_slot(slot, _check=True) on a node of the list keeps the accounting invariant:
   the application-made slot joins the slots held. *)
From Coq Require Import List.
From RP Require Import AppSlots.Model AppSlots.Lists AppSlots.InvProofs AppSlots.AllocProofs.
Import ListNotations.
Open Scope Z_scope.

Lemma inv_alloc ns0 ns h k nd s nd' :
  Inv ns0 ns h -> nth_error ns k = Some nd -> slot_wf s -> allocate_slot nd s = (nd', None) ->
  Inv ns0 (upd ns k nd') (h ++ [s]).
Proof.
  intros HI Hk Hw Ha.
  destruct (Forall2_nth_r _ _ _ _ _ (inv_nodes _ _ _ HI) Hk) as [n0 [Hk0 HN]].
  destruct (allocate_spec _ _ _ _ _ _ _ _ HN Hw Ha) as (HR & Hsid & Hfc & Hfg).
  destruct Hw as (Hwc & Hwg & Hl0 & Hm0).
  apply (Inv_add _ _ _ _ n0 _ _ HI Hk0 Hsid); [|exact HR].
  exists k, n0. repeat apply conj; auto using ro_wf_nonneg.
Qed.

Lemma inv_alloc_refused ns0 ns h k nd s nd' e :
  Inv ns0 ns h -> nth_error ns k = Some nd -> slot_wf s -> allocate_slot nd s = (nd', Some e) ->
  upd ns k nd' = ns.
Proof.
  intros HI Hk Hw Ha.
  destruct (Forall2_nth_r _ _ _ _ _ (inv_nodes _ _ _ HI) Hk) as [n0 [_ HN]].
  rewrite (allocate_checked_refusal_unchanged _ _ _ _ (NodeRel_bounded _ _ _ _ _ _ HN) Hw Ha). exact (upd_same _ _ _ Hk).
Qed.
