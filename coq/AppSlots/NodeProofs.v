(* AppSlots -- one node: what find_slot and deallocate_slot do to the relation
   "the node is its initial self plus what is held on it" (allocate_slot:
   AllocProofs; it ends, like find_slot, in alloc_apply). *)
From Coq Require Import ZArith List Bool Lia.
From RP Require Import AppSlots.Model AppSlots.Oracle AppSlots.Lists.
Import ListNotations.
Open Scope Z_scope.

Definition bounded (l : list (option Z)) : Prop :=
  forall p o, nth_error l p = Some (Some o) -> 0 <= o <= BUSY.

(* One resource list (cores or gpus) of a node against its initial self: f j is held of entry j. *)
Record ListRel (f : Z -> Z) (l0 l : list (option Z)) : Prop := mkLR {
  lr_sh : shifted f l0 l;
  lr_b  : bounded l;
  lr_b0 : bounded l0;
  lr_nn : forall j, 0 <= f j;
  lr_dn : forall p, nth_error l0 p = Some None -> f (Z.of_nat p) = 0 }.

Lemma ListRel_ext f g l0 l : (forall j, f j = g j) -> ListRel f l0 l -> ListRel g l0 l.
Proof.
  intros E [Hs Hb Hb0 Hn Hd]. constructor; auto.
  - exact (shifted_ext _ _ _ _ E Hs).
  - intro j. rewrite <- E. apply Hn.
  - intros p Hp. rewrite <- E. exact (Hd p Hp).
Qed.

Lemma ListRel_init l : bounded l -> ListRel (fun _ => 0) l l.
Proof. intro Hb. constructor; auto; [apply shifted_zero | intro; lia]. Qed.

Lemma ListRel_add f l0 l x l' :
  ListRel f l0 l -> shifted (fun j => sum_at j x) l l' -> bounded l' ->
  ro_fit l x -> Forall (fun p => 0 <= snd p) x ->
  ListRel (fun j => f j + sum_at j x) l0 l'.
Proof.
  intros [Hs Hb Hb0 Hn Hd] Hx Hb' Hfit Hnn. constructor; auto.
  - exact (shifted_comp _ _ _ _ _ Hs Hx).
  - intro j. pose proof (Hn j). pose proof (sum_at_nonneg x j Hnn). lia.
  - intros p Hp. rewrite (Hd p Hp), (sum_at_down l0 x p); [lia | exact (proj2 (ro_fit_shifted _ _ _ _ Hs) Hfit) | exact Hp].
Qed.

Lemma ListRel_sub f l0 l x l' :
  ListRel (fun j => f j + sum_at j x) l0 l -> shifted (fun j => - sum_at j x) l l' ->
  (forall j, 0 <= f j) -> Forall (fun p => 0 <= snd p) x ->
  ListRel f l0 l'.
Proof.
  intros [Hs Hb Hb0 Hn Hd] Hx Hn' Hnn.
  assert (Hs' : shifted f l0 l').
  { eapply shifted_ext; [| exact (shifted_comp _ _ _ _ _ Hs Hx)]. intro j. cbn. lia. }
  constructor; auto.
  - intros p o Hp. destruct (shifted_some _ _ _ _ _ Hs' Hp) as [a [Ha ->]].
    pose proof (Hb0 _ _ Ha). pose proof (Hn' (Z.of_nat p)).
    pose proof (Hb _ _ (shifted_some_l _ _ _ _ _ Hs Ha)) as Hold. cbn beta in Hold.
    pose proof (sum_at_nonneg x (Z.of_nat p) Hnn). lia.
  - intros p Hp. pose proof (Hd p Hp) as H0. cbn beta in H0. pose proof (Hn' (Z.of_nat p)).
    pose proof (sum_at_nonneg x (Z.of_nat p) Hnn). lia.
Qed.

(* lfs / mem: a number that went down by what is held and is still >= 0, or not reported (None) *)
Definition amount_rel (held : Z) (a0 a : option Z) : Prop :=
  match a0 with
  | Some x => a = Some (x - held) /\ 0 <= x - held
  | None => a = None
  end.

Lemma amount_rel_functional held a0 a b : amount_rel held a0 a -> amount_rel held a0 b -> a = b.
Proof. unfold amount_rel. destruct a0; [intros [-> _] [-> _] | intros -> ->]; reflexivity. Qed.

(* taking `want` (find_slot's test passed) *)
Lemma amount_rel_take held want a0 a :
  amount_rel held a0 a -> 0 <= want ->
  match a with Some l => negb (want =? 0) && (l <? want) | None => false end = false ->
  amount_rel (held + want) a0 (match a with Some l => Some (l - want) | None => None end).
Proof.
  unfold amount_rel. destruct a0 as [x|]; [intros [-> Hge] | intros ->]; intros Hw Ht; [|reflexivity].
  split; [f_equal; lia|].
  destruct (want =? 0) eqn:E0; [apply Z.eqb_eq in E0; lia|]. cbn in Ht. apply Z.ltb_ge in Ht. lia.
Qed.

Lemma amount_rel_give held held' back a0 a :
  amount_rel held a0 a -> held = held' + back -> 0 <= back ->
  amount_rel held' a0 (match a with Some l => Some (l + back) | None => None end).
Proof.
  unfold amount_rel. destruct a0 as [x|]; [intros [-> Hge] | intros ->]; intros -> Hb; [|reflexivity].
  split; [f_equal; lia | lia].
Qed.

(* fc j / fg j: what is held of core / GPU j of this node; fl, fm: of its lfs / mem *)
Record NodeRel (fc fg : Z -> Z) (fl fm : Z) (n0 n : node) : Prop := mkNR {
  nr_idx  : nd_index n = nd_index n0;
  nr_name : nd_name n = nd_name n0;
  nr_c    : shifted fc (nd_cores n0) (nd_cores n);
  nr_g    : shifted fg (nd_gpus n0) (nd_gpus n);
  nr_l    : amount_rel fl (nd_lfs n0) (nd_lfs n);
  nr_m    : amount_rel fm (nd_mem n0) (nd_mem n);
  nr_bc   : bounded (nd_cores n);
  nr_bg   : bounded (nd_gpus n);
  nr_b0c  : bounded (nd_cores n0);
  nr_b0g  : bounded (nd_gpus n0);
  nr_fc   : forall j, 0 <= fc j;
  nr_fg   : forall j, 0 <= fg j;
  nr_fl   : 0 <= fl;
  nr_fm   : 0 <= fm;
  nr_dc   : forall p, nth_error (nd_cores n0) p = Some None -> fc (Z.of_nat p) = 0;
  nr_dg   : forall p, nth_error (nd_gpus n0) p = Some None -> fg (Z.of_nat p) = 0 }.

(* NodeRel is two ListRel (cores, gpus), two amount_rel, id and name, written flat: these two convert *)
Lemma NodeRel_intro fc fg fl fm n0 n :
  nd_index n = nd_index n0 -> nd_name n = nd_name n0 ->
  ListRel fc (nd_cores n0) (nd_cores n) -> ListRel fg (nd_gpus n0) (nd_gpus n) ->
  amount_rel fl (nd_lfs n0) (nd_lfs n) -> amount_rel fm (nd_mem n0) (nd_mem n) -> 0 <= fl -> 0 <= fm ->
  NodeRel fc fg fl fm n0 n.
Proof. intros ? ? [] [] ? ? ? ?. constructor; assumption. Qed.

Lemma NodeRel_elim fc fg fl fm n0 n : NodeRel fc fg fl fm n0 n ->
  nd_index n = nd_index n0 /\ nd_name n = nd_name n0 /\
  ListRel fc (nd_cores n0) (nd_cores n) /\ ListRel fg (nd_gpus n0) (nd_gpus n) /\
  amount_rel fl (nd_lfs n0) (nd_lfs n) /\ amount_rel fm (nd_mem n0) (nd_mem n) /\ 0 <= fl /\ 0 <= fm.
Proof. intros []. repeat apply conj; try assumption; constructor; assumption. Qed.

Lemma NodeRel_ext fc fg fl fm fc' fg' fl' fm' n0 n :
  (forall j, fc j = fc' j) -> (forall j, fg j = fg' j) -> fl = fl' -> fm = fm' ->
  NodeRel fc fg fl fm n0 n -> NodeRel fc' fg' fl' fm' n0 n.
Proof.
  intros Ec Eg <- <- H. apply NodeRel_elim in H as (Hi & Hn & Lc & Lg & Hl & Hm & Hfl & Hfm).
  apply NodeRel_intro; auto; eapply ListRel_ext; eauto.
Qed.

Lemma NodeRel_functional fc fg fl fm n0 x y :
  NodeRel fc fg fl fm n0 x -> NodeRel fc fg fl fm n0 y -> x = y.
Proof.
  intros [xi xn xc xg xl xm _ _ _ _ _ _ _ _ _ _] [yi yn yc yg yl ym _ _ _ _ _ _ _ _ _ _].
  destruct x, y; cbn in *. f_equal; try congruence.
  - exact (shifted_functional _ _ _ _ xc yc).
  - exact (shifted_functional _ _ _ _ xg yg).
  - exact (amount_rel_functional _ _ _ _ xl yl).
  - exact (amount_rel_functional _ _ _ _ xm ym).
Qed.

Definition rr_ok (r : rreq) : Prop :=
  0 <= r_nc r /\ 0 <= r_co r /\ 0 <= r_ng r /\ 0 <= r_go r /\ 0 <= r_lfs r /\ 0 <= r_mem r.

(* the RO list of a slot for n resources at occupation occ out of the list cs *)
Definition ro_taken (occ n : Z) (cs : list (option Z)) (l : list (Z * Z)) : Prop :=
  Forall (takes occ cs) l /\ Incr 0 (zlen cs) l /\ zlen l = n.

Lemma pick_part occ n cs : 0 <= n ->
  let l := if n =? 0 then [] else pick occ n cs 0 [] in
  negb (n =? 0) && (zlen l <? n) = false -> ro_taken occ n cs l.
Proof.
  intros Hn l Hc. subst l. destruct (n =? 0) eqn:E.
  - apply Z.eqb_eq in E. subst n. split; [constructor | split; [exact I | reflexivity]].
  - apply Z.eqb_neq in E. cbn [negb andb] in Hc. apply Z.ltb_ge in Hc.
    destruct (pick_top occ n cs ltac:(lia)) as [H1 [H2 H3]].
    split; [exact H1 | split; [exact H2 | exact (Z.le_antisymm _ _ H3 Hc)]].
Qed.

Lemma takes_fit occ cs l : Forall (takes occ cs) l -> ro_fit cs l.
Proof.
  intro H. unfold ro_fit. eapply Forall_impl; [|exact H]. intros p [_ [Hp [o [Ho _]]]]. eauto.
Qed.

Lemma takes_snd occ cs l : Forall (takes occ cs) l -> Forall (fun p => snd p = occ) l.
Proof. apply Forall_impl. intros p H. exact (proj1 H). Qed.

Lemma bounded_after_take occ n cs l cs' :
  0 <= occ -> bounded cs -> ro_taken occ n cs l -> shifted (fun j => sum_at j l) cs cs' -> bounded cs'.
Proof.
  intros Ho Hb [HF [HI _]] Hs p o' Hp.
  destruct (shifted_some _ _ _ _ _ Hs Hp) as [o [Hcs ->]].
  pose proof (Hb _ _ Hcs) as Hbo.
  destruct (Incr_sum_entry _ _ _ (Z.of_nat p) HI) as [H0|[d [Hin Hd]]]; [lia|].
  rewrite Forall_forall in HF. destruct (HF _ Hin) as [Hocc [_ [o2 [Ho2 Hle]]]].
  cbn [fst snd] in *. rewrite Nat2Z.id, Hcs in Ho2. injection Ho2 as <-. lia.
Qed.

Lemma taken_avoids_down occ f cs0 cs l p :
  shifted f cs0 cs -> Forall (takes occ cs) l -> nth_error cs0 p = Some None -> sum_at (Z.of_nat p) l = 0.
Proof.
  intros Hs HF. exact (sum_at_down cs0 l p (proj2 (ro_fit_shifted _ _ _ _ Hs) (takes_fit _ _ _ HF))).
Qed.

Lemma ro_taken_nonneg occ n cs l : 0 <= occ -> ro_taken occ n cs l -> Forall (fun p => 0 <= snd p) l.
Proof.
  intros Ho [HF _]. eapply Forall_impl; [|exact HF]. intros p [Hs _]. lia.
Qed.

Lemma ListRel_take f l0 l occ n x l' :
  ListRel f l0 l -> 0 <= occ -> ro_taken occ n l x -> shifted (fun j => sum_at j x) l l' ->
  ListRel (fun j => f j + sum_at j x) l0 l'.
Proof.
  intros L Ho T Hs. eapply ListRel_add; [exact L | exact Hs | | exact (takes_fit _ _ _ (proj1 T)) |].
  - exact (bounded_after_take _ _ _ _ _ Ho (lr_b _ _ _ L) T Hs).
  - exact (ro_taken_nonneg _ _ _ _ Ho T).
Qed.

Record SlotFor (r : rreq) (n : node) (s : slot) : Prop := mkSF {
  sf_c : ro_taken (r_co r) (r_nc r) (nd_cores n) (s_cores s);
  sf_g : ro_taken (r_go r) (r_ng r) (nd_gpus n) (s_gpus s);
  sf_l : s_lfs s = r_lfs r;
  sf_m : s_mem s = r_mem r;
  sf_i : s_nidx s = nd_index n;
  sf_n : s_name s = nd_name n }.

Definition gains (nd : node) (s : slot) (nd' : node) : Prop :=
  nd_index nd' = nd_index nd /\ nd_name nd' = nd_name nd /\
  shifted (fun j => sum_at j (s_cores s)) (nd_cores nd) (nd_cores nd') /\
  shifted (fun j => sum_at j (s_gpus s)) (nd_gpus nd) (nd_gpus nd') /\
  nd_lfs nd' = match nd_lfs nd with Some l => Some (l - s_lfs s) | None => None end /\
  nd_mem nd' = match nd_mem nd with Some m => Some (m - s_mem s) | None => None end.

(* allocate_slot after its checks, and find_slot after its search: on usable entries neither loop can fail *)
Lemma alloc_apply_ok nd s nd' e :
  ro_fit (nd_cores nd) (s_cores s) -> ro_fit (nd_gpus nd) (s_gpus s) -> alloc_apply nd s = (nd', e) ->
  e = None /\ gains nd s nd' /\ alloc_list (nd_cores nd) (s_cores s) = (nd_cores nd', None).
Proof.
  intros Hc Hg. destruct (alloc_list_ok _ _ Hc) as [cs [Hac Hsc]]. destruct (alloc_list_ok _ _ Hg) as [gs [Hag Hsg]].
  unfold alloc_apply. rewrite Hac, Hag. intro H. injection H as <- <-. unfold gains. cbn. auto 8.
Qed.

(* Node.find_slot in ANY state of the node *)
Lemma find_slot_cases nd r nd' fr : 0 <= r_nc r -> 0 <= r_ng r -> find_slot nd r = (nd', fr) ->
  match fr with
  | FErr _ => False
  | FNone => nd' = nd
  | FSlot s =>
      SlotFor r nd s /\ gains nd s nd' /\ alloc_list (nd_cores nd) (s_cores s) = (nd_cores nd', None) /\
      match nd_lfs nd with Some l => negb (r_lfs r =? 0) && (l <? r_lfs r) | None => false end = false /\
      match nd_mem nd with Some m => negb (r_mem r =? 0) && (m <? r_mem r) | None => false end = false
  end.
Proof.
  intros Hnc Hng Hf. unfold find_slot in Hf.
  destruct (negb (r_nc r =? 0) && _) eqn:Ec; [injection Hf as <- <-; reflexivity|].
  destruct (negb (r_ng r =? 0) && _) eqn:Eg; [injection Hf as <- <-; reflexivity|].
  destruct (match nd_lfs nd with Some l => _ | None => false end) eqn:El; [injection Hf as <- <-; reflexivity|].
  destruct (match nd_mem nd with Some m => _ | None => false end) eqn:Em; [injection Hf as <- <-; reflexivity|].
  apply (pick_part _ _ _ Hnc) in Ec. apply (pick_part _ _ _ Hng) in Eg.
  set (s := mkSlot _ _ _ _ _ _) in *. destruct (alloc_apply nd s) as [nd1 e] eqn:Ha.
  destruct (alloc_apply_ok nd s _ _ (takes_fit _ _ _ (proj1 Ec)) (takes_fit _ _ _ (proj1 Eg)) Ha) as (-> & G & Hal).
  injection Hf as <- <-. split; [constructor; auto | auto].
Qed.

Theorem find_slot_spec fc fg fl fm n0 n r n' fr :
  NodeRel fc fg fl fm n0 n -> rr_ok r -> find_slot n r = (n', fr) ->
  match fr with
  | FNone => n' = n
  | FErr _ => False
  | FSlot s => SlotFor r n s /\
               NodeRel (fun j => fc j + sum_at j (s_cores s)) (fun j => fg j + sum_at j (s_gpus s))
                       (fl + s_lfs s) (fm + s_mem s) n0 n'
  end.
Proof.
  intros HR (Hnc & Hco & Hng & Hgo & Hlfs & Hmem) Hf.
  pose proof (find_slot_cases _ _ _ _ Hnc Hng Hf) as Ha. destruct fr as [s| |e]; [|exact Ha|exact Ha].
  destruct Ha as (HS & (Gi & Gn & Gc & Gg & Gl & Gm) & _ & El & Em). split; [exact HS|].
  apply NodeRel_elim in HR as (Hidx & Hname & Lc & Lg & Hl & Hm & Hfl & Hfm).
  destruct HS as [Tc Tg Sl Sm _ _].
  rewrite Sl, Sm in *.
  apply NodeRel_intro; try congruence; try lia.
  - exact (ListRel_take _ _ _ _ _ _ _ Lc Hco Tc Gc).
  - exact (ListRel_take _ _ _ _ _ _ _ Lg Hgo Tg Gg).
  - rewrite Gl. exact (amount_rel_take _ _ _ _ Hl Hlfs El).
  - rewrite Gm. exact (amount_rel_take _ _ _ _ Hm Hmem Em).
Qed.

(* giving back a slot that is part of what is held: find_slot_spec read from right to left *)
Theorem deallocate_spec fc fg fl fm fc' fg' fl' fm' n0 n s :
  NodeRel fc fg fl fm n0 n ->
  ro_fit (nd_cores n0) (s_cores s) -> ro_fit (nd_gpus n0) (s_gpus s) ->
  Forall (fun p => 0 <= snd p) (s_cores s) -> Forall (fun p => 0 <= snd p) (s_gpus s) ->
  0 <= s_lfs s -> 0 <= s_mem s ->
  (forall j, fc j = fc' j + sum_at j (s_cores s)) -> (forall j, fg j = fg' j + sum_at j (s_gpus s)) ->
  fl = fl' + s_lfs s -> fm = fm' + s_mem s ->
  (forall j, 0 <= fc' j) -> (forall j, 0 <= fg' j) -> 0 <= fl' -> 0 <= fm' ->
  exists n', deallocate_slot n s = (n', None) /\ NodeRel fc' fg' fl' fm' n0 n'.
Proof.
  intros HR Hfitc Hfitg Hnc Hng Hl Hm Ec Eg El Em Pc Pg Pl Pm.
  apply NodeRel_elim in HR as (Hidx & Hname & Lc & Lg & Hlv & Hmv & _ & _).
  apply (ListRel_ext _ _ _ _ Ec) in Lc. apply (ListRel_ext _ _ _ _ Eg) in Lg.
  destruct (dealloc_list_ok _ _ (proj1 (ro_fit_shifted _ _ _ _ (lr_sh _ _ _ Lc)) Hfitc)) as [cs' [Hdc Hshc]].
  destruct (dealloc_list_ok _ _ (proj1 (ro_fit_shifted _ _ _ _ (lr_sh _ _ _ Lg)) Hfitg)) as [gs' [Hdg Hshg]].
  eexists. unfold deallocate_slot. rewrite Hdc, Hdg. split; [reflexivity|].
  apply NodeRel_intro; cbn [nd_index nd_name nd_cores nd_gpus nd_lfs nd_mem]; try assumption.
  - exact (ListRel_sub _ _ _ _ _ Lc Hshc Pc Hnc).
  - exact (ListRel_sub _ _ _ _ _ Lg Hshg Pg Hng).
  - exact (amount_rel_give _ _ _ _ _ Hlv El Hl).
  - exact (amount_rel_give _ _ _ _ _ Hmv Em Hm).
Qed.
