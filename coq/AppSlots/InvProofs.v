(* AppSlots -- the node list: "every node is its initial self plus exactly the
   slots handed out and not yet given back" is kept by Node.find_slot on one of
   its nodes, by find_slots (success, failure with roll-back, refusal) and by
   release_slots. *)
From Coq Require Import ZArith List Bool Lia.
From RP Require Import Common.Eqb AppSlots.Model AppSlots.Oracle AppSlots.Lists AppSlots.NodeProofs AppSlots.Hang.
Import ListNotations.
Open Scope Z_scope.

(* what ONE slot adds to Oracle.Hc / Hg / Hl / Hm at the node with id k *)
Definition cc (s : slot) (k j : Z) : Z := if s_nidx s =? k then sum_at j (s_cores s) else 0.
Definition cg (s : slot) (k j : Z) : Z := if s_nidx s =? k then sum_at j (s_gpus s) else 0.
Definition cl (s : slot) (k : Z) : Z := if s_nidx s =? k then s_lfs s else 0.
Definition cm (s : slot) (k : Z) : Z := if s_nidx s =? k then s_mem s else 0.

Lemma Hc_app a b k j : Hc (a ++ b) k j = Hc a k j + Hc b k j.
Proof. induction a as [|s a IH]; cbn [Hc app]; lia. Qed.
Lemma Hg_app a b k j : Hg (a ++ b) k j = Hg a k j + Hg b k j.
Proof. induction a as [|s a IH]; cbn [Hg app]; lia. Qed.
Lemma Hl_app a b k : Hl (a ++ b) k = Hl a k + Hl b k.
Proof. induction a as [|s a IH]; cbn [Hl app]; lia. Qed.
Lemma Hm_app a b k : Hm (a ++ b) k = Hm a k + Hm b k.
Proof. induction a as [|s a IH]; cbn [Hm app]; lia. Qed.

Lemma Hc_mid a s b k j : Hc (a ++ s :: b) k j = Hc (a ++ b) k j + cc s k j.
Proof. rewrite !Hc_app. cbn [Hc]. unfold cc. lia. Qed.
Lemma Hg_mid a s b k j : Hg (a ++ s :: b) k j = Hg (a ++ b) k j + cg s k j.
Proof. rewrite !Hg_app. cbn [Hg]. unfold cg. lia. Qed.
Lemma Hl_mid a s b k : Hl (a ++ s :: b) k = Hl (a ++ b) k + cl s k.
Proof. rewrite !Hl_app. cbn [Hl]. unfold cl. lia. Qed.
Lemma Hm_mid a s b k : Hm (a ++ s :: b) k = Hm (a ++ b) k + cm s k.
Proof. rewrite !Hm_app. cbn [Hm]. unfold cm. lia. Qed.

(* what is known of every held slot, and what giving it back (inv_give) needs *)
Definition slot_on (ns0 : list node) (s : slot) : Prop :=
  exists k n0, nth_error ns0 k = Some n0 /\ nd_index n0 = s_nidx s /\
  ro_fit (nd_cores n0) (s_cores s) /\ ro_fit (nd_gpus n0) (s_gpus s) /\
  Forall (fun p => 0 <= snd p) (s_cores s) /\ Forall (fun p => 0 <= snd p) (s_gpus s) /\
  0 <= s_lfs s /\ 0 <= s_mem s.

Lemma H_nonneg ns0 h : Forall (slot_on ns0) h ->
  (forall k j, 0 <= Hc h k j) /\ (forall k j, 0 <= Hg h k j) /\ (forall k, 0 <= Hl h k) /\ (forall k, 0 <= Hm h k).
Proof.
  induction 1 as [|s h Hs HF IH]; cbn [Hc Hg Hl Hm]; [repeat split; intros; lia|].
  destruct IH as [I1 [I2 [I3 I4]]]. destruct Hs as [k0 [n0 [_ [_ [_ [_ [P1 [P2 [P3 P4]]]]]]]]].
  repeat split; intros.
  - pose proof (I1 k j). pose proof (sum_at_nonneg _ j P1). destruct (s_nidx s =? k); lia.
  - pose proof (I2 k j). pose proof (sum_at_nonneg _ j P2). destruct (s_nidx s =? k); lia.
  - pose proof (I3 k). destruct (s_nidx s =? k); lia.
  - pose proof (I4 k). destruct (s_nidx s =? k); lia.
Qed.

Definition NodeInv (h : list slot) (n0 n : node) : Prop :=
  NodeRel (Hc h (nd_index n0)) (Hg h (nd_index n0)) (Hl h (nd_index n0)) (Hm h (nd_index n0)) n0 n.

(* node ids (Node.index) are pairwise distinct; they need not be the list positions *)
Definition distinct_ids (ns0 : list node) : Prop := NoDup (map nd_index ns0).

Record Inv (ns0 ns : list node) (h : list slot) : Prop := mkInv {
  inv_ids   : distinct_ids ns0;
  inv_nodes : Forall2 (NodeInv h) ns0 ns;
  inv_held  : Forall (slot_on ns0) h }.

Lemma ids_differ ns p k x y :
  distinct_ids ns -> nth_error ns p = Some x -> nth_error ns k = Some y -> nd_index x = nd_index y -> p = k.
Proof.
  intros Hnd Hp Hk He. unfold distinct_ids in Hnd. rewrite NoDup_nth_error in Hnd. apply Hnd.
  - rewrite map_length. apply nth_error_Some. congruence.
  - rewrite (map_nth_error _ _ _ Hp), (map_nth_error _ _ _ Hk). congruence.
Qed.

Lemma ids_same h ns0 ns : Forall2 (NodeInv h) ns0 ns -> map nd_index ns = map nd_index ns0.
Proof. induction 1 as [|a b l0 l H HF IH]; cbn; [reflexivity|]. rewrite IH, (nr_idx _ _ _ _ _ _ H). reflexivity. Qed.

Lemma find_idx_spec idx : forall ns p k nd, nth_error ns k = Some nd -> nd_index nd = idx ->
  exists q nd', find_idx ns idx p = Some (p + q)%nat /\ nth_error ns q = Some nd' /\ nd_index nd' = idx.
Proof.
  induction ns as [|a ns IH]; intros p k nd Hk Hi; [destruct k; discriminate|]. cbn [find_idx].
  destruct (nd_index a =? idx) eqn:E.
  - apply Z.eqb_eq in E. exists O, a. rewrite Nat.add_0_r. auto.
  - destruct k as [|k]; [cbn in Hk; injection Hk as ->; apply Z.eqb_neq in E; contradiction|].
    destruct (IH (S p) k nd Hk Hi) as [q [nd' [H1 [H2 H3]]]]. exists (S q), nd'.
    rewrite H1. split; [f_equal; lia | auto].
Qed.

Lemma get_node_spec ns k nd : distinct_ids ns -> nth_error ns k = Some nd -> get_node ns (nd_index nd) = Some k.
Proof.
  intros Hnd Hk. unfold get_node.
  assert (Hfind : find_idx ns (nd_index nd) O = Some k).
  { destruct (find_idx_spec _ ns O k nd Hk eq_refl) as [q [nd' [H1 [H2 H3]]]]. rewrite H1. cbn. f_equal.
    exact (ids_differ _ _ _ _ _ Hnd H2 Hk H3). }
  destruct ((0 <=? nd_index nd) && (nd_index nd <? zlen ns)); [|exact Hfind].
  destruct (nth_error ns (Z.to_nat (nd_index nd))) as [nd'|] eqn:E; [|exact Hfind].
  destruct (nd_index nd' =? nd_index nd) eqn:E2; [|exact Hfind].
  apply Z.eqb_eq in E2. f_equal. exact (ids_differ _ _ _ _ _ Hnd E Hk E2).
Qed.

(* how "exactly as before" (the roll-back in find_slots_spec) and "the initial list again"
   (Proofs.released_all_is_initial) are obtained *)
Lemma Inv_functional ns0 a b h : Inv ns0 a h -> Inv ns0 b h -> a = b.
Proof.
  intros [_ Ha _] [_ Hb _]. eapply Forall2_functional; [| exact Ha | exact Hb].
  intros x y z. apply NodeRel_functional.
Qed.

Definition same_held (i : Z) (h h' : list slot) : Prop :=
  (forall j, Hc h i j = Hc h' i j) /\ (forall j, Hg h i j = Hg h' i j) /\ Hl h i = Hl h' i /\ Hm h i = Hm h' i.

Lemma same_held_sym i h h' : same_held i h h' -> same_held i h' h.
Proof. intros (A & B & C & D). repeat split; intros; symmetry; auto. Qed.

Lemma held_mid_other a s b i : s_nidx s <> i -> same_held i (a ++ s :: b) (a ++ b).
Proof.
  intro H. apply Z.eqb_neq in H.
  repeat split; intros; rewrite ?Hc_mid, ?Hg_mid, ?Hl_mid, ?Hm_mid; unfold cc, cg, cl, cm; rewrite H; lia.
Qed.

Lemma held_mid_own a s b :
  (forall j, Hc (a ++ s :: b) (s_nidx s) j = Hc (a ++ b) (s_nidx s) j + sum_at j (s_cores s)) /\
  (forall j, Hg (a ++ s :: b) (s_nidx s) j = Hg (a ++ b) (s_nidx s) j + sum_at j (s_gpus s)) /\
  Hl (a ++ s :: b) (s_nidx s) = Hl (a ++ b) (s_nidx s) + s_lfs s /\
  Hm (a ++ s :: b) (s_nidx s) = Hm (a ++ b) (s_nidx s) + s_mem s.
Proof.
  repeat split; intros; rewrite ?Hc_mid, ?Hg_mid, ?Hl_mid, ?Hm_mid; unfold cc, cg, cl, cm; rewrite Z.eqb_refl; reflexivity.
Qed.

(* the node at position k and the held list change together; for every other node the held sums stay *)
Lemma Inv_upd ns0 ns h h' k n0 nd' :
  Inv ns0 ns h -> nth_error ns0 k = Some n0 -> NodeInv h' n0 nd' -> Forall (slot_on ns0) h' ->
  (forall i, i <> nd_index n0 -> same_held i h h') ->
  Inv ns0 (upd ns k nd') h'.
Proof.
  intros [Hnd HF Hh] Hk0 HN Hh' Hoth. constructor; [exact Hnd | | exact Hh'].
  eapply Forall2_upd_change; [exact HF | exact Hk0 | exact HN |].
  intros p x y Hp Hx _. destruct (Hoth (nd_index x)) as (A & B & C & D); [|exact (NodeRel_ext _ _ _ _ _ _ _ _ _ _ A B C D)].
  intro E. apply Hp. exact (ids_differ _ _ _ _ _ Hnd Hx Hk0 E).
Qed.

Lemma Inv_add ns0 ns h k n0 s nd' :
  Inv ns0 ns h -> nth_error ns0 k = Some n0 -> s_nidx s = nd_index n0 -> slot_on ns0 s ->
  NodeRel (fun j => Hc h (nd_index n0) j + sum_at j (s_cores s))
          (fun j => Hg h (nd_index n0) j + sum_at j (s_gpus s))
          (Hl h (nd_index n0) + s_lfs s) (Hm h (nd_index n0) + s_mem s) n0 nd' ->
  Inv ns0 (upd ns k nd') (h ++ [s]).
Proof.
  intros HI Hk0 Hid Hon HR. destruct (held_mid_own h s []) as (A & B & C & D). rewrite app_nil_r, Hid in *.
  eapply Inv_upd; [exact HI | exact Hk0 | | |].
  - unfold NodeInv. eapply NodeRel_ext; [.. | exact HR]; intros; symmetry; auto.
  - apply Forall_app. split; [exact (inv_held _ _ _ HI) | constructor; [exact Hon | constructor]].
  - intros i Hi. apply same_held_sym. rewrite <- (app_nil_r h) at 2. apply held_mid_other. congruence.
Qed.

(* Oracle.ok_shape's clause for one slot, as a proposition *)
Definition ShapeOK (ns0 : list node) (r : rreq) (s : slot) : Prop :=
  exists n0, In n0 ns0 /\ slot_shape r n0 s = true.

Lemma ro_taken_shape occ n cs cs0 f l :
  shifted f cs0 cs -> ro_taken occ n cs l -> ro_shape n occ (zlen cs0) l = true.
Proof.
  intros Hs [HF [HI Hn]]. unfold ro_shape. rewrite !andb_true_iff. repeat split.
  - apply Z.eqb_eq. exact Hn.
  - apply forallb_forall. intros p Hp. rewrite Forall_forall in HF. destruct (HF _ Hp) as [H1 [H2 [o [Ho _]]]].
    rewrite !andb_true_iff. repeat split; [apply Z.eqb_eq; exact H1 | apply Z.leb_le; exact H2 | apply Z.ltb_lt].
    assert (Hlt : (Z.to_nat (fst p) < List.length cs)%nat) by (apply nth_error_Some; congruence).
    rewrite (shifted_length _ _ _ Hs) in Hlt. unfold zlen. lia.
  - eapply Incr_increasing. exact HI.
Qed.

Lemma SlotFor_shape h r n0 nd s : NodeInv h n0 nd -> SlotFor r nd s -> slot_shape r n0 s = true.
Proof.
  intros HN [Tc Tg Sl Sm Si Sn]. unfold slot_shape. rewrite !andb_true_iff. repeat split.
  - eapply ro_taken_shape; [exact (nr_c _ _ _ _ _ _ HN) | exact Tc].
  - eapply ro_taken_shape; [exact (nr_g _ _ _ _ _ _ HN) | exact Tg].
  - apply Z.eqb_eq. exact Sl.
  - apply Z.eqb_eq. exact Sm.
  - apply Z.eqb_eq. rewrite Si. exact (nr_idx _ _ _ _ _ _ HN).
  - apply String.eqb_eq. rewrite Sn. exact (nr_name _ _ _ _ _ _ HN).
Qed.

Lemma SlotFor_on ns0 h k n0 nd r s :
  nth_error ns0 k = Some n0 -> NodeInv h n0 nd -> rr_ok r -> SlotFor r nd s -> slot_on ns0 s.
Proof.
  intros Hk0 HN (_ & Hco & _ & Hgo & Hlf & Hme) [Tc Tg Sl Sm Si Sn].
  apply NodeRel_elim in HN as (Hidx & _ & Lc & Lg & _).
  exists k, n0. rewrite Sl, Sm. repeat apply conj; try assumption; try congruence.
  - exact (proj2 (ro_fit_shifted _ _ _ _ (lr_sh _ _ _ Lc)) (takes_fit _ _ _ (proj1 Tc))).
  - exact (proj2 (ro_fit_shifted _ _ _ _ (lr_sh _ _ _ Lg)) (takes_fit _ _ _ (proj1 Tg))).
  - exact (ro_taken_nonneg _ _ _ _ Hco Tc).
  - exact (ro_taken_nonneg _ _ _ _ Hgo Tg).
Qed.

Lemma inv_find ns0 ns h k nd r nd' fr :
  Inv ns0 ns h -> nth_error ns k = Some nd -> rr_ok r -> find_slot nd r = (nd', fr) ->
  match fr with
  | FSlot s => Inv ns0 (upd ns k nd') (h ++ [s]) /\ ShapeOK ns0 r s
  | FNone => upd ns k nd' = ns
  | FErr _ => False
  end.
Proof.
  intros HI Hk Hr Hf.
  destruct (Forall2_nth_r _ _ _ _ _ (inv_nodes _ _ _ HI) Hk) as [n0 [Hk0 HN]].
  pose proof (find_slot_spec _ _ _ _ _ _ _ _ _ HN Hr Hf) as Hsp.
  destruct fr as [s| |x]; [| subst nd'; exact (upd_same _ _ _ Hk) | exact Hsp].
  destruct Hsp as [HS HR]. split.
  - apply (Inv_add _ _ _ _ n0 _ _ HI Hk0); [| exact (SlotFor_on _ _ _ _ _ _ _ Hk0 HN Hr HS) | exact HR].
    rewrite (sf_i _ _ _ HS). exact (nr_idx _ _ _ _ _ _ HN).
  - exists n0. split; [exact (nth_error_In _ _ Hk0) | exact (SlotFor_shape _ _ _ _ _ HN HS)].
Qed.

Lemma inv_take ns0 ns h k nd r nd' s :
  Inv ns0 ns h -> nth_error ns k = Some nd -> rr_ok r -> find_slot nd r = (nd', FSlot s) ->
  Inv ns0 (upd ns k nd') (h ++ [s]) /\
  exists n0, nth_error ns0 k = Some n0 /\ SlotFor r nd s /\ NodeInv h n0 nd.
Proof.
  intros HI Hk Hr Hf. split; [exact (proj1 (inv_find _ _ _ _ _ _ _ _ HI Hk Hr Hf))|].
  destruct (Forall2_nth_r _ _ _ _ _ (inv_nodes _ _ _ HI) Hk) as [n0 [Hk0 HN]].
  exists n0. exact (conj Hk0 (conj (proj1 (find_slot_spec _ _ _ _ _ _ _ _ _ HN Hr Hf)) HN)).
Qed.

Lemma inv_give ns0 ns h1 s h2 :
  Inv ns0 ns (h1 ++ s :: h2) ->
  exists k nd nd', get_node ns (s_nidx s) = Some k /\ nth_error ns k = Some nd /\
                   deallocate_slot nd s = (nd', None) /\ Inv ns0 (upd ns k nd') (h1 ++ h2).
Proof.
  intros HI. pose proof HI as [Hnd HF Hh].
  assert (Hh' : slot_on ns0 s /\ Forall (slot_on ns0) (h1 ++ h2)).
  { rewrite Forall_app in *. destruct Hh as [A B]. split; [exact (Forall_inv B) | exact (conj A (Forall_inv_tail B))]. }
  destruct Hh' as [(k & n0 & Hk0 & Hid & Fc & Fg & Nc & Ng & Nl & Nm) Hh'].
  destruct (Forall2_nth_l _ _ _ _ _ HF Hk0) as [nd [Hk HN]].
  destruct (H_nonneg _ _ Hh') as (P1 & P2 & P3 & P4).
  destruct (held_mid_own h1 s h2) as (A & B & C & D). rewrite <- Hid in A, B, C, D.
  destruct (deallocate_spec _ _ _ _ _ _ _ _ n0 nd s HN Fc Fg Nc Ng Nl Nm A B C D (P1 _) (P2 _) (P3 _) (P4 _))
    as [nd' [Hd HR']].
  exists k, nd, nd'. split; [|split; [exact Hk | split; [exact Hd|]]].
  - rewrite <- Hid, <- (nr_idx _ _ _ _ _ _ HN). apply get_node_spec; [|exact Hk].
    unfold distinct_ids. rewrite (ids_same _ _ _ HF). exact Hnd.
  - apply (Inv_upd _ _ _ _ _ _ _ HI Hk0 HR' Hh'). intros i Hi. apply held_mid_other. congruence.
Qed.

(* the roll-back / a release of the slots at the end of the held list *)
Lemma dealloc_all_suffix ns0 sl : forall ns h,
  Inv ns0 ns (h ++ sl) -> exists ns', dealloc_all ns sl = (ns', None) /\ Inv ns0 ns' h.
Proof.
  induction sl as [|s sl IH]; intros ns h HI.
  - rewrite app_nil_r in HI. exists ns. split; [reflexivity | exact HI].
  - destruct (inv_give _ _ _ _ _ HI) as [k [nd [nd' [Hp [Hk [Hd HI']]]]]].
    destruct (IH _ _ HI') as [ns' [Hda HI'']].
    exists ns'. cbn [dealloc_all]. rewrite Hp, Hk, Hd. split; [exact Hda | exact HI''].
Qed.

Lemma zz_eqb_spec x y : zz_eqb x y = true <-> x = y.
Proof.
  destruct x as [a b], y as [c d]. unfold zz_eqb. cbn. rewrite andb_true_iff, !Z.eqb_eq.
  split; [intros [-> ->]; reflexivity | intro H; injection H; auto].
Qed.

Lemma slot_eqb_eq s x : slot_eqb s x = true -> s = x.
Proof.
  unfold slot_eqb. rewrite !andb_true_iff. intros [[[[[H1 H2] H3] H4] H5] H6].
  apply (eqb_list_spec _ zz_eqb_spec) in H1. apply (eqb_list_spec _ zz_eqb_spec) in H2.
  apply Z.eqb_eq in H3, H4, H5. apply String.eqb_eq in H6.
  destruct s, x. cbn in *. congruence.
Qed.

Lemma slot_eqb_refl s : slot_eqb s s = true.
Proof.
  unfold slot_eqb. rewrite !andb_true_iff. repeat split;
    try apply Z.eqb_refl; try apply String.eqb_refl; apply (eqb_list_spec _ zz_eqb_spec); reflexivity.
Qed.

Lemma mem_slot_split s h : mem_slot s h = true ->
  exists h1 h2, h = h1 ++ s :: h2 /\ remove_first s h = h1 ++ h2.
Proof.
  induction h as [|x h IH]; cbn [mem_slot remove_first]; [discriminate|].
  destruct (slot_eqb s x) eqn:E.
  - intros _. apply slot_eqb_eq in E. subst x. exists [], h. split; reflexivity.
  - cbn [orb]. intro H. destruct (IH H) as [h1 [h2 [E1 E2]]]. exists (x :: h1), h2. cbn [app]. split; congruence.
Qed.

Lemma dealloc_all_held ns0 sl : forall ns h,
  Inv ns0 ns h -> sub_held sl h = true ->
  exists ns', dealloc_all ns sl = (ns', None) /\ Inv ns0 ns' (remove_all sl h).
Proof.
  induction sl as [|s sl IH]; intros ns h HI Hs.
  - exists ns. split; [reflexivity | exact HI].
  - cbn [sub_held] in Hs. apply andb_true_iff in Hs as [Hm Hs].
    destruct (mem_slot_split _ _ Hm) as [h1 [h2 [E1 E2]]]. rewrite E1 in HI.
    destruct (inv_give _ _ _ _ _ HI) as [k [nd [nd' [Hp [Hk [Hd HI']]]]]].
    rewrite <- E2 in HI'. destruct (IH _ _ HI' Hs) as [ns' [Hda HI'']].
    exists ns'. cbn [dealloc_all remove_all]. rewrite Hp, Hk, Hd. split; [exact Hda | exact HI''].
Qed.

(* no error OTHER than the model's EHang *)
Definition no_hang (e : option err) : Prop := e = None \/ e = Some EHang.

Lemma node_loop_spec ns0 h r n k : rr_ok r -> forall fuel ns nd slots nd' slots' hit e,
  Inv ns0 ns (h ++ slots) -> nth_error ns k = Some nd -> Forall (ShapeOK ns0 r) slots ->
  node_loop fuel nd r n slots = (nd', slots', hit, e) ->
  no_hang e /\ Inv ns0 (upd ns k nd') (h ++ slots') /\ Forall (ShapeOK ns0 r) slots' /\
  (hit = true -> zlen slots' = n) /\ (hit = false -> e = None -> slots' = slots \/ zlen slots' <> n).
Proof.
  intro Hr. induction fuel as [|fuel IH]; intros ns nd slots nd' slots' hit e HI Hk HS Hl; cbn [node_loop] in Hl.
  - injection Hl as <- <- <- <-. rewrite (upd_same _ _ _ Hk). unfold no_hang. repeat apply conj; auto; discriminate.
  - destruct (find_slot nd r) as [nd1 fr] eqn:Ef.
    pose proof (inv_find _ _ _ _ _ _ _ _ HI Hk Hr Ef) as Hsp.
    destruct fr as [s| |x]; [| |contradiction].
    + destruct Hsp as [HI1 Hs]. rewrite <- app_assoc in HI1.
      assert (HS1 : Forall (ShapeOK ns0 r) (slots ++ [s])) by (apply Forall_app; auto).
      destruct (Z.eqb_spec (zlen (slots ++ [s])) n) as [En|En].
      * injection Hl as <- <- <- <-. unfold no_hang. repeat apply conj; auto; discriminate.
      * destruct (IH _ _ _ _ _ _ _ HI1 (nth_error_upd_same _ _ _ _ Hk) HS1 Hl) as (A & B & C & D & E).
        rewrite upd_upd in B. repeat apply conj; auto.
        intros Hh He. right. destruct (E Hh He) as [->|E1]; assumption.
    + injection Hl as <- <- <- <-. rewrite Hsp.
      unfold no_hang. repeat apply conj; auto; discriminate.
Qed.

Lemma nodes_loop_inv ns0 h r n start : rr_ok r -> forall cnt i ns slots stop ns' slots' stop' e,
  Inv ns0 ns (h ++ slots) -> ((0 < cnt)%nat -> 0 < zlen ns) -> Forall (ShapeOK ns0 r) slots ->
  (stop = None -> slots = [] \/ zlen slots <> n) ->
  nodes_loop cnt i start ns r n slots stop = (ns', slots', stop', e) ->
  no_hang e /\ Inv ns0 ns' (h ++ slots') /\ Forall (ShapeOK ns0 r) slots' /\
  (e = None -> stop' = None -> slots' = [] \/ zlen slots' <> n).
Proof.
  intro Hr. induction cnt as [|cnt IH]; intros i ns slots stop ns' slots' stop' e HI Hcnt HS HJ Hl; cbn [nodes_loop] in Hl.
  - injection Hl as <- <- <- <-. unfold no_hang. auto.
  - pose proof (Hcnt (Nat.lt_0_succ _)) as Hz. pose proof (Z.mod_pos_bound (start + i) _ Hz) as Hidx.
    destruct (nth_error ns _) as [nd|] eqn:Hk.
    2:{ apply nth_error_None in Hk. unfold zlen in *. lia. }
    destruct (node_loop (node_fuel nd n) nd r n slots) as [[[nd1 slots1] hit] e1] eqn:El.
    destruct (node_loop_spec ns0 h r n _ Hr _ _ _ _ _ _ _ _ HI Hk HS El) as (A & B & C & D & E).
    destruct e1 as [x|]; [injection Hl as <- <- <- <-; repeat apply conj; auto; discriminate|].
    destruct (Z.eqb_spec (zlen slots1) n) as [En|En].
    + injection Hl as <- <- <- <-. repeat apply conj; auto.
      intros _ Hst. destruct hit; [discriminate|]. destruct (E eq_refl eq_refl) as [->|E1]; [exact (HJ Hst) | contradiction].
    + eapply IH; [exact B | | exact C | auto | exact Hl].
      intros _. unfold zlen. rewrite upd_length. exact Hz.
Qed.

(* find_slots_spec needs nodes_loop_inv: its list may be empty *)
Lemma nodes_loop_spec ns0 h r n start : rr_ok r -> forall cnt i ns slots stop ns' slots' stop' e,
  Inv ns0 ns (h ++ slots) -> ns <> [] -> Forall (ShapeOK ns0 r) slots ->
  (stop = None -> slots = [] \/ zlen slots <> n) ->
  nodes_loop cnt i start ns r n slots stop = (ns', slots', stop', e) ->
  no_hang e /\ Inv ns0 ns' (h ++ slots') /\ Forall (ShapeOK ns0 r) slots' /\
  (e = None -> stop' = None -> slots' = [] \/ zlen slots' <> n) /\
  (0 < r_nc r -> 0 < r_co r -> e = None).
Proof.
  intros Hr cnt i ns slots stop ns' slots' stop' e HI Hne HS HJ Hl.
  assert (Hz : 0 < zlen ns) by (destruct ns; [contradiction | rewrite zlen_cons; pose proof (zlen_nonneg ns); lia]).
  destruct (nodes_loop_inv ns0 h r n start Hr _ _ _ _ _ _ _ _ _ HI (fun _ => Hz) HS HJ Hl) as (A & B & C & D).
  repeat apply conj; try assumption. intros Hnc Hco. destruct A as [A|A]; [exact A|].
  destruct (nodes_loop_never_hangs r n start Hnc Hco (proj1 (proj2 (proj2 Hr))) _ _ _ _ _ _ _ _ _ Hl A).
Qed.

Lemma verify_nodes nl : nl_nodes (verify nl) = nl_nodes nl.
Proof. unfold verify. destruct (nl_nodes nl) eqn:E; [exact E | reflexivity]. Qed.

Theorem find_slots_spec ns0 nl h r n nl' res :
  Inv ns0 (nl_nodes nl) h -> rr_ok r -> find_slots nl r n = (nl', res) -> res <> RErr EHang ->
  match res with
  | RSlots sl => Inv ns0 (nl_nodes nl') (h ++ sl) /\ zlen sl = n /\ Forall (ShapeOK ns0 r) sl
  | _ => nl_nodes nl' = nl_nodes nl
  end.
Proof.
  intros HI Hr Hf Hnh. unfold find_slots in Hf.
  set (nl1 := match nl_ver nl with None => verify nl | Some _ => nl end) in *.
  replace (nl_nodes nl) with (nl_nodes nl1) in * by (unfold nl1; destruct (nl_ver nl); [reflexivity | apply verify_nodes]).
  clearbody nl1.
  destruct (assert_rr nl1 r n) as [x|]; [injection Hf as <- <-; reflexivity|].
  destruct (match nl_failed nl1 with Some (fr, fn) => rr_ge fr r && (fn >=? n) | None => false end);
    [injection Hf as <- <-; reflexivity|].
  destruct (nodes_loop (List.length (nl_nodes nl1)) 0 (nl_index nl1) (nl_nodes nl1) r n [] None)
    as [[[ns slots] stop] e] eqn:El.
  assert (HI0 : Inv ns0 (nl_nodes nl1) (h ++ [])) by (rewrite app_nil_r; exact HI).
  destruct (nodes_loop_inv ns0 h r n _ Hr _ _ _ _ _ _ _ _ _ HI0 (proj1 (Nat2Z.inj_lt 0 _))
              (Forall_nil _) (fun _ => or_introl eq_refl) El) as [A [B [C D]]].
  destruct e as [x|].
  - injection Hf as <- <-. destruct A as [A|A]; [discriminate|]. injection A as ->. contradiction.
  - destruct (negb (zlen slots =? n)) eqn:En.
    + (* the roll-back ends in a list with the invariant for h again, so it IS the list before the call *)
      destruct (dealloc_all_suffix _ _ _ _ B) as [ns' [Hd HI']]. rewrite Hd in Hf. injection Hf as <- <-.
      cbn [nl_nodes]. eapply Inv_functional; [exact HI' | exact HI].
    + apply negb_false_iff, Z.eqb_eq in En. destruct stop as [st|].
      * injection Hf as <- <-. cbn [nl_nodes]. auto.
      * injection Hf as <- <-. cbn [nl_nodes]. destruct (D eq_refl eq_refl) as [D1|D1]; [|contradiction].
        subst slots. rewrite app_nil_r in B. eapply Inv_functional; [exact B | exact HI].
Qed.

Theorem find_slots_no_hang ns0 nl h r n nl' res :
  Inv ns0 (nl_nodes nl) h -> rr_ok r -> 0 < r_co r -> find_slots nl r n = (nl', res) -> res <> RErr EHang.
Proof. intros _ (Hnc & _ & Hng & _). exact (find_slots_never_hangs nl r n nl' res Hnc Hng). Qed.

Theorem release_slots_spec ns0 nl h sl nl' res :
  Inv ns0 (nl_nodes nl) h -> sub_held sl h = true -> release_slots nl sl = (nl', res) ->
  Inv ns0 (nl_nodes nl') (remove_all sl h) /\ (res = ROk \/ (res = RErr EValue /\ sl = [])).
Proof.
  intros HI Hs Hf. unfold release_slots in Hf.
  destruct (dealloc_all_held _ _ _ _ HI Hs) as [ns' [Hd HI']]. rewrite Hd in Hf.
  destruct (nl_failed nl) as [f|].
  - destruct sl as [|s sl]; injection Hf as <- <-; cbn [nl_nodes]; auto.
  - injection Hf as <- <-. cbn [nl_nodes]. auto.
Qed.
