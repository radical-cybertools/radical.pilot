(* AppSlots -- the theorems behind the app-side clauses of C01, C02, C03:
   over ANY sequence of find_slots / release_slots / verify / Node.find_slot /
   Node.allocate_slot(checked, application-made slot) calls of an application that gives back only what it holds, the oracle
   clauses (Oracle.judge) hold after every call. *)
From Coq Require Import ZArith List Bool String Lia.
From RP Require Import Common.ListFacts AppSlots.Model AppSlots.Oracle AppSlots.Lists AppSlots.NodeProofs
                       AppSlots.InvProofs AppSlots.AllocProofs AppSlots.AllocInv.
Import ListNotations.
Open Scope Z_scope.

Lemma acct_list_of f : forall l0 l j,
  (forall p, nth_error l p = match nth_error l0 p with
                             | Some (Some o) => Some (Some (o + f (j + Z.of_nat p)))
                             | x => x end) ->
  acct_list f j l0 l = true.
Proof.
  induction l0 as [|c l0 IH]; intros l j H.
  - pose proof (H O) as H0. cbn in H0. destruct l; [reflexivity | discriminate].
  - pose proof (H O) as H0. cbn in H0. destruct l as [|d l]; [destruct c; discriminate|]. cbn in H0.
    assert (Ht : acct_list f (j + 1) l0 l = true).
    { apply IH. intro p. pose proof (H (S p)) as Hp. cbn [nth_error] in Hp. rewrite Hp.
      replace (j + Z.of_nat (S p)) with (j + 1 + Z.of_nat p) by lia. reflexivity. }
    destruct c as [o|]; injection H0 as ->; cbn [acct_list].
    + rewrite Z.add_0_r, Z.eqb_refl. exact Ht.
    + exact Ht.
Qed.

Lemma fits_list_of f : forall l0 j,
  (forall p, nth_error l0 p = Some None -> f (j + Z.of_nat p) = 0) ->
  (forall p a, nth_error l0 p = Some (Some a) -> 0 <= f (j + Z.of_nat p) /\ a + f (j + Z.of_nat p) <= BUSY) ->
  fits_list f j l0 = true.
Proof.
  induction l0 as [|c l0 IH]; intros j H1 H2; [reflexivity|].
  assert (Ht : fits_list f (j + 1) l0 = true).
  { apply IH.
    - intros p Hp. replace (j + 1 + Z.of_nat p) with (j + Z.of_nat (S p)) by lia. apply H1. exact Hp.
    - intros p a Hp. replace (j + 1 + Z.of_nat p) with (j + Z.of_nat (S p)) by lia. apply H2. exact Hp. }
  cbn [fits_list]. destruct c as [a|].
  - destruct (H2 O a eq_refl) as [A B]. rewrite Z.add_0_r in A, B.
    rewrite Ht, andb_true_r. apply andb_true_iff. split; [apply Z.leb_le; exact A | apply Z.leb_le; exact B].
  - pose proof (H1 O eq_refl) as A. rewrite Z.add_0_r in A. rewrite A, Ht. reflexivity.
Qed.

Lemma within_list_of l : bounded l -> within_list l = true.
Proof.
  intro Hb. unfold within_list. apply forallb_forall. intros c Hc. destruct c as [o|]; [|reflexivity].
  destruct (In_nth_error _ _ Hc) as [p Hp]. destruct (Hb _ _ Hp) as [A B].
  apply andb_true_iff. split; apply Z.leb_le; assumption.
Qed.

Lemma amount_bools held a0 a : amount_rel held a0 a -> 0 <= held ->
  acct_amount held a0 a = true /\ within_amount a0 a = true /\ fits_amount held a0 = true.
Proof.
  unfold amount_rel, acct_amount, within_amount, fits_amount. destruct a0 as [x|].
  - intros [-> Hge] Hh. rewrite Z.eqb_refl. split; [reflexivity|].
    split; apply andb_true_iff; split; apply Z.leb_le; lia.
  - intros -> _. auto.
Qed.

Lemma ListRel_bools f l0 l : ListRel f l0 l ->
  acct_list f 0 l0 l = true /\ within_list l = true /\ fits_list f 0 l0 = true.
Proof.
  intros [Hs Hb Hb0 Hn Hd]. split; [|split].
  - apply acct_list_of. exact Hs.
  - exact (within_list_of _ Hb).
  - apply fits_list_of; [exact Hd|]. intros p a Hp. cbn [Z.add]. split; [apply Hn|].
    pose proof (Hb _ _ (shifted_some_l _ _ _ _ _ Hs Hp)). lia.
Qed.

Lemma NodeInv_bools h n0 n : NodeInv h n0 n ->
  acct_node h n0 n = true /\ within_node n0 n = true /\ fits_node h n0 = true.
Proof.
  intro HN. apply NodeRel_elim in HN as (Hidx & Hname & Lc & Lg & Hl & Hm & Hfl & Hfm).
  destruct (ListRel_bools _ _ _ Lc) as (C1 & C2 & C3), (ListRel_bools _ _ _ Lg) as (G1 & G2 & G3).
  destruct (amount_bools _ _ _ Hl Hfl) as (L1 & L2 & L3), (amount_bools _ _ _ Hm Hfm) as (M1 & M2 & M3).
  unfold acct_node, within_node, fits_node.
  rewrite Hidx, Z.eqb_refl, Hname, String.eqb_refl, C1, C2, C3, G1, G2, G3, L1, L2, L3, M1, M2, M3. auto.
Qed.

Lemma Inv_account ns0 ns h : Inv ns0 ns h -> ok_account ns0 ns h = true.
Proof.
  intros [_ HF _]. unfold ok_account. eapply forallb2_of_Forall2; [|exact HF].
  intros a b H. exact (proj1 (NodeInv_bools _ _ _ H)).
Qed.

Lemma Inv_nover ns0 ns h : Inv ns0 ns h -> ok_nover ns0 ns h = true.
Proof.
  intros [_ HF _]. unfold ok_nover. apply andb_true_iff. split.
  - eapply forallb2_of_Forall2; [|exact HF]. intros a b H. exact (proj1 (proj2 (NodeInv_bools _ _ _ H))).
  - eapply forallb_of_Forall2_l; [|exact HF]. intros a b H. exact (proj2 (proj2 (NodeInv_bools _ _ _ H))).
Qed.

Lemma shape_bool ns0 r n sl : zlen sl = n -> Forall (ShapeOK ns0 r) sl -> ok_shape ns0 r n sl = true.
Proof.
  intros Hn HF. unfold ok_shape. apply andb_true_iff. split; [apply Z.eqb_eq; exact Hn|].
  apply forallb_forall. intros s Hs. rewrite Forall_forall in HF. destruct (HF _ Hs) as [n0 [Hin Hsh]].
  apply existsb_exists. exists n0. split; assumption.
Qed.

Lemma oz_eqb_refl a : oz_eqb a a = true.
Proof. destruct a; cbn; [apply Z.eqb_refl | reflexivity]. Qed.

Lemma ozl_eqb_refl l : ozl_eqb l l = true.
Proof. induction l as [|a l IH]; cbn; [reflexivity | rewrite oz_eqb_refl, IH; reflexivity]. Qed.

Lemma nodes_eqb_refl ns : nodes_eqb ns ns = true.
Proof.
  unfold nodes_eqb. induction ns as [|a ns IH]; cbn; [reflexivity|]. rewrite IH, andb_true_r.
  unfold node_eqb. rewrite Z.eqb_refl, String.eqb_refl, !ozl_eqb_refl, !oz_eqb_refl. reflexivity.
Qed.

(* calls the theorems speak about: find_slots, release_slots, verify, Node.find_slot with
   non-negative requests (NodeList._assert_rr refuses negative sizes itself), Node.allocate_slot(slot, _check=True).
   Not a direct Node.deallocate_slot: Oracle.op_disciplined asks that the slot is held, not that nodes[k] is the
   node it is held on, and given back to another node it breaks the accounting. *)
Definition op_ok (o : op) : Prop :=
  match o with
  | OFind r _ => rr_ok r /\ 0 < r_co r
  | ONFind _ r => rr_ok r
  | ORelease _ | OVerify => True
  | ONAlloc _ s => slot_wf s         (* an application-made slot: non-negative indices, occupations, lfs, mem *)
  | ONDealloc _ _ => False
  end.

Definition all_true : verdict := mkV true true true true.

(* in a state with the invariant two clauses hold whatever the call was; the others depend on the call
   (Inv comes back as first conjunct so that this applies to step_spec's goal) *)
Lemma judge_of_Inv ns0 ns h b2 b3 b4 :
  Inv ns0 ns h -> b2 = true -> b3 = true -> b4 = true ->
  Inv ns0 ns h /\ mkV (ok_nover ns0 ns h) b2 (ok_account ns0 ns h && b3) b4 = all_true.
Proof. intros H -> -> ->. rewrite (Inv_nover _ _ _ H), (Inv_account _ _ _ H). auto. Qed.

Theorem step_spec ns0 nl h o nl' res :
  Inv ns0 (nl_nodes nl) h -> op_ok o -> op_disciplined h o = true -> step nl o = (nl', res) ->
  Inv ns0 (nl_nodes nl') (held_after h o res) /\
  judge_step ns0 (nl_nodes nl) h o (res, nl') = all_true.
Proof.
  intros HI Hok Hd Hs. unfold judge_step.
  destruct o as [r n|sl| |k r|k s|k s]; cbn [op_ok] in Hok; try contradiction;
    cbn [step] in Hs; cbn [op_disciplined] in Hd.
  - destruct Hok as [Hr Hco].
    pose proof (find_slots_spec _ _ _ _ _ _ _ HI Hr Hs (find_slots_no_hang _ _ _ _ _ _ _ HI Hr Hco Hs)) as Hsp.
    destruct res as [sl| | |e]; cbn [held_after]; [destruct Hsp as (HI' & Hn & HS) | rewrite Hsp ..];
      apply judge_of_Inv; auto using nodes_eqb_refl, shape_bool.
  - destruct (release_slots_spec _ _ _ _ _ _ HI Hd Hs) as [HI' [->|[-> ->]]]; cbn [held_after];
      apply judge_of_Inv; auto. destruct sl; reflexivity.
  - injection Hs as <- <-. cbn [held_after]. rewrite !verify_nodes. apply judge_of_Inv; auto.
  - destruct (nth_error (nl_nodes nl) k) as [nd|] eqn:Hk.
    2:{ injection Hs as <- <-. apply judge_of_Inv; auto using nodes_eqb_refl. }
    destruct (find_slot nd r) as [nd' fr] eqn:Ef.
    pose proof (inv_find _ _ _ _ _ _ _ _ HI Hk Hok Ef) as Hsp.
    destruct fr as [s| |x]; [| |contradiction]; injection Hs as <- <-; cbn [held_after nl_nodes with_nodes].
    + destruct Hsp as [HI' Hsh]. apply judge_of_Inv; auto.
      exact (shape_bool _ _ _ _ eq_refl (Forall_cons _ Hsh (Forall_nil _))).
    + rewrite Hsp. apply judge_of_Inv; auto using nodes_eqb_refl.
  - destruct (nth_error (nl_nodes nl) k) as [nd|] eqn:Hk.
    2:{ injection Hs as <- <-. apply judge_of_Inv; auto. }
    destruct (allocate_slot nd s) as [nd' [e|]] eqn:Ea; injection Hs as <- <-; cbn [held_after nl_nodes with_nodes].
    + rewrite (inv_alloc_refused _ _ _ _ _ _ _ _ HI Hk Hok Ea). apply judge_of_Inv; auto.
    + apply judge_of_Inv; auto. exact (inv_alloc _ _ _ _ _ _ _ HI Hk Hok Ea).
Qed.

Lemma vand_all_true v : vand all_true v = v.
Proof. destruct v. reflexivity. Qed.

Lemma last_cons_default {A} (l : list A) a d d' : last (a :: l) d = last (a :: l) d'.
Proof. rewrite !last_cons. reflexivity. Qed.

Theorem run_spec ns0 : forall ops nl h,
  Inv ns0 (nl_nodes nl) h -> Forall op_ok ops -> all_disciplined h ops (run nl ops) = true ->
  judge ns0 (nl_nodes nl) h ops (run nl ops) = all_true /\
  Inv ns0 (nl_nodes (last_nl nl (run nl ops))) (held_end h ops (run nl ops)).
Proof.
  induction ops as [|o ops IH]; intros nl h HI Hok Hd.
  - cbn. split; [reflexivity | exact HI].
  - cbn [run] in *. destruct (step nl o) as [nl' res] eqn:Es.
    cbn [all_disciplined judge held_end fst snd] in *. apply andb_true_iff in Hd as [Hd1 Hd2].
    destruct (step_spec _ _ _ _ _ _ HI (Forall_inv Hok) Hd1 Es) as [HI' Hj].
    destruct (IH _ _ HI' (Forall_inv_tail Hok) Hd2) as [Hj' HI''].
    rewrite Hj, Hj', vand_all_true. split; [reflexivity|].
    unfold last_nl in *. cbn [map snd]. rewrite last_cons. exact HI''.
Qed.

(* node lists: node ids pairwise distinct (they need not be the list positions: the agent keeps the
   ids when it drops inaccessible nodes), lfs / mem a number >= 0 or not reported (None), occupations
   FREE .. BUSY or DOWN; node names are arbitrary (they may all be equal).
   amount_ok is AllocProofs.amount_bounded, wf_node is AllocProofs.node_bounded as a record. *)
Definition amount_ok (a : option Z) : Prop := match a with Some x => 0 <= x | None => True end.

Record wf_node (n0 : node) : Prop := mkWF {
  wf_c : bounded (nd_cores n0);
  wf_g : bounded (nd_gpus n0);
  wf_l : amount_ok (nd_lfs n0);
  wf_m : amount_ok (nd_mem n0) }.

Definition wf_nodes (ns0 : list node) : Prop := distinct_ids ns0 /\ Forall wf_node ns0.

Lemma amount_rel_init a : amount_ok a -> amount_rel 0 a a.
Proof. unfold amount_ok, amount_rel. destruct a; [intro H; rewrite Z.sub_0_r; auto | auto]. Qed.

Lemma Inv_init ns0 : wf_nodes ns0 -> Inv ns0 ns0 [].
Proof.
  intros [Hp Hw]. constructor; [exact Hp | | constructor].
  clear Hp. induction Hw as [|n0 ns0 [Bc Bg El Em] Hw IH]; constructor; [|exact IH].
  apply NodeRel_intro; cbn [Hc Hg Hl Hm]; try reflexivity.
  - exact (ListRel_init _ Bc).
  - exact (ListRel_init _ Bg).
  - exact (amount_rel_init _ El).
  - exact (amount_rel_init _ Em).
Qed.

Lemma start_nodes ns0 b : nl_nodes (start_nl ns0 b) = ns0.
Proof. unfold start_nl. destruct b; [apply verify_nodes | reflexivity]. Qed.

(* C01 / C02 / C03, application side: all clauses after every call *)
Theorem app_clauses_hold ns0 verified ops :
  wf_nodes ns0 -> Forall op_ok ops ->
  let tr := run (start_nl ns0 verified) ops in
  all_disciplined [] ops tr = true -> judge ns0 ns0 [] ops tr = all_true.
Proof.
  intros Hw Hok tr Hd. subst tr.
  pose proof (Inv_init _ Hw) as HI. rewrite <- (start_nodes ns0 verified) in HI at 2.
  pose proof (proj1 (run_spec ns0 ops _ _ HI Hok Hd)) as H. rewrite start_nodes in H. exact H.
Qed.

(* C03: when everything has been given back the node list is the initial one *)
Theorem app_all_released_is_initial ns0 verified ops :
  wf_nodes ns0 -> Forall op_ok ops ->
  let tr := run (start_nl ns0 verified) ops in
  all_disciplined [] ops tr = true -> held_end [] ops tr = [] ->
  nl_nodes (last_nl (start_nl ns0 verified) tr) = ns0.
Proof.
  intros Hw Hok tr Hd He. subst tr.
  pose proof (Inv_init _ Hw) as HI0. pose proof HI0 as HI. rewrite <- (start_nodes ns0 verified) in HI at 2.
  pose proof (proj2 (run_spec ns0 ops _ _ HI Hok Hd)) as H. rewrite He in H.
  eapply Inv_functional; [exact H | exact HI0].
Qed.

Section Clauses.
Variables (ns0 : list node) (verified : bool) (ops : list op).
Hypothesis Hw : wf_nodes ns0.
Hypothesis Hok : Forall op_ok ops.
Let tr := run (start_nl ns0 verified) ops.
Hypothesis Hd : all_disciplined [] ops tr = true.

Lemma app_no_oversubscription : v_nover (judge ns0 ns0 [] ops tr) = true.
Proof. unfold tr in *. rewrite (app_clauses_hold ns0 verified ops Hw Hok Hd). reflexivity. Qed.

Lemma app_shape : v_shape (judge ns0 ns0 [] ops tr) = true.
Proof. unfold tr in *. rewrite (app_clauses_hold ns0 verified ops Hw Hok Hd). reflexivity. Qed.

Lemma app_release_restores : v_restores (judge ns0 ns0 [] ops tr) = true.
Proof. unfold tr in *. rewrite (app_clauses_hold ns0 verified ops Hw Hok Hd). reflexivity. Qed.

Lemma app_failed_find_leaves_unchanged : v_failed (judge ns0 ns0 [] ops tr) = true.
Proof. unfold tr in *. rewrite (app_clauses_hold ns0 verified ops Hw Hok Hd). reflexivity. Qed.
End Clauses.

(* the invariant, on a NodeList: it holds of every state reached from ns0 with the slots h handed out and not given
   back, which is all the clauses need; what follows is step_spec and its consequences state by state *)
Definition Reached (ns0 : list node) (nl : nlist) (h : list slot) : Prop := Inv ns0 (nl_nodes nl) h.

Lemma reached_start ns0 verified : wf_nodes ns0 -> Reached ns0 (start_nl ns0 verified) [].
Proof. intro Hw. unfold Reached. rewrite start_nodes. apply Inv_init. exact Hw. Qed.

Lemma reached_step ns0 nl h o nl' res :
  Reached ns0 nl h -> op_ok o -> op_disciplined h o = true -> step nl o = (nl', res) ->
  Reached ns0 nl' (held_after h o res).
Proof. intros HI Hok Hd Hs. exact (proj1 (step_spec _ _ _ _ _ _ HI Hok Hd Hs)). Qed.

Lemma reached_no_oversubscription ns0 nl h : Reached ns0 nl h -> ok_nover ns0 (nl_nodes nl) h = true.
Proof. apply Inv_nover. Qed.

Lemma reached_account ns0 nl h : Reached ns0 nl h -> ok_account ns0 (nl_nodes nl) h = true.
Proof. apply Inv_account. Qed.

Lemma found_slots_shape ns0 nl h r n nl' sl :
  Reached ns0 nl h -> rr_ok r -> 0 < r_co r -> find_slots nl r n = (nl', RSlots sl) ->
  ok_shape ns0 r n sl = true.
Proof.
  intros HI Hr Hco Hf.
  pose proof (find_slots_spec _ _ _ _ _ _ _ HI Hr Hf ltac:(discriminate)) as [_ [Hn HS]].
  apply shape_bool; assumption.
Qed.

Lemma failed_find_unchanged ns0 nl h r n nl' res :
  Reached ns0 nl h -> rr_ok r -> 0 < r_co r -> find_slots nl r n = (nl', res) ->
  (forall sl, res <> RSlots sl) -> nl_nodes nl' = nl_nodes nl.
Proof.
  intros HI Hr Hco Hf Hne.
  pose proof (find_slots_spec _ _ _ _ _ _ _ HI Hr Hf (find_slots_no_hang _ _ _ _ _ _ _ HI Hr Hco Hf)) as H.
  destruct res; auto. exfalso. eapply Hne. reflexivity.
Qed.

Lemma released_all_is_initial ns0 nl : Reached ns0 nl [] -> wf_nodes ns0 -> nl_nodes nl = ns0.
Proof. intros HI Hw. eapply Inv_functional; [exact HI | apply Inv_init; exact Hw]. Qed.

Definition rr1 (nc : Z) : rreq := mkRR nc 64 0 64 0 0 false.

(* node ids 0 and 2 (node 1 was dropped), then ids 1 and 0; nodes that report neither lfs nor mem *)
Example gapped_and_permuted_ids_and_no_lfs :
  let nd i := mkNode i "n" [Some 0; Some 0] [] None None in
  let s i := mkSlot [(0, 64); (1, 64)] [] 0 0 i "n" in
  (let ns0 := [nd 0; nd 2] in
   let tr := run (start_nl ns0 true) [OFind (rr1 2) 2; ORelease [s 0; s 2]] in
   map fst tr = [RSlots [s 0; s 2]; ROk] /\ nl_nodes (last_nl (start_nl ns0 true) tr) = ns0) /\
  (let ns0 := [nd 1; nd 0] in
   let tr := run (start_nl ns0 true) [OFind (rr1 2) 1; OFind (rr1 2) 2; ORelease [s 1]] in
   map fst tr = [RSlots [s 1]; RNone; ROk] /\ nl_nodes (last_nl (start_nl ns0 true) tr) = ns0).
Proof. vm_compute. auto. Qed.
