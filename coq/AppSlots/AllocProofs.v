(* AppSlots -- Node.allocate_slot(slot, _check=True) with a slot made by the application (not by find_slot):
   what the consistency check of the code guarantees.  For ANY slot with non-negative indices and occupations
   -- also one naming a core or GPU more than once -- the call either raises and leaves the node as it was, or
   adds exactly the slot to the node and every core / GPU occupation stays within FREE .. BUSY, lfs / mem
   stay >= 0.  The check counts, per core / GPU, what the slot itself has already asked of it (`seen` in
   Model.check_list_from): judged entry by entry, a slot naming core 0 twice with 40/64 each would pass and leave
   the core at 80/64.  allocate_checked_duplicate_refused is that input (replays/fixed/C01-app-alloc-check-duplicate-index.json,
   corpus/AppSlots/alloc-check-duplicate-index.json). *)
From Coq Require Import ZArith List Bool String Lia.
From RP Require Import AppSlots.Model AppSlots.Oracle AppSlots.Lists AppSlots.NodeProofs.
Import ListNotations.
Open Scope Z_scope.

Definition ro_wf (l : list (Z * Z)) : Prop := Forall (fun p => 0 <= fst p /\ 0 <= snd p) l.

(* Model.seen_at and Oracle.sum_at are one function under two names (convertible) *)
Lemma check_from_spec cs : forall l seen,
  (forall p o, nth_error cs p = Some (Some o) -> o + seen_at (Z.of_nat p) seen <= BUSY) ->
  ro_wf l -> check_list_from seen cs l = None ->
  ro_fit cs l /\
  (forall p o, nth_error cs p = Some (Some o) -> o + seen_at (Z.of_nat p) seen + sum_at (Z.of_nat p) l <= BUSY).
Proof.
  induction l as [|[i d] l IH]; intros seen Hs Hw H.
  - split; [constructor|]. intros p o Hp. cbn [sum_at]. specialize (Hs p o Hp). lia.
  - inversion Hw as [|x l' [Hi Hd] Hw']; subst. cbn [fst snd] in *. cbn [check_list_from] in H.
    destruct (negb (i <? zlen cs)) eqn:E1; [discriminate|].
    apply negb_false_iff, Z.ltb_lt in E1.
    destruct (nth_error cs (Z.to_nat i)) as [c|] eqn:En; [|apply nth_error_None in En; unfold zlen in E1; lia].
    rewrite (proj2 (get_pos_in cs i _ Hi En)), En in H. destruct c as [o|]; [|discriminate].
    destruct (BUSY - o - seen_at i seen >=? d) eqn:E2; [|discriminate]. apply Z.geb_le in E2.
    assert (Hs' : forall p o', nth_error cs p = Some (Some o') -> o' + seen_at (Z.of_nat p) ((i, d) :: seen) <= BUSY).
    { intros p o' Hp'. cbn [seen_at]. destruct (i =? Z.of_nat p) eqn:E.
      - apply Z.eqb_eq in E. subst i. rewrite Nat2Z.id in En. rewrite En in Hp'. injection Hp' as <-. lia.
      - specialize (Hs p o' Hp'). lia. }
    destruct (IH _ Hs' Hw' H) as [A B]. split.
    + constructor; [cbn [fst]; split; [lia|exists o; exact En]|exact A].
    + intros p o' Hp'. specialize (B p o' Hp'). cbn [seen_at sum_at] in *. destruct (i =? Z.of_nat p); lia.
Qed.

Lemma ro_wf_nonneg l : ro_wf l -> Forall (fun p => 0 <= snd p) l.
Proof. apply Forall_impl. intros p [_ H]. exact H. Qed.

Lemma checked_list_fits cs l :
  bounded cs -> ro_wf l -> check_list cs l = None ->
  ro_fit cs l /\ forall cs', shifted (fun j => sum_at j l) cs cs' -> bounded cs'.
Proof.
  intros Hb Hw Hc.
  assert (Hs0 : forall p o, nth_error cs p = Some (Some o) -> o + seen_at (Z.of_nat p) [] <= BUSY).
  { intros p o Hp. cbn [seen_at]. specialize (Hb p o Hp). lia. }
  destruct (check_from_spec cs l [] Hs0 Hw Hc) as [Hfit Hroom].
  split; [exact Hfit|]. intros cs' Hs p o' Hp.
  destruct (shifted_some _ _ _ _ _ Hs Hp) as [o [Ho ->]].
  pose proof (Hb p o Ho). pose proof (Hroom p o Ho) as Hr. cbn [seen_at] in Hr.
  pose proof (sum_at_nonneg l (Z.of_nat p) (ro_wf_nonneg l Hw)). lia.
Qed.

Lemma checked_alloc_list cs l :
  bounded cs -> ro_wf l -> check_list cs l = None ->
  exists cs', alloc_list cs l = (cs', None) /\ shifted (fun j => sum_at j l) cs cs' /\ bounded cs'.
Proof.
  intros Hb Hw Hc. destruct (checked_list_fits cs l Hb Hw Hc) as [Hfit Hbd].
  destruct (alloc_list_ok l cs Hfit) as [cs' [Ha Hs]]. exists cs'. exact (conj Ha (conj Hs (Hbd cs' Hs))).
Qed.

Definition amount_bounded (a : option Z) : Prop := match a with Some x => 0 <= x | None => True end.

Definition node_bounded (nd : node) : Prop :=
  bounded (nd_cores nd) /\ bounded (nd_gpus nd) /\ amount_bounded (nd_lfs nd) /\ amount_bounded (nd_mem nd).

Definition slot_wf (s : slot) : Prop :=
  ro_wf (s_cores s) /\ ro_wf (s_gpus s) /\ 0 <= s_lfs s /\ 0 <= s_mem s.

Lemma check_amount_spec have want :
  0 <= want -> check_amount have want = None ->
  amount_bounded (match have with Some l => Some (l - want) | None => None end) \/ want = 0.
Proof.
  unfold check_amount. intros _ H. destruct (Z.eqb_spec want 0) as [E|_]; [right; exact E | left].
  destruct have as [h|]; [|discriminate]. destruct (h >=? want) eqn:E2; [|discriminate]. apply Z.geb_le in E2. cbn. lia.
Qed.

Lemma checked_amount have want :
  amount_bounded have -> 0 <= want -> check_amount have want = None ->
  amount_bounded (match have with Some l => Some (l - want) | None => None end).
Proof.
  intros Hb Hw H. destruct (check_amount_spec have want Hw H) as [A| ->]; [exact A|].
  destruct have as [h|]; [|exact I]. cbn in *. lia.
Qed.

Lemma allocate_cases nd s nd' e : allocate_slot nd s = (nd', e) ->
  (nd' = nd /\ e <> None) \/
  (nd_index nd = s_nidx s /\
   check_list (nd_cores nd) (s_cores s) = None /\ check_list (nd_gpus nd) (s_gpus s) = None /\
   check_amount (nd_lfs nd) (s_lfs s) = None /\ check_amount (nd_mem nd) (s_mem s) = None /\
   alloc_apply nd s = (nd', e)).
Proof.
  assert (R : forall x, (nd, Some x) = (nd', e) -> nd' = nd /\ e <> None)
    by (intros x Hx; injection Hx as <- <-; split; [reflexivity | discriminate]).
  unfold allocate_slot. intro H.
  destruct (Z.eqb_spec (nd_index nd) (s_nidx s)) as [Ei|_]; [|left; exact (R _ H)]. cbn [negb] in H.
  destruct (negb (String.eqb (nd_name nd) (s_name s))); [left; exact (R _ H)|].
  destruct (check_list (nd_cores nd) (s_cores s)); [left; exact (R _ H)|].
  destruct (check_list (nd_gpus nd) (s_gpus s)); [left; exact (R _ H)|].
  destruct (check_amount (nd_lfs nd) (s_lfs s)); [left; exact (R _ H)|].
  destruct (check_amount (nd_mem nd) (s_mem s)); [left; exact (R _ H)|].
  right. auto 10.
Qed.

(* what the call does to a node within bounds, for a slot as an application may make it: it raises and
   nothing has changed, or every check is passed and nothing after the checks can fail; the theorems that
   follow are read off it *)
Lemma allocate_checked nd s nd' e :
  node_bounded nd -> slot_wf s -> allocate_slot nd s = (nd', e) ->
  (nd' = nd /\ e <> None) \/
  (e = None /\ nd_index nd = s_nidx s /\ ro_fit (nd_cores nd) (s_cores s) /\ ro_fit (nd_gpus nd) (s_gpus s) /\
   node_bounded nd' /\ gains nd s nd').
Proof.
  intros (Hbc & Hbg & Hbl & Hbm) (Hwc & Hwg & Hl & Hm) H.
  destruct (allocate_cases _ _ _ _ H) as [R|(Hid & Ec & Eg & El & Em & Ha)]; [left; exact R | right].
  destruct (checked_list_fits _ _ Hbc Hwc Ec) as [Hfc Hbc'], (checked_list_fits _ _ Hbg Hwg Eg) as [Hfg Hbg'].
  destruct (alloc_apply_ok _ _ _ _ Hfc Hfg Ha) as (-> & G & _). pose proof G as (_ & _ & Gc & Gg & Gl & Gm).
  repeat apply conj; auto; try apply G.
  - rewrite Gl. exact (checked_amount _ _ Hbl Hl El).
  - rewrite Gm. exact (checked_amount _ _ Hbm Hm Em).
Qed.

Theorem allocate_checked_sound nd s nd' :
  node_bounded nd -> slot_wf s -> allocate_slot nd s = (nd', None) ->
  node_bounded nd' /\
  nd_index nd' = nd_index nd /\ nd_name nd' = nd_name nd /\
  shifted (fun j => sum_at j (s_cores s)) (nd_cores nd) (nd_cores nd') /\
  shifted (fun j => sum_at j (s_gpus s)) (nd_gpus nd) (nd_gpus nd') /\
  nd_lfs nd' = match nd_lfs nd with Some l => Some (l - s_lfs s) | None => None end /\
  nd_mem nd' = match nd_mem nd with Some m => Some (m - s_mem s) | None => None end.
Proof.
  intros Hb Hw H.
  destruct (allocate_checked _ _ _ _ Hb Hw H) as [[_ []]|(_ & _ & _ & _ & R)]; [reflexivity | exact R].
Qed.

Theorem allocate_checked_refusal_unchanged nd s nd' e :
  node_bounded nd -> slot_wf s -> allocate_slot nd s = (nd', Some e) -> nd' = nd.
Proof.
  intros Hb Hw H. destruct (allocate_checked _ _ _ _ Hb Hw H) as [[E _]|([=] & _)]. exact E.
Qed.

(* core 0 named twice with 40/64 each -- either entry alone fits, both do not: refused, node unchanged *)
Definition dup_node : node := mkNode 0 "node0" [Some 0; Some 0] [Some 0] (Some 0) (Some 0).
Definition dup_slot : slot := mkSlot [(0, 40); (0, 40)] [] 0 0 0 "node0".
Theorem allocate_checked_duplicate_refused :
  node_bounded dup_node /\ slot_wf dup_slot /\ allocate_slot dup_node dup_slot = (dup_node, Some EAssert).
Proof.
  split; [|split].
  - assert (Hb : forall l : list (option Z), (forall x, In x l -> x = Some 0) -> bounded l).
    { intros l Hl q oo Hq. apply nth_error_In in Hq. apply Hl in Hq. injection Hq as Hq. unfold BUSY. lia. }
    unfold node_bounded, dup_node; cbn [nd_cores nd_gpus nd_lfs nd_mem].
    split; [apply Hb; cbn; intuition congruence|].
    split; [apply Hb; cbn; intuition congruence|].
    cbn. lia.
  - unfold slot_wf, ro_wf, dup_slot; cbn. repeat constructor; cbn; lia.
  - vm_compute. reflexivity.
Qed.

(* a slot naming a core twice within what is free is accepted and counted twice *)
Example allocate_checked_duplicate_within :
  allocate_slot dup_node (mkSlot [(0, 24); (0, 40)] [] 0 0 0 "node0")
  = (mkNode 0 "node0" [Some 64; Some 0] [Some 0] (Some 0) (Some 0), None).
Proof. vm_compute. reflexivity. Qed.

(* non-vacuity of the sound case: two cores at 32/64 and 64/64 on a node holding 16/64 on core 0 *)
Example allocate_checked_nonvacuous :
  let nd := mkNode 3 "n" [Some 16; Some 0; None] [Some 0] (Some 20) None in
  let s := mkSlot [(0, 32); (1, 64)] [(0, 64)] 10 0 3 "n" in
  allocate_slot nd s = (mkNode 3 "n" [Some 48; Some 64; None] [Some 64] (Some 10) None, None).
Proof. vm_compute. reflexivity. Qed.

Lemma allocate_ok_facts nd s nd' :
  node_bounded nd -> slot_wf s -> allocate_slot nd s = (nd', None) ->
  nd_index nd = s_nidx s /\ ro_fit (nd_cores nd) (s_cores s) /\ ro_fit (nd_gpus nd) (s_gpus s).
Proof.
  intros Hb Hw H. destruct (allocate_checked _ _ _ _ Hb Hw H) as [[_ []]|(_ & Hid & Hfc & Hfg & _)]; [reflexivity|].
  exact (conj Hid (conj Hfc Hfg)).
Qed.

Lemma ro_fit_back f a b l : shifted f a b -> ro_fit b l -> ro_fit a l.
Proof. intro Hs. exact (proj2 (ro_fit_shifted f a b l Hs)). Qed.

Lemma amount_rel_bounded held a0 a : amount_rel held a0 a -> amount_bounded a.
Proof. unfold amount_rel. destruct a0; [intros [-> H]; exact H | intros ->; exact I]. Qed.

Lemma amount_rel_sub held want a0 a :
  amount_rel held a0 a -> amount_bounded (match a with Some l => Some (l - want) | None => None end) ->
  amount_rel (held + want) a0 (match a with Some l => Some (l - want) | None => None end).
Proof.
  unfold amount_rel. destruct a0 as [x|]; [intros [-> _] Hb | intros -> _; reflexivity].
  cbn in Hb. split; [f_equal; lia | lia].
Qed.

Lemma NodeRel_bounded fc fg fl fm n0 n : NodeRel fc fg fl fm n0 n -> node_bounded n.
Proof.
  intro HR. apply NodeRel_elim in HR as (_ & _ & Lc & Lg & Hl & Hm & _ & _).
  exact (conj (lr_b _ _ _ Lc) (conj (lr_b _ _ _ Lg) (conj (amount_rel_bounded _ _ _ Hl) (amount_rel_bounded _ _ _ Hm)))).
Qed.

Theorem allocate_spec fc fg fl fm n0 n s n' :
  NodeRel fc fg fl fm n0 n -> slot_wf s -> allocate_slot n s = (n', None) ->
  NodeRel (fun j => fc j + sum_at j (s_cores s)) (fun j => fg j + sum_at j (s_gpus s))
          (fl + s_lfs s) (fm + s_mem s) n0 n' /\
  s_nidx s = nd_index n0 /\ ro_fit (nd_cores n0) (s_cores s) /\ ro_fit (nd_gpus n0) (s_gpus s).
Proof.
  intros HR Hw Ha.
  destruct (allocate_checked _ _ _ _ (NodeRel_bounded _ _ _ _ _ _ HR) Hw Ha)
    as [[_ []]|(_ & Hid & Hfc & Hfg & (Hbc' & Hbg' & Hbl' & Hbm') & Hi & Hn & Hsc & Hsg & Hl & Hm)]; [reflexivity|].
  destruct Hw as (Hwc & Hwg & Hl0 & Hm0).
  apply NodeRel_elim in HR as (Hidx & Hname & Lc & Lg & Hlv & Hmv & Hfl & Hfm).
  rewrite Hl in Hbl'. rewrite Hm in Hbm'.
  split; [apply NodeRel_intro; try congruence; try lia | split; [congruence|]].
  - exact (ListRel_add _ _ _ _ _ Lc Hsc Hbc' Hfc (ro_wf_nonneg _ Hwc)).
  - exact (ListRel_add _ _ _ _ _ Lg Hsg Hbg' Hfg (ro_wf_nonneg _ Hwg)).
  - rewrite Hl. exact (amount_rel_sub _ _ _ _ Hlv Hbl').
  - rewrite Hm. exact (amount_rel_sub _ _ _ _ Hmv Hbm').
  - exact (conj (ro_fit_back _ _ _ _ (lr_sh _ _ _ Lc) Hfc) (ro_fit_back _ _ _ _ (lr_sh _ _ _ Lg) Hfg)).
Qed.
