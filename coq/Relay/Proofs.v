(* Raptor relay: the operations in closed form, conservation (every raptor
   task is in exactly one place at every moment), invariants of reachable
   states, and what each control operation does. *)
From Coq Require Import ZArith List Bool Lia.
From RP Require Import Relay.Model Relay.Oracle Relay.Lemmas.
Import ListNotations.
Open Scope Z_scope.

(* the pieces of the effects in the closed forms below *)
Definition puts (q k : Z) (bl : list (Z * list Z)) : list out :=
  match alook k bl with Some l => [OPut q l] | None => [] end.
Definition warns (n : Z) (qs : list (Z * Z)) : list out :=
  match alook n qs with None => [OWarn n] | Some _ => [] end.
Definition taken (us : list Z) (bl : list (Z * list Z)) : list Z :=
  concat (map (fun p => matches us (snd p)) bl).
Definition sched_tail (ts : list task) : list out :=
  if is_nil (normal ts) then [] else [OSched (normal ts)].

Lemma cancel_walk_spec : forall us bl, cancel_walk us bl = (unnamed us bl, concat (map (fun p => matches us (snd p)) bl)).
Proof.
  intros us bl; induction bl as [|[n l] bl IH]; simpl; [reflexivity|].
  rewrite IH, strike_matches. reflexivity.
Qed.

(* deleting a key that is not there changes nothing, so the lookups in
   register and unregister need not be told apart (the form to use;
   relay_key_spec and Frame.relay_key_view need unique keys) *)
Lemma relay_key_eq : forall q k bl, relay_key q k bl = (adel k bl, puts q k bl).
Proof.
  intros q k bl. unfold relay_key, puts. destruct (alook k bl) eqn:E; [reflexivity|].
  rewrite (adel_absent _ _ E). reflexivity.
Qed.

Lemma register_eq : forall s n q,
  register s n q = (mkS (inq s) (aset n q (queues s)) (adel star (adel n (backlog s))) (clist s) (gdel n (gone s)),
                    puts q n (backlog s) ++ puts q star (adel n (backlog s))).
Proof. intros. unfold register. rewrite !relay_key_eq. reflexivity. Qed.

Lemma unregister_eq : forall s n,
  unregister s n = (mkS (inq s) (adel n (queues s)) (adel n (backlog s)) (clist s) (gadd n (gone s)),
                    warns n (queues s) ++ map OFail (key_list n (backlog s))).
Proof.
  intros. unfold unregister, warns, key_list.
  destruct (alook n (queues s)) eqn:Eq; destruct (alook n (backlog s)) eqn:Eb;
    rewrite ?(adel_absent _ _ Eq), ?(adel_absent _ _ Eb); reflexivity.
Qed.

Lemma cancel_eq : forall s us,
  cancel s us = (mkS (inq s) (queues s) (unnamed us (backlog s)) (clist s ++ us) (gone s), [OCancel (taken us (backlog s))]).
Proof. intros. unfold cancel. rewrite cancel_walk_spec. reflexivity. Qed.

Inductive stepped (s : state) : op -> state -> list out -> Prop :=
| StArrive b : stepped s (Arrive b) (mkS (inq s ++ [b]) (queues s) (backlog s) (clist s) (gone s)) []
| StDrain bl cl o :
    fwd_groups (queues s) (gone s) (backlog s) (clist s) (collect (concat (inq s))) = (bl, cl, o) ->
    stepped s Drain (mkS [] (queues s) bl cl (gone s)) (o ++ sched_tail (concat (inq s)))
| StRegister n q :
    stepped s (Register n q)
      (mkS (inq s) (aset n q (queues s)) (adel star (adel n (backlog s))) (clist s) (gdel n (gone s)))
      (puts q n (backlog s) ++ puts q star (adel n (backlog s)))
| StUnregister n :
    stepped s (Unregister n)
      (mkS (inq s) (adel n (queues s)) (adel n (backlog s)) (clist s) (gadd n (gone s)))
      (warns n (queues s) ++ map OFail (key_list n (backlog s)))
| StCancel us :
    stepped s (Cancel us)
      (mkS (inq s) (queues s) (unnamed us (backlog s)) (clist s ++ us) (gone s)) [OCancel (taken us (backlog s))].

Lemma step_cases : forall s o s' e, step s o = (s', e) -> stepped s o s' e.
Proof.
  intros s [b| |n q|n|us] s' e H; simpl in H.
  - injection H as <- <-. constructor.
  - unfold drain in H.
    destruct (fwd_groups (queues s) (gone s) (backlog s) (clist s) (collect (concat (inq s)))) as [[bl cl] o] eqn:E.
    injection H as <- <-. constructor. exact E.
  - rewrite register_eq in H. injection H as <- <-. constructor.
  - rewrite unregister_eq in H. injection H as <- <-. constructor.
  - rewrite cancel_eq in H. injection H as <- <-. constructor.
Qed.

(* one raptor name of a drain: the cancel list is consulted (sift), then what
   is kept goes one of four ways or, if nothing is kept, nowhere (Oracle.place
   is the same choice as a function) *)
Inductive placed (qs : list (Z * Z)) (gn : list Z) (bl : list (Z * list Z)) (n : Z) (k : list Z)
  : list (Z * list Z) -> list out -> Prop :=
| PlNone : k = [] -> placed qs gn bl n k bl []
| PlPut q : alook n qs = Some q -> placed qs gn bl n k bl [OPut q k]
| PlRR : alook n qs = None -> negb (is_nil qs) && (n =? star) = true -> placed qs gn bl n k bl (rr (map snd qs) 0 k)
| PlFail : alook n qs = None -> negb (is_nil qs) && (n =? star) = false -> zmem n gn = true ->
    placed qs gn bl n k bl (map OFail k)
| PlCache : alook n qs = None -> negb (is_nil qs) && (n =? star) = false -> zmem n gn = false ->
    placed qs gn bl n k (aext n k bl) [].

Lemma fwd_group_cases : forall qs gn bl cl n us bl' cl' o,
  fwd_group qs gn bl cl n us = (bl', cl', o) ->
  exists k o0 o1, sift cl us = (k, cl', o0) /\ o = o0 ++ o1 /\ placed qs gn bl n k bl' o1.
Proof.
  intros qs gn bl cl n us bl' cl' o H. unfold fwd_group in H.
  destruct (sift cl us) as [[k c1] o0]. exists k, o0.
  destruct (is_nil k) eqn:Ek.
  { injection H as <- <- <-. exists []. rewrite app_nil_r. destruct k; [|discriminate]. auto using placed. }
  destruct (alook n qs) as [q|] eqn:Eq; [injection H as <- <- <-; eauto using placed|].
  destruct (negb (is_nil qs) && (n =? star)) eqn:Er; [injection H as <- <- <-; eauto using placed|].
  destruct (zmem n gn) eqn:Eg; injection H as <- <- <-; [eauto using placed|].
  exists []. rewrite app_nil_r. auto using placed.
Qed.

Definition waiting (u : Z) (s : state) : nat := (n_inq u s + tot u (backlog s))%nat.
Definition ended (u : Z) (e : list out) : nat := (n_fwd u e + n_fail u e + n_cancel u e)%nat.

Lemma places_split : forall u s e, places u s e = (waiting u s + ended u e)%nat.
Proof. intros; unfold places, waiting, ended; lia. Qed.

Lemma ended_app : forall u a b, ended u (a ++ b) = (ended u a + ended u b)%nat.
Proof. intros; unfold ended; rewrite n_fwd_app, n_fail_app, n_cancel_app; lia. Qed.

Lemma ended_map_OFail : forall u l, ended u (map OFail l) = cnt u l.
Proof. intros; unfold ended; rewrite n_fail_map_OFail, n_fwd_map_OFail, n_cancel_map_OFail; lia. Qed.
Lemma ended_nil : forall u, ended u [] = 0%nat.
Proof. reflexivity. Qed.
Lemma ended_warn : forall u n e, ended u (OWarn n :: e) = ended u e.
Proof. reflexivity. Qed.

Lemma collect_tot_gen : forall u ts g,
  tot u (fold_left (fun g t => match relayed t with Some n => aext n [t_uid t] g | None => g end) ts g)
  = (tot u g + t_arr u ts)%nat.
Proof.
  intros u ts; induction ts as [|t ts IH]; intros g; simpl; [lia|].
  rewrite IH. destruct (relayed t) as [n|]; [|lia].
  rewrite tot_aext. simpl. lia.
Qed.

Lemma collect_tot : forall u ts, tot u (collect ts) = t_arr u ts.
Proof. intros; unfold collect; rewrite collect_tot_gen; reflexivity. Qed.

Lemma rr_counts : forall u qids us i,
  n_fwd u (rr qids i us) = cnt u us /\ n_fail u (rr qids i us) = 0%nat /\ n_cancel u (rr qids i us) = 0%nat.
Proof.
  intros u qids us; induction us as [|x us IH]; intros i; simpl; [auto|].
  destruct (IH (S i)) as [H1 [H2 H3]]. unfold n_fwd, n_fail, n_cancel in *; simpl.
  rewrite H1, H2, H3. auto.
Qed.

Lemma ended_rr : forall u qids us i, ended u (rr qids i us) = cnt u us.
Proof. intros u qids us i. destruct (rr_counts u qids us i) as [H1 [H2 H3]]. unfold ended. lia. Qed.

Lemma ended_put : forall u q us, ended u [OPut q us] = cnt u us.
Proof. intros; unfold ended, n_fwd, n_fail, n_cancel; simpl; lia. Qed.

Lemma n_cancel_rr : forall u qids us i, n_cancel u (rr qids i us) = 0%nat.
Proof. intros u qids us i. destruct (rr_counts u qids us i) as [_ [_ H]]. exact H. Qed.

Lemma ended_puts : forall u q k bl, ended u (puts q k bl) = cnt u (key_list k bl).
Proof. intros. unfold puts, key_list. destruct (alook k bl); [apply ended_put | reflexivity]. Qed.

Lemma sched_tail_counts : forall u ts,
  ended u (if is_nil (normal ts) then [] else [OSched (normal ts)]) = 0%nat.
Proof. intros; destruct (is_nil (normal ts)); reflexivity. Qed.

Lemma placed_counts : forall u qs gn bl n k bl' o, placed qs gn bl n k bl' o ->
  (tot u bl' + ended u o)%nat = (tot u bl + cnt u k)%nat /\ n_cancel u o = 0%nat.
Proof.
  intros u qs gn bl n k bl' o [->|q _|_ _|_ _ _|_ _ _].
  - auto.
  - rewrite ended_put. auto.
  - rewrite ended_rr, n_cancel_rr. auto.
  - rewrite ended_map_OFail, n_cancel_map_OFail. auto.
  - rewrite tot_aext. auto.
Qed.

Lemma fwd_group_counts : forall u qs gn bl cl n us bl' cl' o,
  fwd_group qs gn bl cl n us = (bl', cl', o) ->
  (tot u bl' + ended u o)%nat = (tot u bl + cnt u us)%nat
  /\ n_cancel u o = Nat.min (cnt u cl) (cnt u us) /\ (cnt u cl' + n_cancel u o)%nat = cnt u cl.
Proof.
  intros u qs gn bl cl n us bl' cl' o H.
  destruct (fwd_group_cases _ _ _ _ _ _ _ _ _ H) as [k [o0 [o1 [Es [-> P]]]]].
  destruct (sift_spec u _ _ _ _ _ Es) as [A [B [C [D F]]]].
  destruct (placed_counts u _ _ _ _ _ _ _ P) as [G1 G2].
  rewrite ended_app, n_cancel_app. unfold ended at 1. lia.
Qed.

Lemma fwd_groups_ind : forall qs gn
    (P : list (Z * list Z) -> list Z -> list (Z * list Z) -> list (Z * list Z) -> list Z -> list out -> Prop),
  (forall bl cl, P bl cl [] bl cl []) ->
  (forall bl cl n us g bl1 cl1 o1 bl2 cl2 o2, fwd_group qs gn bl cl n us = (bl1, cl1, o1) ->
     P bl1 cl1 g bl2 cl2 o2 -> P bl cl ((n, us) :: g) bl2 cl2 (o1 ++ o2)) ->
  forall g bl cl bl' cl' o, fwd_groups qs gn bl cl g = (bl', cl', o) -> P bl cl g bl' cl' o.
Proof.
  intros qs gn P H0 HS g; induction g as [|[n us] g IH]; intros bl cl bl' cl' o H; simpl in H.
  - injection H as <- <- <-. apply H0.
  - destruct (fwd_group qs gn bl cl n us) as [[bl1 cl1] o1] eqn:E1.
    destruct (fwd_groups qs gn bl1 cl1 g) as [[bl2 cl2] o2] eqn:E2. injection H as <- <- <-. eauto.
Qed.

Lemma fwd_groups_counts : forall u qs gn g bl cl bl' cl' o,
  fwd_groups qs gn bl cl g = (bl', cl', o) ->
  (tot u bl' + ended u o)%nat = (tot u bl + tot u g)%nat
  /\ n_cancel u o = Nat.min (cnt u cl) (tot u g) /\ (cnt u cl' + n_cancel u o)%nat = cnt u cl.
Proof.
  intros u qs gn. refine (fwd_groups_ind _ _ _ _ _).
  - intros bl cl. rewrite ended_nil. simpl. unfold n_cancel; simpl. repeat split; lia.
  - intros bl cl n us g bl1 cl1 o1 bl2 cl2 o2 E1 [B1 [B2 B3]].
    destruct (fwd_group_counts u _ _ _ _ _ _ _ _ _ E1) as [A1 [A2 A3]].
    rewrite ended_app, n_cancel_app. simpl. repeat split; lia.
Qed.

Lemma tot_unnamed : forall u us bl, tot u (unnamed us bl) = if zmem u us then 0%nat else tot u bl.
Proof.
  intros u us bl; induction bl as [|[n l] bl IH]; simpl; [destruct (zmem u us); reflexivity|].
  rewrite IH, cnt_filter. destruct (zmem u us); reflexivity.
Qed.

Lemma cnt_taken : forall u us bl, cnt u (taken us bl) = if zmem u us then tot u bl else 0%nat.
Proof.
  intros u us bl; induction bl as [|[n l] bl IH]; simpl; [destruct (zmem u us); reflexivity|].
  unfold taken in *. simpl. unfold matches at 1. rewrite cnt_app, IH, cnt_filter. destruct (zmem u us); reflexivity.
Qed.

Lemma tot_unnamed_in : forall u us bl, In u us -> tot u (unnamed us bl) = 0%nat.
Proof. intros u us bl Hu. apply zmem_In in Hu. rewrite tot_unnamed, Hu. reflexivity. Qed.
Lemma tot_unnamed_out : forall u us bl, ~ In u us -> tot u (unnamed us bl) = tot u bl.
Proof. intros u us bl Hu. rewrite tot_unnamed, (zmem_notin u us Hu). reflexivity. Qed.

Lemma cancel_walk_counts : forall u us bl bl' c,
  cancel_walk us bl = (bl', c) -> (tot u bl' + cnt u c)%nat = tot u bl.
Proof.
  intros u us bl bl' c H. rewrite cancel_walk_spec in H. injection H as <- <-.
  fold (taken us bl). rewrite tot_unnamed, cnt_taken. destruct (zmem u us); lia.
Qed.

Lemma taken_named : forall u us bl, In u (taken us bl) -> In u us.
Proof.
  intros u us bl Hu. apply in_concat in Hu. destruct Hu as [l [Hl Hu]].
  apply in_map_iff in Hl. destruct Hl as [p [<- _]]. apply filter_In in Hu. apply zmem_In. tauto.
Qed.

Lemma n_inq_arrive : forall u s b,
  n_inq u (mkS (inq s ++ [b]) (queues s) (backlog s) (clist s) (gone s)) = (n_inq u s + t_arr u b)%nat.
Proof.
  intros. unfold n_inq. simpl. rewrite concat_app, t_arr_app. simpl. rewrite app_nil_r. reflexivity.
Qed.

Lemma drain_counts : forall u s bl cl o,
  fwd_groups (queues s) (gone s) (backlog s) (clist s) (collect (concat (inq s))) = (bl, cl, o) ->
  let e := o ++ sched_tail (concat (inq s)) in
  (tot u bl + ended u e)%nat = (tot u (backlog s) + n_inq u s)%nat
  /\ n_cancel u e = Nat.min (cnt u (clist s)) (n_inq u s) /\ (cnt u cl + n_cancel u e)%nat = cnt u (clist s).
Proof.
  intros u s bl cl o E e. subst e. destruct (fwd_groups_counts u _ _ _ _ _ _ _ _ E) as [A1 [A2 A3]].
  rewrite collect_tot in A1, A2. pose proof (sched_tail_counts u (concat (inq s))) as T. unfold ended in T.
  rewrite ended_app, n_cancel_app. unfold n_inq, sched_tail, ended at 2. lia.
Qed.

Lemma step_conserve : forall u s o s' e,
  step s o = (s', e) -> (waiting u s' + ended u e)%nat = (waiting u s + t_arr u (arrivals o))%nat.
Proof.
  intros u s o s' e H. unfold waiting.
  destruct (step_cases _ _ _ _ H) as [b|bl cl o E|n q|n|us]; simpl backlog; simpl arrivals.
  - rewrite n_inq_arrive, ended_nil. lia.
  - destruct (drain_counts u _ _ _ _ E) as [A _]. unfold n_inq at 1. simpl. lia.
  - rewrite ended_app, !ended_puts.
    pose proof (tot_adel_kl u n (backlog s)). pose proof (tot_adel_kl u star (adel n (backlog s))).
    unfold n_inq; simpl. lia.
  - rewrite ended_app, ended_map_OFail. pose proof (tot_adel_kl u n (backlog s)).
    unfold warns, n_inq; destruct (alook n (queues s)); simpl; lia.
  - rewrite tot_unnamed. unfold ended, n_fwd, n_fail, n_cancel, n_inq; simpl. rewrite cnt_taken. destruct (zmem u us); lia.
Qed.

Lemma gone_after_step : forall s o s' e, step s o = (s', e) -> gone s' = gone_after (gone s) o.
Proof. intros s o s' e H. destruct (step_cases _ _ _ _ H); reflexivity. Qed.

Lemma run_ind : forall P : state -> list op -> state -> list out -> Prop,
  (forall s, P s [] s []) ->
  (forall s o s1 e1 ops s2 e2, step s o = (s1, e1) -> run s1 ops = (s2, e2) -> P s1 ops s2 e2 -> P s (o :: ops) s2 (e1 ++ e2)) ->
  forall ops s s' e, run s ops = (s', e) -> P s ops s' e.
Proof.
  intros P H0 HS ops; induction ops as [|o ops IH]; intros s s' e H; simpl in H.
  - injection H as <- <-. apply H0.
  - destruct (step s o) as [s1 e1] eqn:E1. destruct (run s1 ops) as [s2 e2] eqn:E2. injection H as <- <-. eauto.
Qed.

Lemma run_app : forall a b s,
  run s (a ++ b) = let '(s1, o1) := run s a in let '(s2, o2) := run s1 b in (s2, o1 ++ o2).
Proof.
  intros a; induction a as [|o a IH]; intros b s; simpl.
  - destruct (run s b); reflexivity.
  - destruct (step s o) as [s1 o1]. rewrite IH.
    destruct (run s1 a) as [s2 o2]. destruct (run s2 b) as [s3 o3]. rewrite app_assoc. reflexivity.
Qed.

Lemma n_arr_cons : forall u o ops, n_arr u (o :: ops) = (t_arr u (arrivals o) + n_arr u ops)%nat.
Proof. intros; unfold n_arr, all_arrivals; simpl; rewrite t_arr_app; reflexivity. Qed.

Lemma n_arr_app : forall u a b, n_arr u (a ++ b) = (n_arr u a + n_arr u b)%nat.
Proof. intros; unfold n_arr, all_arrivals; rewrite flat_map_app, t_arr_app; reflexivity. Qed.

Lemma run_conserve : forall u ops s s' e,
  run s ops = (s', e) -> (waiting u s' + ended u e)%nat = (waiting u s + n_arr u ops)%nat.
Proof.
  intros u. refine (run_ind _ _ _).
  - intros s. rewrite ended_nil. unfold n_arr; simpl. lia.
  - intros s o s1 e1 ops s2 e2 E1 _ IH. pose proof (step_conserve u _ _ _ _ E1).
    rewrite ended_app, n_arr_cons. lia.
Qed.

(* THE conservation law: for every history and every uid, at the end of the
   history (that is: at every moment) the raptor tasks with that uid that have
   arrived are, counted with multiplicity, on the scheduler queue, in a
   backlog, forwarded, failed or canceled -- none is lost, none is doubled *)
Theorem conservation : forall ops u s e,
  run init ops = (s, e) -> n_arr u ops = places u s e.
Proof.
  intros ops u s e H. rewrite places_split. pose proof (run_conserve u _ _ _ _ H) as C.
  unfold waiting at 2 in C. unfold n_inq in C. simpl in C. lia.
Qed.

(* a uid that arrived once is in exactly one place, once *)
Definition one_place (u : Z) (s : state) (e : list out) : Prop :=
  let l := [n_inq u s; tot u (backlog s); n_fwd u e; n_fail u e; n_cancel u e] in
  exists a b, l = a ++ 1%nat :: b /\ Forall (fun x => x = 0%nat) (a ++ b).

Lemma sum_one_split : forall l, list_sum l = 1%nat ->
  exists x y, l = x ++ 1%nat :: y /\ Forall (fun z => z = 0%nat) (x ++ y).
Proof.
  induction l as [|[|n] l IH]; simpl; intros H; [discriminate| |].
  - destruct (IH H) as [x [y [-> F]]]. exists (0%nat :: x), y. split; [reflexivity | constructor; [reflexivity | exact F]].
  - exists [], l. assert (n = 0%nat /\ list_sum l = 0%nat) as [-> Hl] by lia. split; [reflexivity|]. simpl.
    clear - Hl. induction l as [|z l IHl]; constructor; simpl in Hl; [lia | apply IHl; lia].
Qed.

Lemma one_of_five : forall a b c d f : nat, (a + b + c + d + f = 1)%nat ->
  exists x y, [a; b; c; d; f] = x ++ 1%nat :: y /\ Forall (fun z => z = 0%nat) (x ++ y).
Proof. intros a b c d f H. apply sum_one_split. simpl. lia. Qed.

Theorem exactly_one_place : forall ops u s e,
  run init ops = (s, e) -> n_arr u ops = 1%nat -> one_place u s e.
Proof.
  intros ops u s e H H1. pose proof (conservation _ u _ _ H) as C. unfold places in C.
  unfold one_place. apply one_of_five. lia.
Qed.

Theorem never_forwarded_twice : forall ops u s e,
  run init ops = (s, e) -> (n_fwd u e <= n_arr u ops)%nat.
Proof. intros ops u s e H. pose proof (conservation _ u _ _ H) as C. unfold places in C. lia. Qed.

(* once failed or canceled, never forwarded -- neither before nor in any continuation *)
Theorem no_forward_after_final : forall ops1 ops2 u s1 e1 s2 e2,
  run init ops1 = (s1, e1) -> run s1 ops2 = (s2, e2) ->
  (n_arr u (ops1 ++ ops2) <= 1)%nat -> (0 < n_fail u e1 + n_cancel u e1)%nat ->
  n_fwd u (e1 ++ e2) = 0%nat /\ (n_fail u (e1 ++ e2) + n_cancel u (e1 ++ e2) = 1)%nat.
Proof.
  intros ops1 ops2 u s1 e1 s2 e2 H1 H2 Hle Hpos.
  assert (R : run init (ops1 ++ ops2) = (s2, e1 ++ e2)) by (rewrite run_app, H1, H2; reflexivity).
  pose proof (conservation _ u _ _ R) as C. unfold places in C.
  rewrite n_fwd_app, n_fail_app, n_cancel_app in *. lia.
Qed.

(* the look-up lemmas apply to it by conversion *)
Definition absent {A} (k : Z) (l : list (Z * A)) : Prop := alook k l = None.

Lemma absent_without : forall {A} k ks (l : list (Z * A)), In k ks -> absent k (without ks l).
Proof. intros A k ks l H. apply zmem_In in H. unfold absent. rewrite alook_without, H. reflexivity. Qed.

Lemma absent_without_mono : forall {A} k ks (l : list (Z * A)), absent k l -> absent k (without ks l).
Proof. intros A k ks l H. unfold absent in *. rewrite alook_without, H. destruct (zmem k ks); reflexivity. Qed.

Lemma look_without_other : forall {A} k ks (l : list (Z * A)), ~ In k ks -> alook k (without ks l) = alook k l.
Proof. intros A k ks l H. rewrite alook_without, (zmem_notin k ks H). reflexivity. Qed.

(* `absent` speaks of keys, which is more than tot = 0: a key can stay with an
   empty list (`unnamed` keeps the keys) *)
Record inv (s : state) : Prop := mkInv {
  inv_bkeys : NoDup (map fst (backlog s));
  inv_qkeys : NoDup (map fst (queues s));
  inv_reg   : forall n, alook n (queues s) <> None -> absent n (backlog s);
  inv_star  : queues s <> [] -> absent star (backlog s);
  inv_gone_b : forall n, In n (gone s) -> absent n (backlog s);
  inv_gone_q : forall n, In n (gone s) -> absent n (queues s)
}.

Lemma inv_init : inv init.
Proof. constructor; simpl; try constructor; intros; try reflexivity; try congruence; contradiction. Qed.

(* the backlog's part of inv: what a drain has to keep *)
Definition bl_ok (qs : list (Z * Z)) (gn : list Z) (bl : list (Z * list Z)) : Prop :=
  NoDup (map fst bl) /\ (forall k, alook k qs <> None -> absent k bl) /\ (qs <> [] -> absent star bl)
  /\ (forall k, In k gn -> absent k bl).

(* a drain caches only under a name that is neither registered nor gone nor,
   while a queue is registered, the wildcard *)
Lemma fwd_group_inv : forall qs gn bl cl n us bl' cl' o,
  fwd_group qs gn bl cl n us = (bl', cl', o) -> bl_ok qs gn bl -> bl_ok qs gn bl'.
Proof.
  intros qs gn bl cl n us bl' cl' o H Hok.
  destruct (fwd_group_cases _ _ _ _ _ _ _ _ _ H) as [k [o0 [o1 [_ [_ [| | | |Eq Er Eg]]]]]]; try exact Hok.
  destruct Hok as [Hd [Hr [Hs Hg]]]. unfold bl_ok, absent in *.
  split; [apply keys_aext_nodup; exact Hd|]. split; [|split].
  - intros j Hj. rewrite alook_aext_other; [apply Hr; exact Hj|]. intros ->. congruence.
  - intros Hq. rewrite alook_aext_other; [apply Hs; exact Hq|].
    destruct qs; [congruence|]. simpl in Er. lia.
  - intros j Hj. rewrite alook_aext_other; [apply Hg; exact Hj|].
    intros ->. apply zmem_In in Hj. congruence.
Qed.

Lemma fwd_groups_inv : forall qs gn g bl cl bl' cl' o,
  fwd_groups qs gn bl cl g = (bl', cl', o) -> bl_ok qs gn bl -> bl_ok qs gn bl'.
Proof.
  intros qs gn. refine (fwd_groups_ind _ _ _ _ _); [auto|].
  intros bl cl n us g bl1 cl1 o1 bl2 cl2 o2 E1 IH Hok. exact (IH (fwd_group_inv _ _ _ _ _ _ _ _ _ E1 Hok)).
Qed.

Lemma In_gadd : forall k n g, In k (gadd n g) <-> k = n \/ In k g.
Proof.
  intros k n g. unfold gadd. destruct (zmem n g) eqn:E.
  - apply zmem_In in E. split; [tauto | intros [->|H]; assumption].
  - rewrite in_app_iff. simpl. split; [intros [H|[H|[]]]; auto | intros [->|H]; auto].
Qed.

Lemma In_gdel : forall k n g, In k (gdel n g) <-> k <> n /\ In k g.
Proof.
  intros k n g. unfold gdel. rewrite filter_In. split.
  - intros [H1 H2]. split; [|exact H1]. intros ->. rewrite Z.eqb_refl in H2. discriminate.
  - intros [H1 H2]. split; [exact H2|]. destruct (k =? n) eqn:E; [lia | reflexivity].
Qed.

Lemma unnamed_keys : forall us bl, map fst (unnamed us bl) = map fst bl.
Proof. intros; unfold unnamed; rewrite map_map; reflexivity. Qed.

Lemma unnamed_look : forall us k bl,
  alook k (unnamed us bl) = option_map (filter (fun u => negb (zmem u us))) (alook k bl).
Proof.
  intros us k bl; induction bl as [|[n l] bl IH]; simpl; [reflexivity|].
  destruct (n =? k); [reflexivity | exact IH].
Qed.

Lemma absent_unnamed : forall us k bl, absent k bl -> absent k (unnamed us bl).
Proof. intros us k bl H. unfold absent. rewrite unnamed_look, H. reflexivity. Qed.

Lemma step_inv : forall s o s' e, step s o = (s', e) -> inv s -> inv s'.
Proof.
  intros s o s' e H [Hb Hq Hr Hs Hgb Hgq].
  destruct (step_cases _ _ _ _ H) as [b|bl cl o E|n q|n|us].
  - constructor; assumption.
  - destruct (fwd_groups_inv _ _ _ _ _ _ _ _ E (conj Hb (conj Hr (conj Hs Hgb)))) as [A1 [A2 [A3 A4]]].
    constructor; assumption.
  - constructor; simpl.
    + do 2 apply keys_adel_nodup. exact Hb.
    + apply keys_aset_nodup; exact Hq.
    + intros k Hk. rewrite alook_aset in Hk. apply alook_adel_none. destruct (n =? k) eqn:E.
      * apply Z.eqb_eq in E; subst k. apply alook_adel_same; exact Hb.
      * apply alook_adel_none, Hr. exact Hk.
    + intros _. apply alook_adel_same, keys_adel_nodup. exact Hb.
    + intros k Hk. apply In_gdel in Hk. do 2 apply alook_adel_none. apply Hgb. tauto.
    + intros k Hk. apply In_gdel in Hk. unfold absent. rewrite alook_aset.
      destruct (n =? k) eqn:E; [lia | apply Hgq; tauto].
  - assert (G : forall A (l : list (Z * A)), NoDup (map fst l) -> (forall k, In k (gone s) -> absent k l) ->
                forall k, In k (gadd n (gone s)) -> absent k (adel n l)).
    { intros A l Hd Hg k Hk. apply In_gadd in Hk.
      destruct Hk as [->|Hk]; [apply alook_adel_same; exact Hd | apply alook_adel_none, Hg; exact Hk]. }
    constructor; simpl; auto using keys_adel_nodup.
    + intros k Hk. apply alook_adel_none, Hr. exact (alook_adel_some _ _ _ Hk).
    + intros Hne. apply alook_adel_none, Hs. intros Hnil. rewrite Hnil in Hne. apply Hne. reflexivity.
  - constructor; simpl; auto using absent_unnamed. rewrite unnamed_keys. exact Hb.
Qed.

Lemma run_inv : forall ops s s' e, run s ops = (s', e) -> inv s -> inv s'.
Proof.
  refine (run_ind _ _ _); [auto|].
  intros s o s1 e1 ops s2 e2 E1 _ IH Hi. exact (IH (step_inv _ _ _ _ E1 Hi)).
Qed.

(* nobody waits for a queue that is registered: in every reachable state a
   registered name has no backlog, and there is no wildcard backlog while any
   queue is registered; the keys of both dicts are unique; a name that has
   unregistered has neither backlog nor queue *)
Theorem reachable_inv : forall ops s e, run init ops = (s, e) -> inv s.
Proof. intros ops s e H. eapply run_inv; [exact H | exact inv_init]. Qed.

(* with unique keys the deletions are the filters of the harness's clauses *)
Lemma relay_key_spec : forall q k bl, NoDup (map fst bl) ->
  relay_key q k bl = (without [k] bl, match alook k bl with Some l => [OPut q l] | None => [] end).
Proof. intros q k bl Hd. rewrite relay_key_eq, adel_without by exact Hd. reflexivity. Qed.

(* Register: the complete backlog of the name, then the complete backlog of
   the wildcard, each in one put to the NEW queue; nothing of them is left;
   every other backlog and the scheduler queue are untouched *)
Theorem register_relays_all : forall s n q, inv s ->
  let '(s', e) := step s (Register n q) in
  e = (match alook n (backlog s) with Some l => [OPut q l] | None => [] end)
      ++ (if n =? star then [] else match alook star (backlog s) with Some l => [OPut q l] | None => [] end)
  /\ backlog s' = without [n; star] (backlog s)
  /\ absent n (backlog s') /\ absent star (backlog s')
  /\ (forall k, k <> n -> k <> star -> alook k (backlog s') = alook k (backlog s))
  /\ inq s' = inq s /\ alook n (queues s') = Some q
  /\ gone s' = gdel n (gone s) /\ clist s' = clist s.
Proof.
  intros s n q [Hb _ _ _ _ _]. simpl. rewrite register_eq. simpl. repeat split.
  - f_equal. unfold puts. destruct (n =? star) eqn:E.
    + apply Z.eqb_eq in E; subst n. rewrite alook_adel_same by exact Hb. reflexivity.
    + rewrite alook_adel_other by lia. reflexivity.
  - rewrite (adel_without n) by exact Hb. rewrite adel_without by (apply keys_without_nodup; exact Hb).
    apply without_without.
  - apply alook_adel_none, alook_adel_same. exact Hb.
  - apply alook_adel_same, keys_adel_nodup. exact Hb.
  - intros k H1 H2. rewrite !alook_adel_other by assumption. reflexivity.
  - rewrite alook_aset, Z.eqb_refl. reflexivity.
Qed.

(* Unregister: exactly the backlog of that name fails, in order; name and
   backlog are forgotten; an unknown name only adds a warning *)
Theorem unregister_fails_exactly : forall s n, inv s ->
  let '(s', e) := step s (Unregister n) in
  e = (match alook n (queues s) with None => [OWarn n] | Some _ => [] end) ++ map OFail (key_list n (backlog s))
  /\ backlog s' = without [n] (backlog s) /\ queues s' = without [n] (queues s)
  /\ absent n (backlog s') /\ absent n (queues s')
  /\ (forall k, k <> n -> alook k (backlog s') = alook k (backlog s))
  /\ inq s' = inq s /\ gone s' = gadd n (gone s) /\ clist s' = clist s.
Proof.
  intros s n [Hb Hq _ _ _ _]. simpl. rewrite unregister_eq. simpl.
  repeat split; try (apply adel_without; assumption); try (apply alook_adel_same; assumption).
  intros k Hk. apply alook_adel_other. exact Hk.
Qed.

(* Cancel: the uids are registered on the cancel list; every named uid leaves
   every backlog and is canceled as often as it waited there; tasks not named keep their place and order; nothing is
   forwarded or failed; queue and registrations are untouched *)
Theorem cancel_in_backlog : forall s us,
  let '(s', e) := step s (Cancel us) in
  backlog s' = unnamed us (backlog s) /\ inq s' = inq s /\ queues s' = queues s
  /\ clist s' = clist s ++ us /\ gone s' = gone s
  /\ (exists c, e = [OCancel c] /\ (forall u, In u c -> In u us)
                /\ forall u, In u us -> cnt u c = tot u (backlog s))
  /\ (forall u, In u us -> tot u (backlog s') = 0%nat)
  /\ (forall u, ~ In u us -> tot u (backlog s') = tot u (backlog s)).
Proof.
  intros s us. simpl. rewrite cancel_eq. simpl.
  repeat split; auto.
  - exists (taken us (backlog s)). repeat split.
    + intros u. apply taken_named.
    + intros u Hu. rewrite cnt_taken, (proj2 (zmem_In u us) Hu). reflexivity.
  - intros u. apply tot_unnamed_in.
  - intros u. apply tot_unnamed_out.
Qed.
