(* Raptor relay: what the list and dict functions of the model do to membership,
   counts, look-ups and keys.  cnt_filter, alook_adel_none, tot_adel_kl, tot_aset
   and cnt_remove1 are the lemmas to use; those named after them with a suffix
   are their cases.  ("kl" is Oracle.key_list.) *)
From Coq Require Import ZArith List Bool Lia ZifyBool.
From RP Require Import Relay.Model Relay.Oracle.
Import ListNotations.
Open Scope Z_scope.

Lemma zmem_In : forall u l, zmem u l = true <-> In u l.
Proof.
  intros u l; induction l as [|x l IH]; simpl; [split; [discriminate | tauto]|].
  rewrite orb_true_iff, IH, Z.eqb_eq. tauto.
Qed.

Lemma zmem_notin : forall u l, ~ In u l -> zmem u l = false.
Proof. intros u l H. destruct (zmem u l) eqn:E; [apply zmem_In in E; tauto | reflexivity]. Qed.

Lemma zmem_app : forall u a b, zmem u (a ++ b) = zmem u a || zmem u b.
Proof. intros u a b; induction a as [|x a IH]; simpl; [reflexivity | rewrite IH, orb_assoc; reflexivity]. Qed.

Lemma cnt_app : forall u a b, cnt u (a ++ b) = (cnt u a + cnt u b)%nat.
Proof. intros u a b; induction a as [|x a IH]; simpl; [reflexivity | rewrite IH; lia]. Qed.

Lemma zmem_cnt : forall u l, zmem u l = (0 <? cnt u l)%nat.
Proof.
  intros u l; induction l as [|x l IH]; simpl; [reflexivity|].
  destruct (x =? u); simpl; [reflexivity | exact IH].
Qed.

Lemma cnt_zero_notin : forall u l, ~ In u l -> cnt u l = 0%nat.
Proof. intros u l H. apply zmem_notin in H. rewrite zmem_cnt in H. destruct (cnt u l); [reflexivity | discriminate]. Qed.

Lemma cnt_pos_in : forall u l, (0 < cnt u l)%nat -> In u l.
Proof. intros u l H. apply zmem_In. rewrite zmem_cnt. apply Nat.ltb_lt. exact H. Qed.

Lemma cnt_filter : forall u (f : Z -> bool) l, cnt u (filter f l) = if f u then cnt u l else 0%nat.
Proof.
  intros u f l; induction l as [|x l IH]; simpl; [destruct (f u); reflexivity|].
  destruct (x =? u) eqn:E.
  - apply Z.eqb_eq in E; subst x. destruct (f u); simpl; rewrite ?Z.eqb_refl, IH; reflexivity.
  - destruct (f x); simpl; rewrite ?E; exact IH.
Qed.

Lemma cnt_filter_split : forall u (f : Z -> bool) l,
  (cnt u (filter f l) + cnt u (filter (fun x => negb (f x)) l))%nat = cnt u l.
Proof. intros u f l. rewrite !cnt_filter. destruct (f u); simpl; lia. Qed.

Lemma cnt_filter_out : forall u (f : Z -> bool) l, f u = false -> cnt u (filter f l) = 0%nat.
Proof. intros u f l Hf. rewrite cnt_filter, Hf. reflexivity. Qed.

Lemma cnt_filter_in : forall u (f : Z -> bool) l, f u = true -> cnt u (filter f l) = cnt u l.
Proof. intros u f l Hf. rewrite cnt_filter, Hf. reflexivity. Qed.

Lemma strike_keep : forall ms x r, ~ In x ms -> strike ms (x :: r) = x :: strike ms r.
Proof.
  unfold strike. intros ms; induction ms as [|m ms IH]; intros x r H; simpl; [reflexivity|].
  destruct (x =? m) eqn:E; [apply Z.eqb_eq in E; subst; simpl in H; tauto|].
  apply IH. simpl in H; tauto.
Qed.

Lemma strike_matches : forall us l, strike (matches us l) l = filter (fun u => negb (zmem u us)) l.
Proof.
  intros us l; induction l as [|x l IH]; simpl; [reflexivity|].
  unfold matches in *. simpl. destruct (zmem x us) eqn:E; simpl.
  - unfold strike. simpl. rewrite Z.eqb_refl. exact IH.
  - rewrite strike_keep; [rewrite IH; reflexivity|].
    intros HIn. apply filter_In in HIn. destruct HIn as [_ H]. congruence.
Qed.

Section AssocLemmas.
Context {A : Type}.
Implicit Types l : list (Z * A).

Lemma alook_aset : forall k n (v : A) l, alook k (aset n v l) = if n =? k then Some v else alook k l.
Proof.
  intros k n v l; induction l as [|[m w] l IH]; simpl.
  - destruct (n =? k); reflexivity.
  - destruct (m =? n) eqn:E; simpl.
    + apply Z.eqb_eq in E; subst m. destruct (n =? k); reflexivity.
    + destruct (m =? k) eqn:E2; [|exact IH].
      destruct (n =? k) eqn:E3; [|reflexivity]. lia.
Qed.

Lemma alook_adel_other : forall k n l, k <> n -> alook k (adel n l) = alook k l.
Proof.
  intros k n l H; induction l as [|[m w] l IH]; simpl; [reflexivity|].
  destruct (m =? n) eqn:E; simpl.
  - destruct (m =? k) eqn:E2; [lia | reflexivity].
  - destruct (m =? k); [reflexivity | exact IH].
Qed.

Lemma alook_none_notin : forall k l, alook k l = None <-> ~ In k (map fst l).
Proof.
  intros k l; induction l as [|[m w] l IH]; simpl; [tauto|].
  destruct (m =? k) eqn:E.
  - split; [discriminate | intros H; exfalso; apply H; left; lia].
  - rewrite IH. split; [intros H [H1|H1]; [lia | tauto] | tauto].
Qed.

Lemma adel_absent : forall n l, alook n l = None -> adel n l = l.
Proof.
  intros n l; induction l as [|[m w] l IH]; simpl; [reflexivity|].
  destruct (m =? n); [discriminate | intros H; rewrite (IH H); reflexivity].
Qed.

Lemma alook_adel_same : forall n l, NoDup (map fst l) -> alook n (adel n l) = None.
Proof.
  intros n l; induction l as [|[m w] l IH]; simpl; intros H; [reflexivity|].
  inversion H as [|? ? Hn Hd]; subst.
  destruct (m =? n) eqn:E; simpl.
  - apply Z.eqb_eq in E; subst m. apply alook_none_notin; exact Hn.
  - rewrite E. apply IH; exact Hd.
Qed.

Lemma alook_adel_none : forall k n l, alook k l = None -> alook k (adel n l) = None.
Proof.
  intros k n l; induction l as [|[m w] l IH]; simpl; intros H; [reflexivity|].
  destruct (m =? k) eqn:E; [discriminate|].
  destruct (m =? n); simpl; [exact H | rewrite E; apply IH; exact H].
Qed.

Lemma alook_adel_some : forall k n l, alook k (adel n l) <> None -> alook k l <> None.
Proof.
  intros k n l H H0; apply H; apply alook_adel_none; exact H0.
Qed.

Lemma keys_adel_incl : forall n l x, In x (map fst (adel n l)) -> In x (map fst l).
Proof.
  intros n l x; induction l as [|[m w] l IH]; simpl; [tauto|].
  destruct (m =? n); simpl; [tauto | intros [H|H]; [left; exact H | right; apply IH; exact H]].
Qed.

Lemma keys_adel_nodup : forall n l, NoDup (map fst l) -> NoDup (map fst (adel n l)).
Proof.
  intros n l; induction l as [|[m w] l IH]; simpl; intros H; [constructor|].
  inversion H as [|? ? Hn Hd]; subst.
  destruct (m =? n); simpl; [exact Hd|].
  constructor; [intros HIn; apply Hn; eapply keys_adel_incl; exact HIn | apply IH; exact Hd].
Qed.

Lemma keys_aset : forall n (v : A) l,
  map fst (aset n v l) = match alook n l with Some _ => map fst l | None => map fst l ++ [n] end.
Proof.
  intros n v l; induction l as [|[m w] l IH]; simpl; [reflexivity|].
  destruct (m =? n) eqn:E; simpl; [reflexivity|].
  rewrite IH. destruct (alook n l); reflexivity.
Qed.

Lemma keys_aset_nodup : forall n (v : A) l, NoDup (map fst l) -> NoDup (map fst (aset n v l)).
Proof.
  intros n v l H. rewrite keys_aset. destruct (alook n l) eqn:E; [exact H|].
  apply alook_none_notin in E.
  apply NoDup_rev in H. rewrite <- (rev_involutive (map fst l ++ [n])).
  apply NoDup_rev. rewrite rev_app_distr. simpl. constructor; [rewrite <- in_rev; exact E | exact H].
Qed.

Lemma without_notin : forall n l, ~ In n (map fst l) -> without [n] l = l.
Proof.
  intros n l; induction l as [|[k x] l IH]; unfold without in *; simpl; intros Hr; [reflexivity|].
  destruct (n =? k) eqn:E2; [exfalso; apply Hr; left; lia|]. simpl.
  f_equal. apply IH. tauto.
Qed.

Lemma adel_without : forall n l, NoDup (map fst l) -> adel n l = without [n] l.
Proof.
  intros n l; induction l as [|[m w] l IH]; intros H; [reflexivity|].
  inversion H as [|? ? Hn Hd]; subst. unfold without in *. simpl. rewrite orb_false_r, (Z.eqb_sym n m).
  destruct (m =? n) eqn:E; simpl.
  - apply Z.eqb_eq in E; subst m. symmetry. apply without_notin. exact Hn.
  - rewrite IH by exact Hd. reflexivity.
Qed.

Lemma without_without : forall a b l, without [a] (without [b] l) = without [b; a] l.
Proof.
  intros a b l; induction l as [|[m w] l IH]; unfold without in *; simpl; [reflexivity|].
  destruct (b =? m) eqn:E1; simpl.
  - exact IH.
  - destruct (a =? m) eqn:E2; simpl; [exact IH | f_equal; exact IH].
Qed.

Lemma alook_without : forall k ks l, alook k (without ks l) = if zmem k ks then None else alook k l.
Proof.
  intros k ks l; induction l as [|[m w] l IH]; unfold without in *; simpl; [destruct (zmem k ks); reflexivity|].
  destruct (m =? k) eqn:E.
  - apply Z.eqb_eq in E; subst m. destruct (zmem k ks); simpl; [exact IH | rewrite Z.eqb_refl; reflexivity].
  - destruct (zmem m ks); simpl; rewrite ?E; exact IH.
Qed.

Lemma keys_without_nodup : forall ks l, NoDup (map fst l) -> NoDup (map fst (without ks l)).
Proof.
  intros ks l; induction l as [|[m w] l IH]; unfold without in *; simpl; intros H; [constructor|].
  inversion H as [|? ? Hn Hd]; subst.
  destruct (negb (zmem m ks)); simpl; [|apply IH; exact Hd].
  constructor; [|apply IH; exact Hd].
  intros HIn. apply Hn. apply in_map_iff in HIn. destruct HIn as [p [Hp HIn]].
  apply filter_In in HIn. apply in_map_iff. exists p. tauto.
Qed.

End AssocLemmas.

Lemma tot_app : forall u a b, tot u (a ++ b) = (tot u a + tot u b)%nat.
Proof. intros u a b; induction a as [|[n l] a IH]; simpl; [reflexivity | rewrite IH; lia]. Qed.

Lemma tot_adel_kl : forall u n bl, (tot u (adel n bl) + cnt u (key_list n bl))%nat = tot u bl.
Proof.
  intros u n bl; induction bl as [|[m w] bl IH]; [reflexivity|].
  unfold key_list in *. simpl. destruct (m =? n); simpl; lia.
Qed.

Lemma tot_key_le : forall u k bl, (cnt u (key_list k bl) <= tot u bl)%nat.
Proof. intros u k bl. pose proof (tot_adel_kl u k bl). lia. Qed.

Lemma tot_look_del : forall u n bl l, alook n bl = Some l -> (tot u (adel n bl) + cnt u l)%nat = tot u bl.
Proof. intros u n bl l H. pose proof (tot_adel_kl u n bl) as T. unfold key_list in T. rewrite H in T. exact T. Qed.

Lemma tot_aset : forall u n v bl, (tot u (aset n v bl) + cnt u (key_list n bl))%nat = (tot u bl + cnt u v)%nat.
Proof.
  intros u n v bl; induction bl as [|[m w] bl IH]; [simpl; lia|].
  unfold key_list in *. simpl. destruct (m =? n); simpl; lia.
Qed.

Lemma tot_aset_some : forall u n v bl old, alook n bl = Some old ->
  (tot u (aset n v bl) + cnt u old)%nat = (tot u bl + cnt u v)%nat.
Proof. intros u n v bl old H. pose proof (tot_aset u n v bl) as T. unfold key_list in T. rewrite H in T. exact T. Qed.

Lemma tot_aset_none : forall u n v bl, alook n bl = None -> tot u (aset n v bl) = (tot u bl + cnt u v)%nat.
Proof. intros u n v bl H. pose proof (tot_aset u n v bl) as T. unfold key_list in T. rewrite H in T. simpl in T. lia. Qed.

Lemma tot_aext : forall u n us bl, tot u (aext n us bl) = (tot u bl + cnt u us)%nat.
Proof.
  intros u n us bl. unfold aext. pose proof (tot_aset u n (key_list n bl ++ us) bl) as H.
  rewrite cnt_app in H. unfold key_list in H. destruct (alook n bl); simpl in H; lia.
Qed.

Lemma alook_aext_other : forall k n us bl, k <> n -> alook k (aext n us bl) = alook k bl.
Proof.
  intros k n us bl H. unfold aext. rewrite alook_aset. destruct (n =? k) eqn:E; [lia | reflexivity].
Qed.

Lemma keys_aext_nodup : forall n us bl, NoDup (map fst bl) -> NoDup (map fst (aext n us bl)).
Proof. intros n us bl H. unfold aext. apply keys_aset_nodup; exact H. Qed.

Lemma sum_over_app : forall f a b, sum_over f (a ++ b) = (sum_over f a + sum_over f b)%nat.
Proof. intros f a b; induction a as [|x a IH]; simpl; [reflexivity | rewrite IH; lia]. Qed.

Lemma n_fwd_app : forall u a b, n_fwd u (a ++ b) = (n_fwd u a + n_fwd u b)%nat.
Proof. intros; apply sum_over_app. Qed.
Lemma n_fail_app : forall u a b, n_fail u (a ++ b) = (n_fail u a + n_fail u b)%nat.
Proof. intros; apply sum_over_app. Qed.
Lemma n_cancel_app : forall u a b, n_cancel u (a ++ b) = (n_cancel u a + n_cancel u b)%nat.
Proof. intros; apply sum_over_app. Qed.

Lemma t_arr_app : forall u a b, t_arr u (a ++ b) = (t_arr u a + t_arr u b)%nat.
Proof. intros u a b; induction a as [|x a IH]; simpl; [reflexivity | rewrite IH; lia]. Qed.

Lemma n_fail_map_OFail : forall u l, n_fail u (map OFail l) = cnt u l.
Proof. intros u l; induction l as [|x l IH]; [reflexivity|]. unfold n_fail in *. simpl. rewrite IH. reflexivity. Qed.
Lemma n_fwd_map_OFail : forall u l, n_fwd u (map OFail l) = 0%nat.
Proof. intros u l; induction l as [|x l IH]; simpl; [reflexivity | exact IH]. Qed.
Lemma n_cancel_map_OFail : forall u l, n_cancel u (map OFail l) = 0%nat.
Proof. intros u l; induction l as [|x l IH]; simpl; [reflexivity | exact IH]. Qed.

Lemma cnt_remove1 : forall u v l,
  (cnt u (remove1 v l) + if Z.eqb v u && zmem v l then 1 else 0)%nat = cnt u l.
Proof.
  intros u v l; induction l as [|x l IH]; simpl; [destruct (v =? u); reflexivity|].
  destruct (x =? v) eqn:E; simpl.
  - apply Z.eqb_eq in E; subst x. rewrite andb_true_r. lia.
  - lia.
Qed.

Lemma cnt_remove1_other : forall u v l, v <> u -> cnt u (remove1 v l) = cnt u l.
Proof. intros u v l H. pose proof (cnt_remove1 u v l) as R. destruct (v =? u) eqn:E; simpl in R; lia. Qed.

Lemma cnt_remove1_same : forall u l, zmem u l = true -> (cnt u (remove1 u l) + 1)%nat = cnt u l.
Proof. intros u l H. pose proof (cnt_remove1 u u l) as R. rewrite Z.eqb_refl, H in R. exact R. Qed.

Lemma sift_ind : forall P : list Z -> list Z -> list Z -> list Z -> list out -> Prop,
  (forall cl, P cl [] [] cl []) ->
  (forall cl x us k cl' o, zmem x cl = true -> P (remove1 x cl) us k cl' o -> P cl (x :: us) k cl' (OCancel1 x :: o)) ->
  (forall cl x us k cl' o, zmem x cl = false -> P cl us k cl' o -> P cl (x :: us) (x :: k) cl' o) ->
  forall us cl k cl' o, sift cl us = (k, cl', o) -> P cl us k cl' o.
Proof.
  intros P H0 H1 H2 us; induction us as [|x us IH]; intros cl k cl' o H; simpl in H.
  - injection H as <- <- <-. apply H0.
  - destruct (zmem x cl) eqn:E.
    + destruct (sift (remove1 x cl) us) as [[k1 c1] o1] eqn:E1. injection H as <- <- <-. auto.
    + destruct (sift cl us) as [[k1 c1] o1] eqn:E1. injection H as <- <- <-. auto.
Qed.

Lemma sift_spec : forall u us cl k cl' o,
  sift cl us = (k, cl', o) ->
  (cnt u k + n_cancel u o)%nat = cnt u us /\ n_fwd u o = 0%nat /\ n_fail u o = 0%nat
  /\ n_cancel u o = Nat.min (cnt u cl) (cnt u us) /\ (cnt u cl' + n_cancel u o)%nat = cnt u cl.
Proof.
  intros u. refine (sift_ind _ _ _ _).
  - intros cl. simpl. repeat split; try reflexivity; unfold n_cancel; simpl; lia.
  - intros cl x us k cl' o E [A [B [C [D F]]]]. pose proof (cnt_remove1 u x cl) as R. rewrite E, andb_true_r in R.
    unfold n_fwd, n_fail, n_cancel in *. simpl. destruct (x =? u); repeat split; lia.
  - intros cl x us k cl' o E [A [B [C [D F]]]]. simpl.
    destruct (x =? u) eqn:E2; [apply Z.eqb_eq in E2; subst x; rewrite zmem_cnt in E|]; repeat split; lia.
Qed.

Lemma sift_kept_incl : forall us cl k cl' o, sift cl us = (k, cl', o) -> forall x, In x k -> In x us.
Proof.
  refine (sift_ind _ _ _ _); [auto | |].
  - intros cl x us k cl' o _ IH y Hy. right. exact (IH y Hy).
  - intros cl x us k cl' o _ IH y [->|Hy]; [left; reflexivity | right; exact (IH y Hy)].
Qed.
