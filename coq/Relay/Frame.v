(* Raptor relay: tasks that a cancel request does not name are unaffected.
   What the relay shows about a uid u -- to which registered queue it is put
   and when, that it goes out by round robin, whether it fails, whether it is
   canceled, all normal scheduling traffic and all warnings -- is the same in
   the history with the request and in the history without it, and so is where
   u waits.  (Which queue the round robin picks for u is not part of the view:
   it goes by the position among the wildcard tasks of the drain, and a named
   task that is canceled in that drain does not take a position.) *)
From Coq Require Import ZArith List Bool Lia.
From RP Require Import Relay.Model Relay.Oracle Relay.Lemmas Relay.Proofs.
Import ListNotations.
Open Scope Z_scope.

Inductive uev :=
| EFwd (q : Z)            (* put to the registered queue q *)
| EFwdAny                 (* put to some queue by round robin *)
| EFail
| ECancel
| ESched (us : list Z)
| EWarn (n : Z).

Definition view1 (u : Z) (o : out) : list uev :=
  match o with
  | OPut q us => repeat (EFwd q) (cnt u us)
  | OPut1 q v => if v =? u then [EFwdAny] else []
  | OFail v => if v =? u then [EFail] else []
  | OCancel us => repeat ECancel (cnt u us)
  | OCancel1 v => if v =? u then [ECancel] else []
  | OSched us => [ESched us]
  | OWarn n => [EWarn n]
  end.
Definition view (u : Z) (e : list out) : list uev := flat_map (view1 u) e.

(* where u waits *)
Definition kcnt (u k : Z) (bl : list (Z * list Z)) : nat := cnt u (key_list k bl).
Definition sim (u : Z) (s1 s2 : state) : Prop :=
  inq s1 = inq s2 /\ queues s1 = queues s2 /\ gone s1 = gone s2
  /\ cnt u (clist s1) = cnt u (clist s2)
  /\ (forall k, kcnt u k (backlog s1) = kcnt u k (backlog s2))
  /\ tot u (backlog s1) = tot u (backlog s2).
(* the last two conjuncts of sim, of two backlogs alone; a hypothesis `sim ..`
   yields them as one conjunction, which is an `agree` by conversion *)
Definition agree (u : Z) (bl1 bl2 : list (Z * list Z)) : Prop :=
  (forall k, kcnt u k bl1 = kcnt u k bl2) /\ tot u bl1 = tot u bl2.

Lemma view_app : forall u a b, view u (a ++ b) = view u a ++ view u b.
Proof. intros; unfold view; apply flat_map_app. Qed.

Lemma repeat_add : forall {A} (x : A) a b, repeat x (a + b) = repeat x a ++ repeat x b.
Proof. intros A x a b; induction a as [|a IH]; simpl; [reflexivity | rewrite IH; reflexivity]. Qed.

Lemma view_map_OFail : forall u l, view u (map OFail l) = repeat EFail (cnt u l).
Proof.
  intros u l; induction l as [|x l IH]; simpl; [reflexivity|].
  unfold view in *. simpl. rewrite IH. destruct (x =? u); reflexivity.
Qed.

Lemma view_rr : forall u qids us i, view u (rr qids i us) = repeat EFwdAny (cnt u us).
Proof.
  intros u qids us; induction us as [|x us IH]; intros i; simpl; [reflexivity|].
  unfold view in *. simpl. rewrite IH. destruct (x =? u); reflexivity.
Qed.

Lemma view_sift : forall u us cl k cl' o, sift cl us = (k, cl', o) -> view u o = repeat ECancel (n_cancel u o).
Proof.
  intros u. refine (sift_ind _ _ _ _); [reflexivity | | auto].
  intros cl x us k cl' o _ IH. unfold view, n_cancel in *. simpl. rewrite IH. destruct (x =? u); reflexivity.
Qed.

Lemma view_puts : forall u q k bl, view u (puts q k bl) = repeat (EFwd q) (kcnt u k bl).
Proof.
  intros. unfold puts, kcnt, key_list. destruct (alook k bl); [unfold view; simpl; rewrite app_nil_r|]; reflexivity.
Qed.

Lemma kl_aext : forall k n us bl, key_list k (aext n us bl) = if n =? k then key_list k bl ++ us else key_list k bl.
Proof.
  intros k n us bl. unfold key_list, aext. rewrite alook_aset. destruct (n =? k) eqn:E; [|reflexivity].
  apply Z.eqb_eq in E; subst n. destruct (alook k bl); reflexivity.
Qed.

Lemma kl_adel : forall k n bl, NoDup (map fst bl) ->
  key_list k (adel n bl) = if n =? k then [] else key_list k bl.
Proof.
  intros k n bl Hd. unfold key_list. destruct (n =? k) eqn:E.
  - apply Z.eqb_eq in E; subst n. rewrite alook_adel_same by exact Hd. reflexivity.
  - rewrite alook_adel_other by lia. reflexivity.
Qed.

Lemma kl_unnamed : forall k us bl,
  key_list k (unnamed us bl) = filter (fun x => negb (zmem x us)) (key_list k bl).
Proof. intros k us bl. unfold key_list. rewrite unnamed_look. destruct (alook k bl); reflexivity. Qed.

Lemma cnt_unnamed : forall u us l,
  cnt u (filter (fun x => negb (zmem x us)) l) = if zmem u us then 0%nat else cnt u l.
Proof. intros u us l. rewrite cnt_filter. destruct (zmem u us); reflexivity. Qed.

Lemma agree_adel : forall u n bl1 bl2, NoDup (map fst bl1) -> NoDup (map fst bl2) ->
  agree u bl1 bl2 -> agree u (adel n bl1) (adel n bl2).
Proof.
  intros u n bl1 bl2 D1 D2 [Hk Ht]. split.
  - intros k. unfold kcnt. rewrite !kl_adel by assumption. destruct (n =? k); [reflexivity | apply Hk].
  - pose proof (tot_adel_kl u n bl1). pose proof (tot_adel_kl u n bl2). specialize (Hk n). unfold kcnt in Hk. lia.
Qed.

Lemma agree_unnamed : forall u us bl1 bl2, agree u bl1 bl2 -> agree u (unnamed us bl1) (unnamed us bl2).
Proof.
  intros u us bl1 bl2 [Hk Ht]. split.
  - intros k. unfold kcnt. rewrite !kl_unnamed, !cnt_unnamed. destruct (zmem u us); [reflexivity | apply Hk].
  - rewrite !tot_unnamed, Ht. reflexivity.
Qed.

(* one raptor name of a drain: where what is kept goes depends on the name, the
   registered queues and the gone names only, not on backlog or cancel list *)
Inductive decision := DPut (q : Z) | DRR | DFail | DCache.
Definition decide (qs : list (Z * Z)) (gn : list Z) (n : Z) : decision :=
  match alook n qs with
  | Some q => DPut q
  | None => if negb (is_nil qs) && (n =? star) then DRR else if zmem n gn then DFail else DCache
  end.
Definition dview (d : decision) (c : nat) : list uev :=
  match d with DPut q => repeat (EFwd q) c | DRR => repeat EFwdAny c | DFail => repeat EFail c | DCache => [] end.

Lemma placed_view : forall u qs gn bl n k bl' o, placed qs gn bl n k bl' o ->
  let d := decide qs gn n in
  view u o = dview d (cnt u k)
  /\ (forall j, kcnt u j bl' = (kcnt u j bl + if Z.eqb n j then match d with DCache => cnt u k | _ => 0 end else 0)%nat)
  /\ tot u bl' = (tot u bl + match d with DCache => cnt u k | _ => 0 end)%nat.
Proof.
  intros u qs gn bl n k bl' o P d. subst d.
  assert (Same : forall c, c = 0%nat ->
            (forall j, kcnt u j bl = (kcnt u j bl + if Z.eqb n j then c else 0)%nat) /\ tot u bl = (tot u bl + c)%nat).
  { intros c ->. split; [intros j; destruct (n =? j)|]; lia. }
  destruct P as [->|q Eq|Eq Er|Eq Er Eg|Eq Er Eg]; [|unfold decide; rewrite Eq, ?Er, ?Eg ..]; simpl.
  - (* nothing kept: whatever the decision, nothing is shown or cached *)
    destruct (decide qs gn n); (split; [reflexivity | apply Same; reflexivity]).
  - rewrite app_nil_r. split; [reflexivity | apply Same; reflexivity].
  - rewrite view_rr. split; [reflexivity | apply Same; reflexivity].
  - rewrite view_map_OFail. split; [reflexivity | apply Same; reflexivity].
  - split; [reflexivity|]. split; [|apply tot_aext].
    intros j. unfold kcnt. rewrite kl_aext. destruct (n =? j); rewrite ?cnt_app; lia.
Qed.

(* one group: sift spends cancel-list entries on u, what is left of u is placed *)
Lemma fwd_group_view : forall u qs gn bl cl n us bl' cl' o,
  fwd_group qs gn bl cl n us = (bl', cl', o) ->
  let c := (cnt u us - Nat.min (cnt u cl) (cnt u us))%nat in
  view u o = repeat ECancel (Nat.min (cnt u cl) (cnt u us)) ++ dview (decide qs gn n) c
  /\ (cnt u cl' + Nat.min (cnt u cl) (cnt u us))%nat = cnt u cl
  /\ (forall j, kcnt u j bl' = (kcnt u j bl + match decide qs gn n with DCache => if Z.eqb n j then c else 0 | _ => 0 end)%nat)
  /\ tot u bl' = (tot u bl + match decide qs gn n with DCache => c | _ => 0 end)%nat.
Proof.
  intros u qs gn bl cl n us bl' cl' o H c.
  destruct (fwd_group_cases _ _ _ _ _ _ _ _ _ H) as [k [o0 [o1 [Es [-> P]]]]].
  destruct (sift_spec u _ _ _ _ _ Es) as [A [_ [_ [D F]]]].
  pose proof (view_sift u _ _ _ _ _ Es) as V. rewrite D in V.
  replace c with (cnt u k) by (unfold c; lia).
  destruct (placed_view u _ _ _ _ _ _ _ P) as [V1 [K1 T1]].
  rewrite view_app, V, V1. repeat split; try assumption; [lia|].
  intros j. rewrite K1. destruct (decide qs gn n), (n =? j); reflexivity.
Qed.

Lemma fwd_group_sim : forall u qs gn n us bl1 cl1 bl2 cl2 bl1' cl1' o1 bl2' cl2' o2,
  cnt u cl1 = cnt u cl2 -> (forall k, kcnt u k bl1 = kcnt u k bl2) -> tot u bl1 = tot u bl2 ->
  fwd_group qs gn bl1 cl1 n us = (bl1', cl1', o1) -> fwd_group qs gn bl2 cl2 n us = (bl2', cl2', o2) ->
  cnt u cl1' = cnt u cl2' /\ (forall k, kcnt u k bl1' = kcnt u k bl2') /\ tot u bl1' = tot u bl2' /\ view u o1 = view u o2.
Proof.
  intros u qs gn n us bl1 cl1 bl2 cl2 bl1' cl1' o1 bl2' cl2' o2 Hc Hk Ht H1 H2.
  destruct (fwd_group_view u _ _ _ _ _ _ _ _ _ H1) as [V1 [C1 [K1 T1]]].
  destruct (fwd_group_view u _ _ _ _ _ _ _ _ _ H2) as [V2 [C2 [K2 T2]]].
  rewrite Hc in *. repeat split; try lia.
  - intros k. rewrite K1, K2, Hk. reflexivity.
  - rewrite V1, V2. reflexivity.
Qed.

Lemma fwd_groups_sim : forall u qs gn g bl1 cl1 bl2 cl2 bl1' cl1' o1 bl2' cl2' o2,
  cnt u cl1 = cnt u cl2 -> (forall k, kcnt u k bl1 = kcnt u k bl2) -> tot u bl1 = tot u bl2 ->
  fwd_groups qs gn bl1 cl1 g = (bl1', cl1', o1) -> fwd_groups qs gn bl2 cl2 g = (bl2', cl2', o2) ->
  cnt u cl1' = cnt u cl2' /\ (forall k, kcnt u k bl1' = kcnt u k bl2') /\ tot u bl1' = tot u bl2' /\ view u o1 = view u o2.
Proof.
  intros u qs gn g; induction g as [|[n us] g IH]; intros bl1 cl1 bl2 cl2 bl1' cl1' o1 bl2' cl2' o2 Hc Hk Ht H1 H2;
    simpl in H1, H2.
  - injection H1 as <- <- <-. injection H2 as <- <- <-. auto.
  - destruct (fwd_group qs gn bl1 cl1 n us) as [[a1 c1] x1] eqn:E1.
    destruct (fwd_group qs gn bl2 cl2 n us) as [[a2 c2] x2] eqn:E2.
    destruct (fwd_groups qs gn a1 c1 g) as [[b1 d1] y1] eqn:F1.
    destruct (fwd_groups qs gn a2 c2 g) as [[b2 d2] y2] eqn:F2.
    injection H1 as <- <- <-. injection H2 as <- <- <-.
    destruct (fwd_group_sim _ _ _ _ _ _ _ _ _ _ _ _ _ _ _ Hc Hk Ht E1 E2) as [A1 [A2 [A3 A4]]].
    destruct (IH _ _ _ _ _ _ _ _ _ _ A1 A2 A3 F1 F2) as [B1 [B2 [B3 B4]]].
    rewrite !view_app, A4, B4. auto.
Qed.

Lemma relay_key_view : forall u q k bl bl' o, NoDup (map fst bl) -> relay_key q k bl = (bl', o) ->
  view u o = repeat (EFwd q) (kcnt u k bl)
  /\ (forall j, kcnt u j bl' = if k =? j then 0%nat else kcnt u j bl)
  /\ (tot u bl' + kcnt u k bl)%nat = tot u bl /\ NoDup (map fst bl').
Proof.
  intros u q k bl bl' o Hd H. rewrite relay_key_eq in H. injection H as <- <-.
  split; [apply view_puts|]. split; [|split; [apply tot_adel_kl | apply keys_adel_nodup; exact Hd]].
  intros j. unfold kcnt. rewrite kl_adel by exact Hd. destruct (k =? j); reflexivity.
Qed.

Lemma step_sim : forall u o s1 s2 s1' e1 s2' e2,
  inv s1 -> inv s2 -> sim u s1 s2 -> step s1 o = (s1', e1) -> step s2 o = (s2', e2) ->
  sim u s1' s2' /\ view u e1 = view u e2.
Proof.
  intros u o s1 s2 s1' e1 s2' e2 [D1 _ _ _ _ _] [D2 _ _ _ _ _] [Hi [Hq [Hg [Hc A]]]] H1 H2.
  pose proof (step_cases _ _ _ _ H2) as S2.
  destruct (step_cases _ _ _ _ H1) as [b|b1 c1 o1 E1|n q|n|us]; inversion S2 as [|b2 c2 o2 E2| | |]; subst s2' e2; unfold sim; simpl.
  - rewrite Hi. auto 10.
  - rewrite <- Hi, <- Hq, <- Hg in E2.
    destruct (fwd_groups_sim _ _ _ _ _ _ _ _ _ _ _ _ _ _ Hc (proj1 A) (proj2 A) E1 E2) as [A1 [A2 [A3 A4]]].
    rewrite !view_app, A4, Hi. auto 10.
  - pose proof (agree_adel u n _ _ D1 D2 A) as A1.
    pose proof (agree_adel u star _ _ (keys_adel_nodup n _ D1) (keys_adel_nodup n _ D2) A1) as A2.
    rewrite !view_app, !view_puts, (proj1 A n), (proj1 A1 star), Hi, Hq, Hg. destruct A2. auto 10.
  - pose proof (proj1 A n) as Hn. unfold kcnt in Hn.
    rewrite !view_app, !view_map_OFail, Hn, Hi, Hq, Hg. destruct (agree_adel u n _ _ D1 D2 A). auto 10.
  - unfold view; simpl. rewrite !cnt_app, !cnt_taken, (proj2 A), Hi, Hq, Hg, Hc. destruct (agree_unnamed u us _ _ A). auto 10.
Qed.

Lemma run_sim : forall u ops s1 s2 s1' e1 s2' e2,
  inv s1 -> inv s2 -> sim u s1 s2 -> run s1 ops = (s1', e1) -> run s2 ops = (s2', e2) ->
  sim u s1' s2' /\ view u e1 = view u e2.
Proof.
  intros u ops; induction ops as [|o ops IH]; intros s1 s2 s1' e1 s2' e2 I1 I2 S H1 H2; simpl in H1, H2.
  - injection H1 as <- <-. injection H2 as <- <-. auto.
  - destruct (step s1 o) as [a1 x1] eqn:E1. destruct (step s2 o) as [a2 x2] eqn:E2.
    destruct (run a1 ops) as [b1 y1] eqn:F1. destruct (run a2 ops) as [b2 y2] eqn:F2.
    injection H1 as <- <-. injection H2 as <- <-.
    destruct (step_sim _ _ _ _ _ _ _ _ I1 I2 S E1 E2) as [A V1].
    destruct (IH _ _ _ _ _ _ (step_inv _ _ _ _ E1 I1) (step_inv _ _ _ _ E2 I2) A F1 F2) as [B V2].
    rewrite !view_app, V1, V2. auto.
Qed.

Lemma cancel_invisible : forall u us s s' e,
  ~ In u us -> step s (Cancel us) = (s', e) -> sim u s' s /\ view u e = [].
Proof.
  intros u us s s' e Hu H. simpl in H. rewrite cancel_eq in H. injection H as <- <-.
  pose proof (zmem_notin u us Hu) as Z0.
  unfold sim, view; simpl. rewrite cnt_app, cnt_taken, tot_unnamed, Z0, (cnt_zero_notin u us Hu).
  repeat split; auto. intros k. unfold kcnt. rewrite kl_unnamed, cnt_unnamed, Z0. reflexivity.
Qed.

(* THE frame theorem: for every history, a cancel request placed anywhere in
   it changes nothing of what the relay shows about a uid it does not name,
   and nothing of where that uid waits at the end *)
Theorem bystander_frame : forall ops1 us ops2 u s e s' e',
  ~ In u us ->
  run init (ops1 ++ Cancel us :: ops2) = (s, e) -> run init (ops1 ++ ops2) = (s', e') ->
  view u e = view u e' /\ sim u s s'.
Proof.
  intros ops1 us ops2 u s e s' e' Hu H H'.
  rewrite run_app in H, H'. destruct (run init ops1) as [s1 e1] eqn:E1. cbn [run] in H.
  destruct (step s1 (Cancel us)) as [s2 e2] eqn:E2.
  destruct (run s2 ops2) as [s3 e3] eqn:E3. destruct (run s1 ops2) as [s4 e4] eqn:E4.
  injection H as <- <-. injection H' as <- <-.
  destruct (cancel_invisible _ _ _ _ _ Hu E2) as [S V].
  pose proof (reachable_inv _ _ _ E1) as I1.
  destruct (run_sim _ _ _ _ _ _ _ _ (step_inv _ _ _ _ E2 I1) I1 S E3 E4) as [S' V'].
  rewrite !view_app, V, V'. auto.
Qed.

(* the counts of the conservation law are read off the view *)
Definition v_fwd (l : list uev) : nat := length (filter (fun x => match x with EFwd _ | EFwdAny => true | _ => false end) l).
Definition v_fail (l : list uev) : nat := length (filter (fun x => match x with EFail => true | _ => false end) l).
Definition v_cancel (l : list uev) : nat := length (filter (fun x => match x with ECancel => true | _ => false end) l).

Lemma filter_repeat : forall {A} (f : A -> bool) x n,
  length (filter f (repeat x n)) = if f x then n else 0%nat.
Proof.
  intros A f x n; induction n as [|n IH]; simpl; [destruct (f x); reflexivity|].
  destruct (f x) eqn:E; simpl; rewrite IH; reflexivity.
Qed.

Lemma counts_of_view : forall u e,
  v_fwd (view u e) = n_fwd u e /\ v_fail (view u e) = n_fail u e /\ v_cancel (view u e) = n_cancel u e.
Proof.
  intros u e; induction e as [|o e [I1 [I2 I3]]]; [auto|].
  unfold view, v_fwd, v_fail, v_cancel, n_fwd, n_fail, n_cancel in *. simpl.
  rewrite !filter_app, !app_length, I1, I2, I3.
  destruct o as [q us|q v|v|us|v|us|n]; simpl; rewrite ?filter_repeat; try (repeat split; lia);
    destruct (v =? u); simpl; repeat split; lia.
Qed.

Theorem bystander_same_counts : forall ops1 us ops2 u s e s' e',
  ~ In u us ->
  run init (ops1 ++ Cancel us :: ops2) = (s, e) -> run init (ops1 ++ ops2) = (s', e') ->
  n_fwd u e = n_fwd u e' /\ n_fail u e = n_fail u e' /\ n_cancel u e = n_cancel u e'
  /\ n_inq u s = n_inq u s' /\ tot u (backlog s) = tot u (backlog s').
Proof.
  intros ops1 us ops2 u s e s' e' Hu H H'.
  destruct (bystander_frame _ _ _ _ _ _ _ _ Hu H H') as [V [Si [_ [_ [_ [_ St]]]]]].
  destruct (counts_of_view u e) as [A1 [A2 A3]]. destruct (counts_of_view u e') as [B1 [B2 B3]].
  rewrite <- A1, <- A2, <- A3, V, B1, B2, B3. repeat split; try reflexivity; try exact St.
  unfold n_inq. rewrite Si. reflexivity.
Qed.
