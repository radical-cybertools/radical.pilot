(* Raptor relay, whole histories: a cancel request naming a raptor task that
   has arrived and is not yet forwarded stops it; nothing waits for a master
   that has gone, and a task that arrives for one is failed by the next drain;
   what still waits waits for a master never heard of, and keeps waiting. *)
From Coq Require Import ZArith List Bool Lia.
From RP Require Import Relay.Model Relay.Oracle Relay.Lemmas Relay.Proofs.
Import ListNotations.
Open Scope Z_scope.

(* from the three run hypotheses of the theorems below to the one history
   ops1 ++ Cancel us :: ops2 of Frame.bystander_frame; not used in this file *)
Lemma run_cancel_split : forall ops1 us ops2 s1 e1 s2 e2 s3 e3,
  run init ops1 = (s1, e1) -> step s1 (Cancel us) = (s2, e2) -> run s2 ops2 = (s3, e3) ->
  run init (ops1 ++ Cancel us :: ops2) = (s3, e1 ++ e2 ++ e3).
Proof.
  intros ops1 us ops2 s1 e1 s2 e2 s3 e3 H1 H2 H3.
  rewrite run_app, H1. cbn [run]. rewrite H2, H3. reflexivity.
Qed.

Lemma n_arr_cancel_mid : forall u ops1 us ops2,
  n_arr u (ops1 ++ Cancel us :: ops2) = n_arr u (ops1 ++ ops2).
Proof. intros. rewrite !n_arr_app, n_arr_cons. simpl. reflexivity. Qed.

Lemma cancel_names : forall u us s s' e, step s (Cancel us) = (s', e) -> In u us ->
  n_fwd u e = 0%nat /\ n_fail u e = 0%nat /\ n_cancel u e = tot u (backlog s)
  /\ tot u (backlog s') = 0%nat /\ n_inq u s' = n_inq u s /\ zmem u (clist s') = true.
Proof.
  intros u us s s' e H Hu. simpl in H. rewrite cancel_eq in H. injection H as <- <-.
  apply zmem_In in Hu. unfold n_fwd, n_fail, n_cancel. simpl.
  rewrite Nat.add_0_r, cnt_taken, tot_unnamed, zmem_app, Hu, orb_true_r. auto 6.
Qed.

(* a request naming a task that waits in a backlog: the task is canceled by
   that very request, exactly once, and is never forwarded or failed, and never
   waits again -- whatever happened before and whatever follows *)
Theorem cancel_stops_waiting_task : forall ops1 us ops2 u s1 e1 s2 e2 s3 e3,
  run init ops1 = (s1, e1) -> step s1 (Cancel us) = (s2, e2) -> run s2 ops2 = (s3, e3) ->
  In u us -> (n_arr u (ops1 ++ ops2) <= 1)%nat -> (0 < tot u (backlog s1))%nat ->
  n_cancel u e2 = 1%nat
  /\ n_fwd u (e1 ++ e2 ++ e3) = 0%nat /\ n_fail u (e1 ++ e2 ++ e3) = 0%nat
  /\ n_cancel u (e1 ++ e2 ++ e3) = 1%nat
  /\ waiting u s3 = 0%nat.
Proof.
  intros ops1 us ops2 u s1 e1 s2 e2 s3 e3 H1 H2 H3 Hu Hle Hw.
  pose proof (run_conserve u _ _ _ _ H1) as C1. pose proof (run_conserve u _ _ _ _ H3) as C3.
  destruct (cancel_names u _ _ _ _ H2 Hu) as [K1 [K2 [K3 [K4 [K5 _]]]]].
  rewrite n_arr_app in Hle. unfold waiting, ended in *. simpl in C1.
  rewrite !n_fwd_app, !n_fail_app, !n_cancel_app. lia.
Qed.

(* a request has overtaken the task: u is on the scheduler queue, in no
   backlog, and its uid is on the cancel list *)
Definition pend (u : Z) (s : state) : Prop :=
  n_inq u s = 1%nat /\ tot u (backlog s) = 0%nat /\ zmem u (clist s) = true.

Definition is_drain (o : op) : bool := match o with Drain => true | _ => false end.

Lemma step_keeps_queue : forall u s o s' e,
  step s o = (s', e) -> is_drain o = false ->
  n_inq u s' = (n_inq u s + t_arr u (arrivals o))%nat /\ (zmem u (clist s) = true -> zmem u (clist s') = true).
Proof.
  intros u s o s' e H. destruct (step_cases _ _ _ _ H) as [b|bl cl o E|n q|n|us]; intros Hd; try discriminate.
  - rewrite n_inq_arrive. auto.
  - unfold n_inq; simpl. auto.
  - unfold n_inq; simpl. auto.
  - unfold n_inq; simpl. split; [lia|]. intros Hz. rewrite zmem_app, Hz. reflexivity.
Qed.

Lemma pend_step : forall u s o s' e,
  pend u s -> step s o = (s', e) -> is_drain o = false -> t_arr u (arrivals o) = 0%nat ->
  pend u s' /\ ended u e = 0%nat.
Proof.
  intros u s o s' e [P1 [P2 P3]] H Hd Ha.
  destruct (step_keeps_queue u _ _ _ _ H Hd) as [Q1 Q2].
  pose proof (step_conserve u _ _ _ _ H) as C. unfold waiting in C. unfold pend. rewrite Q1.
  repeat split; try lia; try (apply Q2; exact P3).
Qed.

Lemma pend_drain : forall u s s' e,
  pend u s -> step s Drain = (s', e) ->
  n_cancel u e = 1%nat /\ n_fwd u e = 0%nat /\ n_fail u e = 0%nat /\ waiting u s' = 0%nat.
Proof.
  intros u s s' e [P1 [P2 P3]] H.
  pose proof (step_cases _ _ _ _ H) as S. inversion S as [|bl cl o E| | |]. subst s' e.
  destruct (drain_counts u _ _ _ _ E) as [A1 [A2 _]].
  rewrite zmem_cnt in P3. apply Nat.ltb_lt in P3.
  unfold ended in A1. unfold waiting, n_inq at 1. simpl. repeat split; lia.
Qed.

Lemma done_run : forall u ops s s' e,
  run s ops = (s', e) -> waiting u s = 0%nat -> n_arr u ops = 0%nat -> ended u e = 0%nat /\ waiting u s' = 0%nat.
Proof. intros u ops s s' e H Hw Ha. pose proof (run_conserve u _ _ _ _ H). lia. Qed.

Lemma pend_run : forall u ops s s' e,
  pend u s -> n_arr u ops = 0%nat -> run s ops = (s', e) ->
  (pend u s' /\ ended u e = 0%nat /\ existsb is_drain ops = false)
  \/ (n_cancel u e = 1%nat /\ n_fwd u e = 0%nat /\ n_fail u e = 0%nat /\ waiting u s' = 0%nat).
Proof.
  intros u ops s s' e P Ha H. revert P Ha. revert ops s s' e H. refine (run_ind _ _ _).
  - left. auto.
  - intros s o s1 o1 ops s2 o2 E1 E2 IH P Ha. rewrite n_arr_cons in Ha.
    destruct (is_drain o) eqn:Ed.
    + destruct o; try discriminate. destruct (pend_drain u _ _ _ P E1) as [D1 [D2 [D3 D4]]].
      destruct (done_run u _ _ _ _ E2 D4 ltac:(lia)) as [F1 F2]. unfold ended in F1.
      right. rewrite n_cancel_app, n_fwd_app, n_fail_app. repeat split; lia.
    + destruct (pend_step u _ _ _ _ P E1 Ed ltac:(lia)) as [P1 Z1].
      destruct (IH P1 ltac:(lia)) as [[Q1 [Q2 Q3]]|[Q1 [Q2 [Q3 Q4]]]].
      * left. rewrite ended_app. simpl. rewrite Ed. simpl. split; [exact Q1 | split; [lia | exact Q3]].
      * right. unfold ended in Z1. rewrite n_cancel_app, n_fwd_app, n_fail_app. repeat split; lia.
Qed.

(* C08 at the relay: a request naming a raptor task that has arrived -- it is on
   the scheduler queue or in a backlog -- and that has not been forwarded (nor
   failed or canceled) stops it: whatever preceded and whatever follows, the
   task is never forwarded and never failed, and it is canceled exactly once --
   by the request itself when it waits in a backlog, by the drain that meets it
   when it is still on the scheduler queue; until that drain it stays on the
   queue with its uid on the cancel list.  (cancel_stops_waiting_task is the
   case 0 < tot u (backlog s1), proved on its own.) *)
Theorem cancel_stops_arrived_task : forall ops1 us ops2 u s1 e1 s2 e2 s3 e3,
  run init ops1 = (s1, e1) -> step s1 (Cancel us) = (s2, e2) -> run s2 ops2 = (s3, e3) ->
  In u us -> n_arr u ops1 = 1%nat -> n_arr u ops2 = 0%nat -> ended u e1 = 0%nat ->
  let e := e1 ++ e2 ++ e3 in
  n_fwd u e = 0%nat /\ n_fail u e = 0%nat /\
  ((n_cancel u e = 1%nat /\ waiting u s3 = 0%nat)
   \/ (n_cancel u e = 0%nat /\ pend u s3 /\ existsb is_drain ops2 = false)).
Proof.
  intros ops1 us ops2 u s1 e1 s2 e2 s3 e3 H1 H2 H3 Hu Ha1 Ha2 He1 e. subst e.
  pose proof (run_conserve u _ _ _ _ H1) as C1. unfold waiting, ended in C1. simpl in C1.
  destruct (cancel_names u _ _ _ _ H2 Hu) as [K1 [K2 [K3 [K4 [K5 K6]]]]].
  unfold ended in He1. rewrite !n_fwd_app, !n_fail_app, !n_cancel_app, K1, K2, K3.
  destruct (Nat.eq_dec (tot u (backlog s1)) 0) as [Hb0|Hb1].
  - assert (P : pend u s2) by (unfold pend; repeat split; [lia | exact K4 | exact K6]).
    destruct (pend_run u _ _ _ _ P Ha2 H3) as [[Q1 [Q2 Q3]]|[Q1 [Q2 [Q3 Q4]]]].
    + unfold ended in Q2. split; [lia|]. split; [lia|]. right. split; [lia | split; [exact Q1 | exact Q3]].
    + split; [lia|]. split; [lia|]. left. split; lia.
  - assert (W2 : waiting u s2 = 0%nat) by (unfold waiting; lia).
    destruct (done_run u _ _ _ _ H3 W2 Ha2) as [F1 F2]. unfold ended in F1.
    split; [lia|]. split; [lia|]. left. split; lia.
Qed.

(* ... and some drain does meet it: if the history goes on with a drain, the
   task has been canceled exactly once *)
Theorem cancel_stops_arrived_task_drained : forall ops1 us ops2 u s1 e1 s2 e2 s3 e3,
  run init ops1 = (s1, e1) -> step s1 (Cancel us) = (s2, e2) -> run s2 ops2 = (s3, e3) ->
  In u us -> n_arr u ops1 = 1%nat -> n_arr u ops2 = 0%nat -> ended u e1 = 0%nat ->
  existsb is_drain ops2 = true ->
  n_cancel u (e1 ++ e2 ++ e3) = 1%nat /\ n_fwd u (e1 ++ e2 ++ e3) = 0%nat /\ n_fail u (e1 ++ e2 ++ e3) = 0%nat
  /\ waiting u s3 = 0%nat.
Proof.
  intros ops1 us ops2 u s1 e1 s2 e2 s3 e3 H1 H2 H3 Hu Ha1 Ha2 He1 Hd.
  destruct (cancel_stops_arrived_task _ _ _ _ _ _ _ _ _ _ H1 H2 H3 Hu Ha1 Ha2 He1) as [A [B [[C D]|[_ [_ F]]]]].
  - auto.
  - congruence.
Qed.

(* the last registration event of name n in the history is an unregistration
   (g: what holds before it); Oracle.hist_gone is the same as a list of names *)
Fixpoint gone_hist (n : Z) (ops : list op) (g : bool) : bool :=
  match ops with
  | [] => g
  | Register m _ :: r => gone_hist n r (if m =? n then false else g)
  | Unregister m :: r => gone_hist n r (if m =? n then true else g)
  | _ :: r => gone_hist n r g
  end.

Lemma bool_iff_eq : forall a b : bool, (a = true <-> b = true) -> a = b.
Proof. exact eq_true_iff_eq. Qed.

Lemma zmem_gadd : forall n m g, zmem n (gadd m g) = (m =? n) || zmem n g.
Proof.
  intros n m g. apply bool_iff_eq. rewrite orb_true_iff, !zmem_In, In_gadd, Z.eqb_eq.
  split; intros [H|H]; auto.
Qed.

Lemma zmem_gdel : forall n m g, zmem n (gdel m g) = negb (m =? n) && zmem n g.
Proof.
  intros n m g. apply bool_iff_eq. rewrite andb_true_iff, negb_true_iff, !zmem_In, In_gdel, Z.eqb_neq.
  split; intros [H1 H2]; split; auto.
Qed.

(* with hg = [] the left side speaks of Oracle.hist_gone ops: the harness's list of gone names and
   gone_hist are the same reading of a history *)
Lemma gone_hist_fold : forall n ops hg, zmem n (fold_left gone_after ops hg) = gone_hist n ops (zmem n hg).
Proof.
  intros n ops; induction ops as [|o ops IH]; intros hg; simpl; [reflexivity|].
  rewrite IH. destruct o as [b| |m q|m|us]; simpl; rewrite ?zmem_gdel, ?zmem_gadd; try destruct (m =? n); reflexivity.
Qed.

Lemma run_gone_list : forall ops s s' e, run s ops = (s', e) -> gone s' = fold_left gone_after ops (gone s).
Proof.
  refine (run_ind _ _ _); [reflexivity|].
  intros s o s1 e1 ops s2 e2 E1 _ IH. rewrite IH, (gone_after_step _ _ _ _ E1). reflexivity.
Qed.

Lemma step_gone : forall n s o s' e, step s o = (s', e) ->
  zmem n (gone s') = match o with
                     | Register m _ => if m =? n then false else zmem n (gone s)
                     | Unregister m => if m =? n then true else zmem n (gone s)
                     | _ => zmem n (gone s)
                     end.
Proof.
  intros n s o s' e H. rewrite (gone_after_step _ _ _ _ H). pose proof (gone_hist_fold n [o] (gone s)) as G. destruct o; exact G.
Qed.

Lemma run_gone : forall n ops s s' e, run s ops = (s', e) -> zmem n (gone s') = gone_hist n ops (zmem n (gone s)).
Proof. intros n ops s s' e H. rewrite (run_gone_list _ _ _ _ H). apply gone_hist_fold. Qed.

(* C05 at the relay: for every history, nothing waits for a master that has
   unregistered (and that master is not registered) *)
Theorem no_wait_for_gone_master : forall ops n s e,
  run init ops = (s, e) -> gone_hist n ops false = true -> absent n (backlog s) /\ absent n (queues s).
Proof.
  intros ops n s e H Hg. pose proof (run_gone n _ _ _ _ H) as G. simpl in G. rewrite Hg in G.
  apply zmem_In in G. destruct (reachable_inv _ _ _ H) as [_ _ _ _ Hb Hq]. auto.
Qed.

(* a drain sorts the raptor tasks by name: what it handles under name n is the
   raptor tasks for n on the scheduler queue, in order *)
Definition for_name (n : Z) (ts : list task) : list Z :=
  flat_map (fun t => match relayed t with Some m => if m =? n then [t_uid t] else [] | None => [] end) ts.
Definition merge (a : option (list Z)) (l : list Z) : option (list Z) :=
  match a, l with
  | None, [] => None
  | None, _ => Some l
  | Some x, _ => Some (x ++ l)
  end.

Lemma collect_look_gen : forall n ts g,
  alook n (fold_left (fun g t => match relayed t with Some m => aext m [t_uid t] g | None => g end) ts g)
  = merge (alook n g) (for_name n ts).
Proof.
  intros n ts; induction ts as [|t ts IH]; intros g; simpl.
  - destruct (alook n g); simpl; [rewrite app_nil_r|]; reflexivity.
  - rewrite IH. unfold for_name. simpl. fold (for_name n ts). destruct (relayed t) as [m|]; [|reflexivity].
    unfold aext. rewrite alook_aset. destruct (m =? n) eqn:E.
    + apply Z.eqb_eq in E; subst m. destruct (alook n g); simpl; [rewrite <- app_assoc|]; reflexivity.
    + reflexivity.
Qed.

Theorem drain_sorts_by_name : forall n ts,
  alook n (collect ts) = match for_name n ts with [] => None | l => Some l end.
Proof. intros. unfold collect. rewrite collect_look_gen. simpl. destruct (for_name n ts); reflexivity. Qed.

(* the tasks a drain has collected for a master that has unregistered (which is
   then not registered; for the wildcard: while no queue is registered) are
   failed -- those that a cancel request named are canceled instead -- and
   nothing is kept for it *)
Theorem gone_group_fails : forall qs gn bl cl n us,
  alook n qs = None -> zmem n gn = true -> (is_nil qs || negb (n =? star)) = true ->
  fwd_group qs gn bl cl n us = let '(k, cl', o0) := sift cl us in (bl, cl', o0 ++ map OFail k).
Proof.
  intros qs gn bl cl n us Hq Hg Hs. unfold fwd_group. destruct (sift cl us) as [[k cl'] o0].
  destruct (is_nil k) eqn:Ek.
  - destruct k; [|discriminate]. simpl. rewrite app_nil_r. reflexivity.
  - rewrite Hq, Hg. destruct (negb (is_nil qs) && (n =? star)) eqn:E; [|reflexivity].
    apply andb_true_iff in E. destruct E as [E1 E2]. rewrite E2 in Hs. destruct (is_nil qs); discriminate.
Qed.

(* what still waits waits for a master that has never registered nor
   unregistered (for the wildcard: that name 0 itself never did; that no queue
   is registered meanwhile is inv_star) *)
Definition touched (n : Z) (ops : list op) : bool :=
  existsb (fun o => match o with Register m _ | Unregister m => m =? n | _ => false end) ops.
Definition known (n : Z) (s : state) : Prop := alook n (queues s) <> None \/ In n (gone s).

Lemma step_known : forall n s o s' e, step s o = (s', e) ->
  known n s \/ (match o with Register m _ | Unregister m => m =? n | _ => false end) = true -> known n s'.
Proof.
  intros n s o s' e H. unfold known.
  destruct (step_cases _ _ _ _ H) as [b|bl cl o E|m q|m|us]; simpl; intros K;
    try (destruct K as [K|K]; [exact K | discriminate]).
  - rewrite alook_aset. destruct (m =? n) eqn:E; [left; congruence|].
    destruct K as [[K|K]|K]; [left; exact K | right; apply In_gdel; split; [lia | exact K] | discriminate].
  - rewrite In_gadd. destruct (m =? n) eqn:E; [right; left; lia|]. rewrite alook_adel_other by lia.
    destruct K as [[K|K]|K]; [left; exact K | right; right; exact K | discriminate].
Qed.

Lemma run_known : forall n ops s s' e, run s ops = (s', e) -> known n s \/ touched n ops = true -> known n s'.
Proof.
  intros n. refine (run_ind _ _ _).
  - intros s [K|K]; [exact K | discriminate].
  - intros s o s1 e1 ops s2 e2 E1 _ IH K. apply IH. unfold touched in K. simpl in K. rewrite orb_true_iff in K.
    destruct K as [K|[K|K]]; [left; eapply step_known; eauto | left; eapply step_known; eauto | right; exact K].
Qed.

Theorem waits_only_for_unknown_master : forall ops n s e,
  run init ops = (s, e) -> alook n (backlog s) <> None -> touched n ops = false.
Proof.
  intros ops n s e H Hw. destruct (touched n ops) eqn:T; [|reflexivity]. exfalso. apply Hw.
  destruct (run_known n _ _ _ _ H (or_intror T)) as [K|K];
    destruct (reachable_inv _ _ _ H) as [_ _ Hr _ Hgb _]; [apply Hr; exact K | apply Hgb; exact K].
Qed.

(* such a task keeps waiting: as long as the name is not registered or
   unregistered and no request names it, a task in the backlog of a name other
   than the wildcard stays in that backlog -- whatever else arrives, is drained,
   registers or unregisters.  This is the part of "reaches a final state" which
   the relay leaves to the application: the master it named has to come. *)
Definition leaves_alone (n : Z) (o : op) : bool :=
  match o with
  | Arrive _ | Drain => true
  | Register m _ | Unregister m => negb (m =? n)
  | Cancel _ => false
  end.

(* what is under name n stays, with more behind it at most: what the _keeps
   lemmas and waits_until_registered_again conclude, written out there *)
Definition grows (n : Z) (bl bl' : list (Z * list Z)) : Prop :=
  forall l, alook n bl = Some l -> exists l', alook n bl' = Some (l ++ l').

Lemma grows_same : forall n bl bl', alook n bl' = alook n bl -> grows n bl bl'.
Proof. intros n bl bl' E l Hl. exists []. rewrite app_nil_r, E. exact Hl. Qed.

Lemma grows_trans : forall n a b c, grows n a b -> grows n b c -> grows n a c.
Proof.
  intros n a b c H1 H2 l Hl. destruct (H1 l Hl) as [l1 E1]. destruct (H2 _ E1) as [l2 E2].
  exists (l1 ++ l2). rewrite app_assoc. exact E2.
Qed.

Lemma fwd_group_keeps : forall qs gn bl cl k us bl' cl' o n l,
  fwd_group qs gn bl cl k us = (bl', cl', o) -> alook n bl = Some l -> exists l', alook n bl' = Some (l ++ l').
Proof.
  intros qs gn bl cl k us bl' cl' o n l H. revert l.
  destruct (fwd_group_cases _ _ _ _ _ _ _ _ _ H) as [kept [o0 [o1 [_ [_ P]]]]].
  destruct P; try (apply grows_same; reflexivity).
  destruct (Z.eq_dec n k) as [->|Hn]; [|apply grows_same, alook_aext_other; exact Hn].
  intros l Hl. exists kept. unfold aext. rewrite alook_aset, Z.eqb_refl, Hl. reflexivity.
Qed.

Lemma fwd_groups_keeps : forall qs gn g bl cl bl' cl' o n l,
  fwd_groups qs gn bl cl g = (bl', cl', o) -> alook n bl = Some l -> exists l', alook n bl' = Some (l ++ l').
Proof.
  intros qs gn g bl cl bl' cl' o n l H. revert g bl cl bl' cl' o H l. refine (fwd_groups_ind _ _ _ _ _).
  - intros bl cl. apply grows_same. reflexivity.
  - intros bl cl k us g bl1 cl1 o1 bl2 cl2 o2 E1 IH.
    exact (grows_trans _ _ _ _ (fun l => fwd_group_keeps _ _ _ _ _ _ _ _ _ n l E1) IH).
Qed.

Lemma step_keeps : forall s o s' e n l,
  step s o = (s', e) -> leaves_alone n o = true -> n <> star -> alook n (backlog s) = Some l ->
  exists l', alook n (backlog s') = Some (l ++ l').
Proof.
  intros s o s' e n l H Ho Hn. revert Ho l.
  destruct (step_cases _ _ _ _ H) as [b|bl cl o E|m q|m|us]; simpl; intros Ho.
  - apply grows_same. reflexivity.
  - exact (fun l => fwd_groups_keeps _ _ _ _ _ _ _ _ n l E).
  - apply grows_same. rewrite !alook_adel_other by lia. reflexivity.
  - apply grows_same. rewrite alook_adel_other by lia. reflexivity.
  - discriminate.
Qed.

Theorem waits_until_registered_again : forall ops s s' e n l,
  run s ops = (s', e) -> forallb (leaves_alone n) ops = true -> n <> star ->
  alook n (backlog s) = Some l -> exists l', alook n (backlog s') = Some (l ++ l').
Proof.
  intros ops s s' e n l H Ha Hn. revert ops s s' e H n Ha Hn l. refine (run_ind _ _ _).
  - intros s n _ _. apply grows_same. reflexivity.
  - intros s o s1 e1 ops s2 e2 E1 _ IH n Ha Hn. simpl in Ha. apply andb_true_iff in Ha. destruct Ha as [Ha1 Ha2].
    exact (grows_trans _ _ _ _ (fun l => step_keeps _ _ _ _ n l E1 Ha1 Hn) (IH n Ha2 Hn)).
Qed.

(* the state theorems of Proofs.v at the end of a history, inv and absent
   written out: the forms Props/C05 states *)
Theorem reachable_spec : forall ops s e, run init ops = (s, e) ->
  NoDup (map fst (backlog s)) /\ NoDup (map fst (queues s)) /\
  (forall n, alook n (queues s) <> None -> alook n (backlog s) = None) /\
  (queues s <> [] -> alook star (backlog s) = None) /\
  (forall n, In n (gone s) -> alook n (backlog s) = None /\ alook n (queues s) = None).
Proof.
  intros ops s e H. destruct (reachable_inv ops s e H) as [A B C D E F].
  exact (conj A (conj B (conj C (conj D (fun n Hn => conj (E n Hn) (F n Hn)))))).
Qed.

Theorem register_relays_all_hist : forall ops s0 e0 n q, run init ops = (s0, e0) ->
  let '(s', e) := step s0 (Register n q) in
  e = (match alook n (backlog s0) with Some l => [OPut q l] | None => [] end)
      ++ (if n =? star then [] else match alook star (backlog s0) with Some l => [OPut q l] | None => [] end)
  /\ backlog s' = without [n; star] (backlog s0)
  /\ alook n (backlog s') = None /\ alook star (backlog s') = None
  /\ (forall k, k <> n -> k <> star -> alook k (backlog s') = alook k (backlog s0))
  /\ inq s' = inq s0 /\ alook n (queues s') = Some q
  /\ gone s' = gdel n (gone s0) /\ clist s' = clist s0.
Proof. intros ops s0 e0 n q H. exact (register_relays_all s0 n q (reachable_inv ops s0 e0 H)). Qed.

Theorem unregister_fails_exactly_hist : forall ops s0 e0 n, run init ops = (s0, e0) ->
  let '(s', e) := step s0 (Unregister n) in
  e = (match alook n (queues s0) with None => [OWarn n] | Some _ => [] end) ++ map OFail (key_list n (backlog s0))
  /\ backlog s' = without [n] (backlog s0) /\ queues s' = without [n] (queues s0)
  /\ alook n (backlog s') = None /\ alook n (queues s') = None
  /\ (forall k, k <> n -> alook k (backlog s') = alook k (backlog s0))
  /\ inq s' = inq s0 /\ gone s' = gadd n (gone s0) /\ clist s' = clist s0.
Proof. intros ops s0 e0 n H. exact (unregister_fails_exactly s0 n (reachable_inv ops s0 e0 H)). Qed.
