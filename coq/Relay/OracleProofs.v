(* Raptor relay: every clause the harness evaluates on traces of the real code
   is true of the model's own trace, for every history. *)
From Coq Require Import ZArith List Bool Lia.
From RP Require Import Common.Eqb Relay.Model Relay.Oracle Relay.Lemmas Relay.Proofs Relay.History.
Import ListNotations.
Open Scope Z_scope.

Lemma eqb_list_refl : forall {A} (e : A -> A -> bool), (forall x, e x x = true) -> forall l, eqb_list e l l = true.
Proof. exact @Eqb.eqb_list_refl. Qed.

Lemma zl_eqb_refl : forall l, zl_eqb l l = true.
Proof. apply eqb_list_refl. apply Z.eqb_refl. Qed.

Lemma task_eqb_refl : forall t, task_eqb t t = true.
Proof.
  intros [u r s w]. unfold task_eqb; simpl. rewrite Z.eqb_refl, !eqb_reflx.
  destruct r; simpl; [rewrite Z.eqb_refl|]; reflexivity.
Qed.

Lemma inq_eqb_refl : forall l, inq_eqb l l = true.
Proof. apply eqb_list_refl. apply eqb_list_refl. apply task_eqb_refl. Qed.

Lemma qs_eqb_refl : forall l, qs_eqb l l = true.
Proof. apply eqb_list_refl, eqb_prod_refl; apply Z.eqb_refl. Qed.

Lemma bl_eqb_refl : forall l, bl_eqb l l = true.
Proof. apply eqb_list_refl, eqb_prod_refl; [apply Z.eqb_refl | apply zl_eqb_refl]. Qed.

Lemma out_eqb_refl : forall o, out_eqb o o = true.
Proof. intros [q us|q v|v|us|v|us|n]; simpl; rewrite ?Z.eqb_refl, ?zl_eqb_refl; reflexivity. Qed.

Lemma outs_eqb_refl : forall l, outs_eqb l l = true.
Proof. apply eqb_list_refl. apply out_eqb_refl. Qed.

Lemma set_eqb_refl : forall l, set_eqb l l = true.
Proof.
  intros l. unfold set_eqb. assert (forallb (fun x => zmem x l) l = true).
  { apply forallb_forall. intros x Hx. apply zmem_In. exact Hx. }
  rewrite H. reflexivity.
Qed.

Lemma state_eqb_refl : forall s, state_eqb s s = true.
Proof.
  intros s. unfold state_eqb. rewrite inq_eqb_refl, qs_eqb_refl, bl_eqb_refl, zl_eqb_refl, set_eqb_refl. reflexivity.
Qed.

Lemma obs_eqb_refl : forall l, obs_eqb l l = true.
Proof. apply eqb_list_refl, eqb_prod_refl; [apply outs_eqb_refl | apply state_eqb_refl]. Qed.

Definition good (s : state) (arr : list task) (acc : list out) : Prop :=
  inv s /\ forall u, t_arr u arr = places u s acc.

Lemma good_init : good init [] [].
Proof. split; [exact inv_init | intros u; reflexivity]. Qed.

Lemma good_step : forall s arr acc o s' e,
  good s arr acc -> step s o = (s', e) -> good s' (arr ++ arrivals o) (acc ++ e).
Proof.
  intros s arr acc o s' e [Hi Hc] H. split; [eapply step_inv; eauto|].
  intros u. specialize (Hc u). pose proof (step_conserve u _ _ _ _ H) as C.
  rewrite t_arr_app, places_split in *. rewrite ended_app. lia.
Qed.

(* a clause passes at every operation from a good state; walk_model and the
   *_ok lemmas write it out *)
Definition holds (c : chk) : Prop :=
  forall s arr acc o s' e, good s arr acc -> step s o = (s', e) -> c (gone s) s arr acc o e s' = true.

Lemma walk_model : forall (c : chk),
  (forall s arr acc o s' e, good s arr acc -> step s o = (s', e) -> c (gone s) s arr acc o e s' = true) ->
  forall ops s arr acc, good s arr acc -> walk c (gone s) s arr acc ops (trace s ops) = true.
Proof.
  intros c Hc ops; induction ops as [|o ops IH]; intros s arr acc G; simpl; [reflexivity|].
  destruct (step s o) as [s1 o1] eqn:E. simpl.
  rewrite (Hc _ _ _ _ _ _ G E). simpl. rewrite <- (gone_after_step _ _ _ _ E). apply IH. eapply good_step; eauto.
Qed.

Lemma place_ok : forall s arr acc o s' e, good s arr acc -> step s o = (s', e) -> chk_place (gone s) s arr acc o e s' = true.
Proof.
  intros s arr acc o s' e G H. destruct (good_step _ _ _ _ _ _ G H) as [_ C].
  unfold chk_place. apply forallb_forall. intros u _. apply Nat.eqb_eq. apply C.
Qed.

Lemma fwd_once_ok : forall s arr acc o s' e, good s arr acc -> step s o = (s', e) -> chk_fwd_once (gone s) s arr acc o e s' = true.
Proof.
  intros s arr acc o s' e G H. destruct (good_step _ _ _ _ _ _ G H) as [_ C].
  unfold chk_fwd_once. apply forallb_forall. intros u _. apply Nat.leb_le.
  specialize (C u). unfold places in C. lia.
Qed.

Lemma final_ok : forall s arr acc o s' e, good s arr acc -> step s o = (s', e) -> chk_final (gone s) s arr acc o e s' = true.
Proof.
  intros s arr acc o s' e G H. destruct (good_step _ _ _ _ _ _ G H) as [_ C].
  unfold chk_final. apply forallb_forall. intros u _. specialize (C u). unfold places in C.
  destruct (t_arr u (arr ++ arrivals o) <=? 1)%nat eqn:E; [|reflexivity].
  apply Nat.leb_le in E. apply andb_true_iff. split.
  - apply negb_true_iff. apply andb_false_iff.
    destruct (0 <? n_fwd u (acc ++ e))%nat eqn:E1; [right | left; reflexivity].
    apply Nat.ltb_lt in E1. apply Nat.ltb_ge. lia.
  - apply Nat.leb_le. lia.
Qed.

Lemma cancel_ok : forall s arr acc o s' e, good s arr acc -> step s o = (s', e) -> chk_cancel (gone s) s arr acc o e s' = true.
Proof.
  intros s arr acc o s' e G H. destruct o as [b| |n q|n|us]; try reflexivity.
  unfold chk_cancel. apply andb_true_iff. split.
  - apply forallb_forall. intros u Hu. destruct (cancel_names u _ _ _ _ H Hu) as [_ [_ [K3 [K4 _]]]].
    rewrite K3, K4, !Nat.eqb_refl. reflexivity.
  - simpl in H. rewrite cancel_eq in H. injection H as <- <-. apply zl_eqb_refl.
Qed.

Lemma bystander_ok : forall s arr acc o s' e, good s arr acc -> step s o = (s', e) -> chk_bystander (gone s) s arr acc o e s' = true.
Proof.
  intros s arr acc o s' e G H. destruct o as [b| |n q|n|us]; try reflexivity.
  simpl in H. rewrite cancel_eq in H. injection H as <- <-.
  unfold chk_bystander. simpl. rewrite inq_eqb_refl, qs_eqb_refl, bl_eqb_refl, set_eqb_refl. simpl.
  rewrite andb_true_r. apply forallb_forall. intros u Hu. apply zmem_In. exact (taken_named _ _ _ Hu).
Qed.

Lemma register_ok : forall s arr acc o s' e, good s arr acc -> step s o = (s', e) -> chk_register (gone s) s arr acc o e s' = true.
Proof.
  intros s arr acc o s' e [Hi _] H. destruct o as [b| |n q|n|us]; try reflexivity.
  pose proof (register_relays_all s n q Hi) as K. rewrite H in K.
  destruct K as [He [Hb [_ [_ [_ [Hq [Hl [Hg _]]]]]]]].
  unfold chk_register. rewrite Hb, Hq, Hl, Hg, bl_eqb_refl, inq_eqb_refl, zmem_gdel. simpl. rewrite Z.eqb_refl.
  simpl. rewrite !andb_true_r. subst e. unfold key_list.
  destruct (alook n (backlog s)) as [l1|]; destruct (n =? star);
    try (destruct (alook star (backlog s)) as [l2|]); simpl;
    rewrite ?Z.eqb_refl, ?app_nil_r, ?zl_eqb_refl; reflexivity.
Qed.

Lemma filter_nowarn_fail : forall l, filter (fun x => match x with OWarn _ => false | _ => true end) (map OFail l) = map OFail l.
Proof. intros l; induction l as [|x l IH]; simpl; [reflexivity | rewrite IH; reflexivity]. Qed.

Lemma unregister_ok : forall s arr acc o s' e, good s arr acc -> step s o = (s', e) -> chk_unregister (gone s) s arr acc o e s' = true.
Proof.
  intros s arr acc o s' e [Hi _] H. destruct o as [b| |n q|n|us]; try reflexivity.
  pose proof (unregister_fails_exactly s n Hi) as K. rewrite H in K.
  destruct K as [He [Hb [Hq [_ [_ [_ [Hinq [Hg _]]]]]]]].
  unfold chk_unregister. rewrite Hb, Hq, Hinq, Hg, bl_eqb_refl, qs_eqb_refl, inq_eqb_refl, zmem_gadd, Z.eqb_refl. subst e.
  rewrite filter_app, filter_nowarn_fail.
  destruct (alook n (queues s)); simpl; rewrite outs_eqb_refl; reflexivity.
Qed.

(* the uids a list of effects hands to the normal scheduling path, as chk_sched reads them off a drain *)
Definition scheds (o : list out) : list Z := flat_map (fun x => match x with OSched us => us | _ => [] end) o.

Lemma rr_no_sched : forall qids us i,
  flat_map (fun x => match x with OSched us => us | _ => [] end) (rr qids i us) = [].
Proof. intros qids us; induction us as [|x us IH]; intros i; simpl; [reflexivity | apply IH]. Qed.

Lemma scheds_app : forall a b, scheds (a ++ b) = scheds a ++ scheds b.
Proof. intros. apply flat_map_app. Qed.

Lemma sift_no_sched : forall us cl k cl' o, sift cl us = (k, cl', o) -> scheds o = [].
Proof. refine (sift_ind _ _ _ _); auto. Qed.

Lemma scheds_map_OFail : forall l, scheds (map OFail l) = [].
Proof. intros l; induction l as [|x l IH]; simpl; [reflexivity | exact IH]. Qed.

Lemma fwd_groups_no_sched : forall qs gn g bl cl bl' cl' o,
  fwd_groups qs gn bl cl g = (bl', cl', o) -> scheds o = [].
Proof.
  intros qs gn. refine (fwd_groups_ind _ _ _ _ _); [reflexivity|].
  intros bl cl n us g bl1 cl1 o1 bl2 cl2 o2 E1 IH.
    destruct (fwd_group_cases _ _ _ _ _ _ _ _ _ E1) as [k [o0 [o1' [Es [-> P]]]]].
    rewrite !scheds_app, IH, (sift_no_sched _ _ _ _ _ Es), app_nil_r.
    destruct P; try reflexivity; [apply rr_no_sched | apply scheds_map_OFail].
Qed.

Lemma no_sched_map_OFail : forall l, forallb (fun x => match x with OSched _ => false | _ => true end) (map OFail l) = true.
Proof. intros l; induction l as [|x l IH]; simpl; [reflexivity | exact IH]. Qed.

Lemma sched_ok : forall s arr acc o s' e, good s arr acc -> step s o = (s', e) -> chk_sched (gone s) s arr acc o e s' = true.
Proof.
  intros s arr acc o s' e _ H. unfold chk_sched.
  destruct (step_cases _ _ _ _ H) as [b|bl cl o E|n q|n|us]; simpl; try reflexivity.
  - fold (scheds (o ++ sched_tail (concat (inq s)))). rewrite qs_eqb_refl, andb_true_r, scheds_app, (fwd_groups_no_sched _ _ _ _ _ _ _ _ E).
    unfold sched_tail. destruct (normal (concat (inq s))) eqn:En; simpl; [reflexivity|].
    rewrite app_nil_r. apply (zl_eqb_refl (z :: l)).
  - unfold puts. destruct (alook n (backlog s)); destruct (alook star (adel n (backlog s))); reflexivity.
  - rewrite forallb_app, no_sched_map_OFail, andb_true_r. unfold warns. destruct (alook n (queues s)); reflexivity.
Qed.

Lemma inv_no_wait : forall s, inv s -> no_wait s = true.
Proof.
  intros s [Hb Hq Hr Hs _ _]. unfold no_wait. apply andb_true_iff. split.
  - apply forallb_forall. intros [n q] Hin. simpl.
    assert (alook n (queues s) <> None).
    { intros Hn. apply alook_none_notin in Hn. apply Hn. apply in_map_iff. exists (n, q). auto. }
    rewrite (Hr n H). reflexivity.
  - destruct (queues s) eqn:E; [reflexivity|]. simpl. rewrite Hs; [reflexivity | congruence].
Qed.

Lemma nowait_ok : forall s arr acc o s' e, good s arr acc -> step s o = (s', e) -> chk_nowait (gone s) s arr acc o e s' = true.
Proof. intros s arr acc o s' e [Hi _] H. apply inv_no_wait. eapply step_inv; eauto. Qed.

Lemma inv_no_wait_gone : forall s, inv s -> no_wait_gone (gone s) s = true.
Proof.
  intros s [_ _ _ _ Hgb Hgq]. unfold no_wait_gone. apply forallb_forall. intros n Hn.
  rewrite (Hgb n Hn), (Hgq n Hn). reflexivity.
Qed.

Lemma nowait_gone_ok : forall s arr acc o s' e, good s arr acc -> step s o = (s', e) -> chk_nowait_gone (gone s) s arr acc o e s' = true.
Proof.
  intros s arr acc o s' e [Hi _] H. unfold chk_nowait_gone. rewrite <- (gone_after_step _ _ _ _ H).
  apply inv_no_wait_gone. eapply step_inv; eauto.
Qed.

Lemma cancel_queue_ok : forall s arr acc o s' e, good s arr acc -> step s o = (s', e) -> chk_cancel_queue (gone s) s arr acc o e s' = true.
Proof.
  intros s arr acc o s' e _ H. unfold chk_cancel_queue.
  destruct (step_cases _ _ _ _ H) as [b|bl cl o E|n q|n|us]; simpl; try apply zl_eqb_refl; [|reflexivity].
  apply forallb_forall. intros u _. destruct (drain_counts u _ _ _ _ E) as [_ [A2 A3]].
  apply andb_true_iff. split; apply Nat.eqb_eq; assumption.
Qed.

Lemma clauses_hold : Forall holds clause_checks.
Proof.
  repeat apply Forall_cons; [exact fwd_once_ok | exact place_ok | exact final_ok | exact cancel_ok | exact bystander_ok
    | exact register_ok | exact unregister_ok | exact sched_ok | exact nowait_ok | exact cancel_queue_ok
    | exact nowait_gone_ok | apply Forall_nil].
Qed.

(* for every history: the model's trace agrees with itself and satisfies every clause *)
Theorem clauses_hold_in_model : forall ops, forallb (fun b => b) (relay_row ops (trace init ops)) = true.
Proof.
  intros ops. unfold relay_row. cbn [forallb]. rewrite obs_eqb_refl, forallb_app. cbn [forallb andb]. rewrite andb_true_r.
  apply forallb_forall. intros b Hb. apply in_map_iff in Hb. destruct Hb as [c [<- Hc]].
  exact (walk_model c (proj1 (Forall_forall _ _) clauses_hold c Hc) ops init [] [] good_init).
Qed.

(* the two-thread row: an outcome that is the model's answer for `a` then the
   drain is accepted as linearizable *)
Theorem lin_accepts_sequential : forall s a,
  let '(e1, e2, s2) := seq2 s a Drain in lin_ok s a e1 e2 s2 = true.
Proof.
  intros s a. unfold lin_ok. destruct (seq2 s a Drain) as [[e1 e2] s2] eqn:E.
  rewrite !outs_eqb_refl, state_eqb_refl. reflexivity.
Qed.
