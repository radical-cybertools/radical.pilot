(* Invariants of the state-update model, for any well-formed state table. *)
From Coq Require Import ZArith List Bool Lia.
From RP Require Import Common.ZRange States.Model.
Import ListNotations.
Open Scope Z_scope.

Section Proofs.
  Context {state : Type}.
  Variable seqb : state -> state -> bool.
  Variables sDONE sFAILED sCANCELED : state.
  Variable value : state -> Z.
  Variable inv : Z -> state.
  Variable top : Z.

  Notation is_final := (is_final seqb sDONE sFAILED sCANCELED).
  Notation is_fc := (is_fc seqb sFAILED sCANCELED).

  (* well-formedness of the tables; discharged by computation on the
     generated tables (Gen/StatesTables.v) *)
  Record wf : Prop := {
    seqb_spec   : forall a b, seqb a b = true <-> a = b;
    final_value : forall s, is_final s = true -> value s = top;
    nonfinal_rg : forall s, is_final s = false -> 0 <= value s < top;
    inv_value   : forall s, is_final s = false -> inv (value s) = s;
    value_inv   : forall i, 0 <= i < top ->
                    value (inv i) = i /\ is_final (inv i) = false
  }.

  (* wf as a check to evaluate on the generated tables.  The last three conjuncts are not part
     of wf: they guard against a states.py with a negative top (returned by no lemma) or a
     FINAL other than {DONE, FAILED, CANCELED} ([wf_check_final]). *)
  Definition wf_check (all final : list state) : bool :=
    forallb (fun s => if is_final s then value s =? top
                      else (0 <=? value s) && (value s <? top) && seqb (inv (value s)) s) all
    && forallb (fun i => (value (inv i) =? i) && negb (is_final (inv i))) (zrange (Z.to_nat top))
    && (0 <=? top)
    && forallb (fun s => is_final s || negb (existsb (seqb s) final)) all
    && forallb (fun s => existsb (seqb s) final) [sDONE; sFAILED; sCANCELED].

  Lemma wf_of_check (all final : list state) :
    (forall s, In s all) ->
    (forall a b, seqb a b = true <-> a = b) ->
    wf_check all final = true -> wf.
  Proof.
    intros Hall Hspec H. unfold wf_check in H.
    do 3 (apply andb_true_iff in H; destruct H as [H _]). apply andb_true_iff in H as [HA HB].
    rewrite forallb_forall in HA.
    assert (Hnf : forall s, is_final s = false ->
                    (0 <= value s < top) /\ inv (value s) = s).
    { intros s Hs. specialize (HA s (Hall s)). rewrite Hs in HA.
      apply andb_true_iff in HA as [HA H3]. apply andb_true_iff in HA as [H1 H2].
      apply Z.leb_le in H1. apply Z.ltb_lt in H2. apply Hspec in H3. auto. }
    constructor.
    - exact Hspec.
    - intros s Hs. specialize (HA s (Hall s)). rewrite Hs in HA. apply Z.eqb_eq. exact HA.
    - intros s Hs. apply (Hnf s Hs).
    - intros s Hs. apply (Hnf s Hs).
    - intros i Hi. pose proof (zrange_forall _ _ HB i ltac:(lia)) as G.
      apply andb_true_iff in G as [G1 G2]. apply Z.eqb_eq in G1. apply negb_true_iff in G2. auto.
  Qed.

  Lemma wf_check_final (all final : list state) :
    (forall s, In s all) ->
    (forall a b, seqb a b = true <-> a = b) ->
    wf_check all final = true ->
    forall s, existsb (seqb s) final = true <-> s = sDONE \/ s = sFAILED \/ s = sCANCELED.
  Proof.
    intros Hall Hspec H s. unfold wf_check in H.
    apply andb_true_iff in H as [H H5]. apply andb_true_iff in H as [_ H4].
    rewrite forallb_forall in H4. specialize (H4 s (Hall s)).
    cbn [forallb] in H5. rewrite andb_true_r in H5.
    apply andb_true_iff in H5 as [HD H5]. apply andb_true_iff in H5 as [HF HC].
    rewrite <- !Hspec. split.
    - intro E. rewrite E in H4. cbn [negb] in H4. rewrite orb_false_r in H4.
      unfold Model.is_final in H4. rewrite !orb_true_iff in H4. tauto.
    - intros [E | [E | E]]; apply Hspec in E; subst s; assumption.
  Qed.

  Hypothesis W : wf.

  Lemma seqb_refl s : seqb s s = true.
  Proof. apply (seqb_spec W); reflexivity. Qed.

  Lemma seqb_false a b : a <> b -> seqb a b = false.
  Proof.
    intro H; destruct (seqb a b) eqn:E; [|reflexivity].
    apply (seqb_spec W) in E; contradiction.
  Qed.

  Lemma fc_final s : is_fc s = true -> is_final s = true.
  Proof.
    unfold Model.is_fc, Model.is_final; intro H.
    apply orb_true_iff in H as [H|H]; rewrite H; rewrite ?orb_true_r; reflexivity.
  Qed.

  Lemma nonfinal_cases s :
    is_final s = false -> seqb s sDONE = false /\ seqb s sFAILED = false /\ seqb s sCANCELED = false.
  Proof.
    unfold Model.is_final; intro H.
    apply orb_false_iff in H as [H H3]; apply orb_false_iff in H as [H1 H2]; auto.
  Qed.

  Lemma final_cases s :
    is_final s = true -> s = sDONE \/ s = sFAILED \/ s = sCANCELED.
  Proof.
    unfold Model.is_final; intro H.
    apply orb_true_iff in H as [H|H]; [apply orb_true_iff in H as [H|H]|];
      apply (seqb_spec W) in H; auto.
  Qed.

  Lemma value_le_top s : value s <= top.
  Proof.
    destruct (is_final s) eqn:E.
    - rewrite (final_value W _ E); lia.
    - pose proof (nonfinal_rg W _ E); lia.
  Qed.

  Notation last_of := (@last_of state).

  (* [chain] and [pchain] below are [steps] of their step relations, by conversion *)
  Section Steps.
    Variable R : state -> state -> Prop.

    Fixpoint steps (p : state) (ns : list state) : Prop :=
      match ns with
      | [] => True
      | s :: r => R p s /\ steps s r
      end.

    Lemma steps_app p a b :
      steps p a -> steps (last_of p a) b -> steps p (a ++ b).
    Proof.
      revert p; induction a as [|s a IH]; simpl; intros p Ha Hb; [exact Hb|].
      destruct Ha as [H1 H2]; split; [exact H1|apply IH; assumption].
    Qed.
  End Steps.

  (* one observed transition p -> s *)
  Definition step_ok (p s : state) : Prop :=
    is_final p = false /\ (is_fc s = true \/ value s = value p + 1).

  Fixpoint chain (p : state) (ns : list state) : Prop :=
    match ns with
    | [] => True
    | s :: r => step_ok p s /\ chain s r
    end.

  Lemma last_of_app p a b : last_of p (a ++ b) = last_of (last_of p a) b.
  Proof. revert p; induction a as [|s a IH]; simpl; intros p; [reflexivity|apply IH]. Qed.

  Lemma step_ok_lt p s : step_ok p s -> value p < value s.
  Proof.
    intros [Hp [Hs|Hs]]; pose proof (nonfinal_rg W _ Hp).
    - rewrite (final_value W _ (fc_final _ Hs)); lia.
    - lia.
  Qed.

  Lemma chain_gt ns : forall p s, chain p ns -> In s ns -> value p < value s.
  Proof.
    induction ns as [|x r IH]; simpl; intros p s H Hin; [contradiction|].
    destruct H as [H1 H2]. apply step_ok_lt in H1. destruct Hin as [->|Hin]; [exact H1|].
    specialize (IH x s H2 Hin). lia.
  Qed.

  (* each state is announced at most once, and never the current one again *)
  Lemma chain_NoDup ns : forall p, chain p ns -> NoDup (p :: ns).
  Proof.
    induction ns as [|x r IH]; intros p H; [constructor; [intros []|constructor]|].
    constructor; [|apply IH, H].
    intro Hin. pose proof (chain_gt _ p p H Hin). lia.
  Qed.

  (* once final, nothing more is observed *)
  Lemma chain_after_final : forall p a ns b,
    chain p ns -> ns = a ++ b -> is_final (last_of p a) = true -> b = [].
  Proof.
    intros p a; revert p; induction a as [|x a IH]; simpl; intros p ns b H -> Hf.
    - destruct b; [reflexivity|]. destruct H as [[Hn _] _]. congruence.
    - simpl in H. destruct H as [_ H]. eapply IH; [exact H|reflexivity|exact Hf].
  Qed.

  Lemma step_okb_spec p s : step_okb seqb sDONE sFAILED sCANCELED value p s = true <-> step_ok p s.
  Proof.
    unfold step_okb, step_ok. fold (is_final p) (is_fc s).
    rewrite andb_true_iff, negb_true_iff, orb_true_iff, Z.eqb_eq. tauto.
  Qed.

  Lemma chainb_spec ns : forall p, chainb seqb sDONE sFAILED sCANCELED value p ns = true <-> chain p ns.
  Proof.
    induction ns as [|s r IH]; intros p; simpl; [tauto|].
    rewrite andb_true_iff, step_okb_spec, IH. tauto.
  Qed.

  Lemma between_chain n : forall c p,
    value p = c -> is_final p = false -> c + Z.of_nat n < top ->
    chain p (between inv n (c + 1)) /\
    value (last_of p (between inv n (c + 1))) = c + Z.of_nat n /\
    is_final (last_of p (between inv n (c + 1))) = false.
  Proof.
    induction n as [|n IH]; intros c p Hv Hp Hlt; simpl.
    - repeat split; [lia | exact Hp].
    - pose proof (nonfinal_rg W _ Hp) as H0.
      destruct (value_inv W (c + 1)) as [V1 V2]; [lia|].
      destruct (IH (c + 1) (inv (c + 1)) V1 V2) as (A & B & C); [lia|].
      repeat split; auto.
      + right; lia.
      + rewrite B; lia.
  Qed.

  Lemma passed_chain cur tgt :
    is_final cur = false -> value cur < value tgt ->
    chain cur (passed_states value inv cur tgt) /\
    last_of cur (passed_states value inv cur tgt) = tgt.
  Proof.
    intros Hc Hlt; unfold passed_states.
    pose proof (value_le_top tgt) as Ht.
    set (n := Z.to_nat (value tgt - value cur - 1)).
    destruct (between_chain n (value cur) cur eq_refl Hc) as (A & B & C); [subst n; lia|].
    split.
    - apply (steps_app step_ok); [exact A|]. simpl; split; [|exact I]. split; [exact C|].
      right; rewrite B; subst n; lia.
    - rewrite last_of_app; reflexivity.
  Qed.

  Lemma last1_last (l : list state) x : last1 (l ++ [x]) = [x].
  Proof. unfold last1; rewrite rev_app_distr; reflexivity. Qed.

  (* what is replayed for a later target: every state on the way, or -- for
     FAILED and CANCELED -- the target alone; either way a chain that ends in it *)
  Lemma replayed_chain cur tgt :
    value cur < value tgt ->
    let ns := if is_fc tgt then last1 (passed_states value inv cur tgt)
              else passed_states value inv cur tgt in
    chain cur ns /\ last_of cur ns = tgt /\ exists l, ns = l ++ [tgt].
  Proof.
    intro Hlt.
    assert (Hc : is_final cur = false).
    { destruct (is_final cur) eqn:E; [|reflexivity].
      pose proof (value_le_top tgt). rewrite (final_value W _ E) in Hlt. lia. }
    destruct (is_fc tgt) eqn:E; cbv zeta.
    - unfold passed_states. rewrite last1_last. simpl. repeat split; auto. exists []. reflexivity.
    - destruct (passed_chain cur tgt Hc Hlt) as [A L]. repeat split; [exact A | exact L |].
      eexists. reflexivity.
  Qed.

  (* Task._update never raises along a chain and follows it *)
  Lemma task_replay_chain ns : forall p,
    chain p ns ->
    task_replay seqb sDONE sFAILED sCANCELED value p ns = (last_of p ns, ns, None).
  Proof.
    induction ns as [|s r IH]; intros p H; simpl; [reflexivity|].
    destruct H as [[Hp Hs] Hr]. destruct (nonfinal_cases p Hp) as (F1 & F2 & F3).
    unfold task_update. rewrite F1, F2, F3. simpl.
    destruct Hs as [Hs|Hs].
    - fold (is_fc s). rewrite Hs. simpl. rewrite (IH s Hr). reflexivity.
    - fold (is_fc s). replace (value s - value p =? 1) with true by (symmetry; apply Z.eqb_eq; lia).
      rewrite andb_false_r. rewrite (IH s Hr). reflexivity.
  Qed.

  Theorem task_notify_ok cur tgt :
    exists ns,
      task_notify seqb sDONE sFAILED sCANCELED value inv cur tgt
        = (last_of cur ns, ns, None) /\ chain cur ns.
  Proof.
    unfold task_notify.
    destruct (seqb cur tgt) eqn:E; [exists []; simpl; auto|].
    unfold task_progress.
    destruct (seqb cur sCANCELED && is_final tgt) eqn:E1.
    { exists []. destruct (is_fc tgt); simpl; auto. }
    destruct (is_final cur && is_final tgt) eqn:E2.
    { exists []. destruct (is_fc cur); simpl; auto. }
    destruct (value tgt <=? value cur) eqn:E3.
    { exists []. destruct (is_fc cur); simpl; auto. }
    apply Z.leb_gt in E3. destruct (replayed_chain cur tgt E3) as [A _].
    eexists. rewrite (task_replay_chain _ _ A). split; [reflexivity | exact A].
  Qed.

  Corollary task_notify_noerr cur tgt :
    snd (task_notify seqb sDONE sFAILED sCANCELED value inv cur tgt) = None.
  Proof. destruct (task_notify_ok cur tgt) as (ns & -> & _); reflexivity. Qed.

  Notation lookup := (@lookup state).
  Notation store := (@store state).

  Notation proj := (@proj state).

  Lemma proj_app u a b : proj u (a ++ b) = proj u a ++ proj u b.
  Proof. unfold proj; rewrite filter_app, map_app; reflexivity. Qed.

  Lemma proj_cons u v (s : state) l : proj u ((v, s) :: l) = if v =? u then s :: proj u l else proj u l.
  Proof. unfold proj. simpl. destruct (v =? u); reflexivity. Qed.

  Lemma proj_same u ns : proj u (map (fun s => (u, s)) ns) = ns.
  Proof.
    unfold proj; induction ns as [|s r IH]; simpl; [reflexivity|].
    rewrite Z.eqb_refl; simpl; f_equal; exact IH.
  Qed.

  Lemma proj_other u v ns : u <> v -> proj u (map (fun s => (v, s)) ns) = [].
  Proof.
    intro H; unfold proj; induction ns as [|s r IH]; simpl; [reflexivity|].
    destruct (v =? u) eqn:E; [apply Z.eqb_eq in E; congruence|exact IH].
  Qed.

  Lemma lookup_store_same u s t c :
    lookup u t = Some c -> lookup u (store u s t) = Some s.
  Proof.
    induction t as [|[k s0] t IH]; simpl; [discriminate|].
    destruct (k =? u) eqn:E; simpl; rewrite E; auto.
  Qed.

  Lemma lookup_store_other u v s t : u <> v -> lookup u (store v s t) = lookup u t.
  Proof.
    intro H; induction t as [|[k s0] t IH]; simpl; [reflexivity|].
    destruct (k =? v) eqn:E; simpl.
    - apply Z.eqb_eq in E; subst k.
      destruct (v =? u) eqn:E2; [apply Z.eqb_eq in E2; congruence|reflexivity].
    - destruct (k =? u); [reflexivity|exact IH].
  Qed.

  (* What is seen of ONE entity of a table is a function ([solo]) of its own state and
     of the states notified for it, whatever else is notified. *)
  Section Table.
    Variable notify : state -> state -> state * list state * option perr.

    Fixpoint solo (cur : state) (tgts : list state) : state * list state :=
      match tgts with
      | [] => (cur, [])
      | tgt :: r =>
          let '(c, ns, _) := notify cur tgt in
          let '(c', ns') := solo c r in (c', ns ++ ns')
      end.

    Fixpoint trun (t : tasks) (ns : list (Z * state)) : tasks * list (Z * state) :=
      match ns with
      | [] => (t, [])
      | (u, tgt) :: r =>
          match lookup u t with
          | None => trun t r
          | Some cur =>
              let '(c, cbs, _) := notify cur tgt in
              let '(t2, cbs2) := trun (store u c t) r in
              (t2, map (fun s => (u, s)) cbs ++ cbs2)
          end
      end.

    Lemma trun_app a b : forall t,
      trun t (a ++ b) =
      let '(t1, c1) := trun t a in let '(t2, c2) := trun t1 b in (t2, c1 ++ c2).
    Proof.
      induction a as [|[u tgt] a IH]; intro t; simpl; [destruct (trun t b); reflexivity|].
      destruct (lookup u t) as [cur|]; [|apply IH]. destruct (notify cur tgt) as [[c cbs] e].
      rewrite IH. destruct (trun (store u c t) a) as [t1 c1]. destruct (trun t1 b) as [t2 c2].
      rewrite app_assoc. reflexivity.
    Qed.

    Theorem trun_solo ns : forall t u,
      proj u (snd (trun t ns)) =
        match lookup u t with Some cur => snd (solo cur (proj u ns)) | None => [] end /\
      lookup u (fst (trun t ns)) =
        match lookup u t with Some cur => Some (fst (solo cur (proj u ns))) | None => None end.
    Proof.
      induction ns as [|[v tgt] ns IH]; intros t u; simpl; [destruct (lookup u t); auto|].
      rewrite proj_cons. destruct (lookup v t) as [cv|] eqn:Hv.
      - destruct (notify cv tgt) as [[c l] e] eqn:E. specialize (IH (store v c t) u).
        destruct (trun (store v c t) ns) as [t2 c2]. simpl in *. rewrite proj_app.
        destruct (Z.eqb_spec v u) as [->|Hne].
        + rewrite (lookup_store_same _ _ _ _ Hv) in IH. rewrite Hv, proj_same. simpl. rewrite E.
          destruct (solo c (proj u ns)); destruct IH as [-> ->]; auto.
        + rewrite proj_other by congruence. rewrite lookup_store_other in IH by congruence. exact IH.
      - destruct (Z.eqb_spec v u) as [->|Hne]; [|apply IH].
        specialize (IH t u). rewrite Hv in *. exact IH.
    Qed.

    (* [step_ok] for tasks, [pstep_ok] for pilots *)
    Variable R : state -> state -> Prop.
    Hypothesis notify_C :
      forall cur tgt, exists ns e, notify cur tgt = (last_of cur ns, ns, e) /\ steps R cur ns.

    Lemma solo_C tgts : forall cur,
      steps R cur (snd (solo cur tgts)) /\ fst (solo cur tgts) = last_of cur (snd (solo cur tgts)).
    Proof.
      induction tgts as [|tgt r IH]; intro cur; simpl; [auto|].
      destruct (notify_C cur tgt) as (ns & e & -> & Hc). destruct (IH (last_of cur ns)) as [I1 I2].
      destruct (solo (last_of cur ns) r) as [c' ns']; simpl in *.
      rewrite last_of_app. split; [apply steps_app; assumption | exact I2].
    Qed.

    Corollary trun_C ns t u :
      let cbs := proj u (snd (trun t ns)) in
      match lookup u t with
      | Some cur => steps R cur cbs /\ lookup u (fst (trun t ns)) = Some (last_of cur cbs)
      | None => cbs = [] /\ lookup u (fst (trun t ns)) = None
      end.
    Proof.
      destruct (trun_solo ns t u) as [E1 E2]. cbv zeta. rewrite E1, E2.
      destruct (lookup u t) as [cur|]; [|auto].
      destruct (solo_C (proj u ns) cur) as [A ->]. auto.
    Qed.
  End Table.

  Notation batch_loop := (batch_loop seqb sDONE sFAILED sCANCELED value inv).
  Notation update_batch := (update_batch seqb sDONE sFAILED sCANCELED value inv).
  Notation run_cbs := (run_cbs seqb sDONE sFAILED sCANCELED value inv).
  Notation only := (@only state).
  Notation tnotify := (task_notify seqb sDONE sFAILED sCANCELED value inv).

  Lemma proj_only u b : proj u (only u b) = proj u b.
  Proof.
    unfold proj, Model.only. induction b as [|[v s] b IH]; simpl; [reflexivity|].
    destruct (v =? u) eqn:E; simpl; rewrite ?E; simpl; rewrite IH; reflexivity.
  Qed.

  Lemma lookup_single u (cur : state) : lookup u [(u, cur)] = Some cur.
  Proof. simpl. rewrite Z.eqb_refl. reflexivity. Qed.

  (* task_notify_ok in the shape of notify_C *)
  Lemma tnotify_chain cur tgt :
    exists ns e, tnotify cur tgt = (last_of cur ns, ns, e) /\ chain cur ns.
  Proof. destruct (task_notify_ok cur tgt) as (ns & E & H). exists ns, None. auto. Qed.

  Lemma batch_loop_trun b : forall t,
    batch_loop t b = (fst (trun tnotify t b), snd (trun tnotify t b), None).
  Proof.
    induction b as [|[u tgt] b IH]; intro t; simpl; [reflexivity|].
    destruct (lookup u t) as [cur|]; [|apply IH].
    destruct (task_notify_ok cur tgt) as (ns & -> & _). rewrite IH.
    destruct (trun tnotify (store u (last_of cur ns) t) b). reflexivity.
  Qed.

  Lemma update_batch_eq t b : update_batch t b = batch_loop t b.
  Proof. unfold Model.update_batch. rewrite batch_loop_trun. reflexivity. Qed.

  (* from any table, hence at any point of a history *)
  Theorem history_no_exception t b : snd (update_batch t b) = None.
  Proof. rewrite update_batch_eq, batch_loop_trun. reflexivity. Qed.

  Theorem run_cbs_trun bs : forall t, run_cbs t bs = trun tnotify t (concat bs).
  Proof.
    induction bs as [|b bs IH]; intro t; simpl; [reflexivity|].
    rewrite update_batch_eq, batch_loop_trun, trun_app, IH.
    destruct (trun tnotify t b) as [t1 c1]. simpl. destruct (trun tnotify t1 (concat bs)). reflexivity.
  Qed.

  (* every history of batches: what the application sees of task u is a
     chain from its initial state, and Task.state is the end of that chain *)
  Theorem history_chain bs : forall t u cur,
    lookup u t = Some cur ->
    chain cur (proj u (snd (run_cbs t bs))) /\
    lookup u (fst (run_cbs t bs)) = Some (last_of cur (proj u (snd (run_cbs t bs)))).
  Proof.
    intros t u cur Hl. rewrite run_cbs_trun.
    pose proof (trun_C tnotify step_ok tnotify_chain (concat bs) t u) as H.
    rewrite Hl in H. exact H.
  Qed.

  (* isolation: task u's observations depend only on u's notifications *)
  Lemma batch_isolation b : forall t u cur,
    lookup u t = Some cur ->
    proj u (snd (fst (batch_loop t b))) =
    proj u (snd (fst (batch_loop [(u, cur)] (only u b)))) /\
    lookup u (fst (fst (batch_loop t b))) =
    lookup u (fst (fst (batch_loop [(u, cur)] (only u b)))).
  Proof.
    intros t u cur Hl. rewrite !batch_loop_trun. cbn [fst snd].
    destruct (trun_solo tnotify b t u) as [-> ->].
    destruct (trun_solo tnotify (only u b) [(u, cur)] u) as [-> ->].
    rewrite Hl, lookup_single, proj_only. auto.
  Qed.

  Theorem history_isolation bs : forall t u cur,
    lookup u t = Some cur ->
    proj u (snd (run_cbs t bs)) = proj u (snd (run_cbs [(u, cur)] (map (only u) bs))).
  Proof.
    intros t u cur Hl. rewrite !run_cbs_trun.
    rewrite (proj1 (trun_solo tnotify _ t u)), (proj1 (trun_solo tnotify _ [(u, cur)] u)).
    rewrite Hl, lookup_single. unfold Model.only at 1. rewrite concat_filter_map.
    fold (only u (concat bs)). rewrite proj_only. reflexivity.
  Qed.

  (* pilots: a notification of the current state is announced again (Pilot._update
     invokes the callbacks on every call) *)
  Definition pstep_ok (p s : state) : Prop := s = p \/ step_ok p s.

  Fixpoint pchain (p : state) (ns : list state) : Prop :=
    match ns with
    | [] => True
    | s :: r => pstep_ok p s /\ pchain s r
    end.

  Lemma chain_pchain p ns : chain p ns -> pchain p ns.
  Proof.
    revert p; induction ns as [|s r IH]; simpl; intros p H; [exact I|].
    destruct H as [H1 H2]; split; [right; exact H1|apply IH; exact H2].
  Qed.

  Lemma pstep_final p s : pstep_ok p s -> is_final p = true -> s = p.
  Proof. intros [H|[H _]] Hf; [exact H|congruence]. Qed.

  Lemma pstep_le p s : pstep_ok p s -> value p <= value s.
  Proof. intros [->|H]; [lia|apply step_ok_lt in H; lia]. Qed.

  Lemma pchainb_spec ns : forall p, pchainb seqb sDONE sFAILED sCANCELED value p ns = true <-> pchain p ns.
  Proof.
    induction ns as [|s r IH]; intros p; simpl; [tauto|].
    unfold pstep_okb, pstep_ok.
    rewrite andb_true_iff, orb_true_iff, step_okb_spec, IH, (seqb_spec W). tauto.
  Qed.

  Lemma pilot_replay_chain ns : forall p,
    chain p ns ->
    pilot_replay seqb sFAILED sCANCELED value p ns = (last_of p ns, ns, None).
  Proof.
    induction ns as [|s r IH]; intros p H; simpl; [reflexivity|].
    destruct H as [[Hp Hs] Hr]. unfold pilot_update. fold (is_fc s).
    destruct Hs as [Hs|Hs].
    - rewrite Hs. simpl. rewrite (IH s Hr). reflexivity.
    - replace (1 <? value s - value p) with false by (symmetry; apply Z.ltb_ge; lia).
      rewrite andb_false_r. rewrite (IH s Hr). reflexivity.
  Qed.

  (* the only exception: a final notification that contradicts a final state *)
  Theorem pilot_notify_ok cur tgt :
    exists ns e,
      pilot_notify seqb sDONE sFAILED sCANCELED value inv cur tgt
        = (last_of cur ns, ns, e) /\ pchain cur ns /\
      (e = None \/ e = Some ValueError /\ ns = [] /\ is_final cur = true /\ is_final tgt = true).
  Proof.
    unfold pilot_notify.
    destruct (seqb cur tgt) eqn:E.
    { exists [cur], None; simpl; repeat split; auto. left; reflexivity. }
    unfold pilot_progress.
    destruct (seqb cur sCANCELED && is_final tgt) eqn:E1.
    { exists [], None. destruct (is_fc tgt); simpl; auto. }
    destruct (seqb cur sFAILED && is_final tgt) eqn:E1'.
    { exists [], None. destruct (is_fc tgt); simpl; auto. }
    destruct (is_final cur && negb (seqb tgt cur) && is_final tgt) eqn:E2.
    { exists [], (Some ValueError). apply andb_true_iff in E2 as [E2 E3].
      apply andb_true_iff in E2 as [E2 _].
      simpl. split; [reflexivity|]. split; [exact I|]. right. auto. }
    destruct (value tgt <=? value cur) eqn:E3.
    { exists [], None. destruct (is_fc cur); simpl; auto. }
    apply Z.leb_gt in E3. destruct (replayed_chain cur tgt E3) as [A _].
    eexists _, None. rewrite (pilot_replay_chain _ _ A). auto using chain_pchain.
  Qed.

  (* a pilot that ends is seen to end: a final notification for a pilot that is
     not final yet becomes Pilot.state, raises nothing and is the last state
     announced -- whatever state the client still had the pilot in *)
  Theorem pilot_notify_end cur tgt :
    is_final cur = false -> is_final tgt = true ->
    exists cbs, pilot_notify seqb sDONE sFAILED sCANCELED value inv cur tgt = (tgt, cbs ++ [tgt], None).
  Proof.
    intros Hc Ht.
    assert (Hlt : value cur < value tgt).
    { rewrite (final_value W _ Ht). apply (nonfinal_rg W _ Hc). }
    destruct (nonfinal_cases cur Hc) as (_ & F2 & F3).
    unfold pilot_notify, pilot_progress.
    rewrite (seqb_false cur tgt) by (intros ->; congruence).
    rewrite F2, F3, Hc, (proj2 (Z.leb_gt _ _) Hlt). cbn [andb].
    destruct (replayed_chain cur tgt Hlt) as (A & L & l & E).
    exists l. rewrite (pilot_replay_chain _ _ A), L, E. reflexivity.
  Qed.

  Notation pilot_run := (pilot_run seqb sDONE sFAILED sCANCELED value inv).
  Notation pnotify := (pilot_notify seqb sDONE sFAILED sCANCELED value inv).

  Lemma pnotify_pchain cur tgt :
    exists ns e, pnotify cur tgt = (last_of cur ns, ns, e) /\ pchain cur ns.
  Proof. destruct (pilot_notify_ok cur tgt) as (ns & e & E & H & _). exists ns, e. auto. Qed.

  Lemma pilot_run_trun ns : forall t, fst (pilot_run t ns) = trun pnotify t ns.
  Proof.
    induction ns as [|[p tgt] ns IH]; intro t; simpl; [reflexivity|].
    destruct (lookup p t) as [cur|]; [|apply IH]. destruct (pnotify cur tgt) as [[c cbs] e].
    rewrite <- IH. destruct (pilot_run (store p c t) ns) as [[t2 c2] es]. reflexivity.
  Qed.

  (* this and pilot_unknown_ignored: the two branches of [trun_C] *)
  Theorem pilot_history_chain ns : forall t p cur,
    lookup p t = Some cur ->
    pchain cur (proj p (snd (fst (pilot_run t ns)))) /\
    lookup p (fst (fst (pilot_run t ns))) =
      Some (last_of cur (proj p (snd (fst (pilot_run t ns))))).
  Proof.
    intros t p cur Hl. rewrite pilot_run_trun.
    pose proof (trun_C pnotify pstep_ok pnotify_pchain ns t p) as H.
    rewrite Hl in H. exact H.
  Qed.

  (* notifications for unknown pilots are ignored: no callback, no new entry *)
  Theorem pilot_unknown_ignored ns : forall t p,
    lookup p t = None ->
    proj p (snd (fst (pilot_run t ns))) = [] /\
    lookup p (fst (fst (pilot_run t ns))) = None.
  Proof.
    intros t p Hl. rewrite pilot_run_trun.
    pose proof (trun_C pnotify pstep_ok pnotify_pchain ns t p) as H.
    rewrite Hl in H. exact H.
  Qed.

End Proofs.
