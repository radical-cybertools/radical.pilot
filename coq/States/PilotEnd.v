(* a pilot that ends is seen to end: one final notification for a pilot that
   is not final yet makes Pilot.state that final state, raises nothing and
   ends the callback sequence with it -- whatever state the client still had
   the pilot in *)
From Coq Require Import List.
From RP Require Import Gen.StatesTables States.Proofs States.Inst.
Import ListNotations.

Theorem pilot_end_is_observed (cur tgt : pstate) :
  p_is_final cur = false -> p_is_final tgt = true ->
  exists cbs, p_notify cur tgt = (tgt, cbs ++ [tgt], None).
Proof. exact (pilot_notify_end _ _ _ _ _ _ _ p_wf cur tgt). Qed.
