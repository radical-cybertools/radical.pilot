(* A state notification for a task (TaskManager._update_tasks) and the death of its pilot
   (TaskManager._pilot_state_cb) are handled by two threads; both run under the tasks lock, so
   one comes first.  In either order the application is told at most one final state for the
   task, and it is the state the Task object ends in.  Finite domain: every pair (current
   state, notified state) of the generated task state table. *)
From Coq Require Import List Bool.
From RP Require Import Common.Eqb Common.ListFacts Gen.StatesTables States.Model States.Inst.
Import ListNotations.

(* _pilot_state_cb on a task bound to the dead pilot: (new state, was FAILED announced) *)
Definition death (s : tstate) : tstate * bool :=
  if t_is_final s then (s, false) else (T_FAILED, true).

Definition finals_of (l : list tstate) : list tstate := filter t_is_final l.

(* announced final states and the end state, update first *)
Definition order_ud (cur tgt : tstate) : list tstate * tstate :=
  let '(s1, cbs, _) := t_notify cur tgt in
  let '(s2, ann) := death s1 in
  (finals_of cbs ++ (if ann then [T_FAILED] else []), s2).

(* ... pilot death first *)
Definition order_du (cur tgt : tstate) : list tstate * tstate :=
  let '(s1, ann) := death cur in
  let '(s2, cbs, _) := t_notify s1 tgt in
  ((if ann then [T_FAILED] else []) ++ finals_of cbs, s2).

Definition one_final (r : list tstate * tstate) : bool :=
  match fst r with
  | [] => true
  | [f] => tstate_beq f (snd r) && t_is_final (snd r)
  | _ => false
  end.

Lemma race_all :
  forallb (fun cur => forallb (fun tgt => one_final (order_ud cur tgt) && one_final (order_du cur tgt))
                              tstate_all) tstate_all = true.
Proof. vm_compute. reflexivity. Qed.

Theorem death_race_one_final (cur tgt : tstate) :
  one_final (order_ud cur tgt) = true /\ one_final (order_du cur tgt) = true.
Proof.
  apply andb_true_iff. exact (sweep2 tstate_all _ tstate_all_complete race_all cur tgt).
Qed.

Definition race_obs_eqb (a b : list tstate * tstate) : bool :=
  Common.Eqb.eqb_list tstate_beq (fst a) (fst b) && tstate_beq (snd a) (snd b).
(* row for the two-thread cases of the C13 check: the observed announcements of
   final states (callbacks and the FAILED published by the pilot callback, in
   the order they happened) and the state the Task object ended in must be
   those of one of the two orders; the clause judges the observation itself.
   [cbs]: every state the application's task callback was called with, in order
   (whichever thread called it): it must be a chain from the task's state --
   in particular nothing is announced after a final state *)
Definition c13_race_row (cur tgt : tstate) (ann : list tstate) (fin : tstate) (cbs : list tstate) : list bool :=
  [ race_obs_eqb (order_ud cur tgt) (ann, fin) || race_obs_eqb (order_du cur tgt) (ann, fin);
    true; true; true;
    one_final (ann, fin);
    chainb tstate_beq T_DONE T_FAILED T_CANCELED tvalue cur cbs ].
