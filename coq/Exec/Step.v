(* Exec.Step -- what the invariant files need of exec_step, from Exec.Model alone.
   Who writes what: six shared variables and, per thread, the variables no other
   thread touches (its pc and its backlog); a step leaves the rest alone (step_frame).
   cancel_task, which three threads run: a thread inside it does one kstep and
   resumes its own program (in_k, step_k).  The intake's control flow on one task. *)
From Coq Require Import ZArith List.
From RP Require Import Exec.Model.
Import ListNotations.

(* the fields of a state that was built by the set_ functions *)
Ltac fields := cbn [clist to_new wq ipc_ i_rest cpc_ c_rest wpc_ w_watch tpc_ tasks procattr world
                    set_tasks set_procattr set_world set_clist set_to_new set_wq set_ipc set_i_rest
                    set_cpc set_c_rest set_wpc set_w_watch set_tpc].

(* H : a step = (..): case analysis on everything the step branches on *)
Ltac branches H := repeat match type of H with context [match ?X with _ => _ end] => destruct X eqn:? end.

Lemma upd_same {A} (f : Z -> A) u v : upd f u v u = v.
Proof. unfold upd. rewrite Z.eqb_refl. reflexivity. Qed.
Lemma upd_other {A} (f : Z -> A) x u v : x <> u -> upd f x v u = f u.
Proof. unfold upd. intros N. destruct (u =? x) eqn:E; [apply Z.eqb_eq in E; congruence | reflexivity]. Qed.

Definition keeps (th : thread) (s s' : state) : Prop :=
  match th with
  | ThI => ipc_ s' = ipc_ s /\ i_rest s' = i_rest s
  | ThC => cpc_ s' = cpc_ s /\ c_rest s' = c_rest s
  | ThW => wpc_ s' = wpc_ s /\ w_watch s' = w_watch s
  | ThT => tpc_ s' = tpc_ s
  | ThX => True
  end.

Lemma kstep_frame x k s s1 k' es ms : kstep x k s = (s1, k', es, ms) ->
  clist s1 = clist s /\ to_new s1 = to_new s /\ wq s1 = wq s /\ ipc_ s1 = ipc_ s /\ i_rest s1 = i_rest s /\
  cpc_ s1 = cpc_ s /\ c_rest s1 = c_rest s /\ wpc_ s1 = wpc_ s /\ w_watch s1 = w_watch s /\ tpc_ s1 = tpc_ s.
Proof. destruct k; cbn [kstep]; intros H; branches H; injection H as <- _ _ _; repeat split. Qed.
Lemma kstep_keeps x k s s1 k' es ms : kstep x k s = (s1, k', es, ms) -> forall th, keeps th s s1.
Proof.
  intros H th. destruct (kstep_frame _ _ _ _ _ _ _ H) as (_ & _ & _ & C4 & C5 & C6 & C7 & C8 & C9 & C10).
  destruct th; cbn [keeps]; auto.
Qed.

Definition shared_kept (ch : choice) (s s' : state) : Prop :=
  match ch with
  | CI => True
  | CC => to_new s' = to_new s /\ wq s' = wq s
  | CW => clist s' = clist s /\ to_new s' = to_new s /\ world s' = world s
  | CT => clist s' = clist s /\ wq s' = wq s
  | CX _ _ => clist s' = clist s /\ to_new s' = to_new s /\ wq s' = wq s /\ tasks s' = tasks s /\ procattr s' = procattr s
  end.

Theorem step_frame ch s s' es ms : exec_step ch s = (s', es, ms) ->
  (forall th, th <> thread_of ch -> keeps th s s') /\ shared_kept ch s s'.
Proof.
  (* in the branches inside cancel_task, kstep_frame speaks of the state that kstep returned *)
  intros H. destruct ch; cbn [exec_step thread_of shared_kept] in *; unfold istep, cstep, wstep, tstep, xstep in H;
    branches H; injection H as <- _ _;
    try (edestruct kstep_frame as (C1 & C2 & C3 & C4 & C5 & C6 & C7 & C8 & C9 & C10); [eassumption|]);
    (split; [intros [] N; try destruct (N eq_refl); cbn [keeps]|]); fields; repeat split; assumption.
Qed.

(* where a thread stands inside cancel_task *)
Definition in_k (th : thread) (s : state) : option (Z * kpc) :=
  match th with
  | ThI => match ipc_ s with ITask (ITK k) x _ => Some (d_uid x, k) | _ => None end
  | ThC => match cpc_ s with CK k u _ => Some (u, k) | _ => None end
  | ThT => match tpc_ s with TK k u _ => Some (u, k) | _ => None end
  | _ => None
  end.

Lemma in_k_keeps th s s' : keeps th s s' -> in_k th s' = in_k th s.
Proof. destruct th; cbn [keeps in_k]; [intros [-> _] | intros [-> _] | | intros -> | ]; reflexivity. Qed.

(* on leaving the call at most the next one has begun: the timeout watcher takes up its next entry in the same step *)
Lemma step_k ch s s' es ms x k :
  in_k (thread_of ch) s = Some (x, k) -> exec_step ch s = (s', es, ms) ->
  exists s1 k', kstep x k s = (s1, k', es, ms) /\ world s' = world s1 /\
    match k' with
    | Some k2 => in_k (thread_of ch) s' = Some (x, k2)
    | None => forall y k2, in_k (thread_of ch) s' = Some (y, k2) -> k2 = KGet
    end.
Proof.
  intros EK H. destruct ch; cbn [thread_of in_k exec_step] in *; try discriminate EK;
    unfold istep, cstep, tstep, next_task, cloop_next, tloop_next in H; branches H; try discriminate EK;
    injection EK as <- <-; injection H as <- <- <-; do 2 eexists; (split; [eassumption|]); (split; [reflexivity|]);
    cbn [in_k]; fields; try reflexivity; intros y k2 D; first [discriminate D | injection D as _ <-; reflexivity].
Qed.

(* the matches are the heads of Proj.cpending and Proj.tpending *)
Lemma in_cloop_next u m : In u (match cloop_next m with CIdle => [] | CLoop us => us | CK _ x r => x :: r end) -> In u m.
Proof. destruct m; cbn; auto. Qed.

Lemma in_tloop_next u m : In u (match tloop_next m with TAbsorb => [] | TK _ x r => x :: r end) -> In u m.
Proof. destruct m; cbn; auto. Qed.

(* the control flow of _handle_task and _launch_task on one task: where the intake can stand next *)
Inductive itflow (x : tdesc) : itpc -> itpc -> Prop :=
| fl_update : itflow x ITUpdate ITSpawn
| fl_spawn : itflow x ITSpawn ITPid
| fl_pid : itflow x ITPid (after_pid x)
| fl_hto : itflow x ITHto ITPut
| fl_put : itflow x ITPut ITLate
| fl_late : itflow x ITLate (ITK KGet)
| fl_cancel k k' : itflow x (ITK k) (ITK k')
| fl_except pc : itflow x pc ITXLock      (* an exception of _handle_task; also: KeyError on task['proc'] *)
| fl_xlock : itflow x ITXLock ITXPub
| fl_xpub : itflow x ITXPub ITXAdv.

Lemma istep_task s pc x rest s' es ms :
  ipc_ s = ITask pc x rest -> istep s = (s', es, ms) ->
  exists s1 npc, s' = set_ipc s1 npc /\ i_rest s1 = i_rest s /\
    (npc = next_task rest \/ exists pc', npc = ITask pc' x rest /\ itflow x pc pc').
Proof.
  intros EI H. unfold istep in H. rewrite EI in H. destruct pc as [| | | | | |kk| | |].
  7: { destruct (kstep (d_uid x) kk s) as [[[s1 k'] es1] ms1] eqn:EK. injection H as <- <- <-.
       destruct (kstep_frame _ _ _ _ _ _ _ EK) as (_ & _ & _ & _ & C5 & _).
       exists s1. eexists. split; [reflexivity|]. split; [exact C5|].
       destruct k' as [k2|]; [right; eexists; split; [reflexivity | constructor] | left; reflexivity]. }
  all: branches H; injection H as <- <- <-; eexists; eexists; (split; [reflexivity|]); (split; [reflexivity|]).
  all: first [left; reflexivity | right; eexists; split; [reflexivity | constructor]].
Qed.

Lemma filt_next_task kept r pc x rest : filt_next kept r <> ITask pc x rest.
Proof. unfold filt_next. destruct r; [destruct kept|]; discriminate. Qed.
Lemma next_task_pc l pc x rest : next_task l = ITask pc x rest -> pc = ITUpdate.
Proof. unfold next_task. destruct l; [discriminate|]. intros E; injection E as <- _ _. reflexivity. Qed.

Lemma istep_enters s s' es ms : istep s = (s', es, ms) ->
  forall pc x r, ipc_ s' = ITask pc x r -> pc = ITUpdate \/ exists pc0, ipc_ s = ITask pc0 x r /\ itflow x pc0 pc.
Proof.
  intros H. destruct (ipc_ s) as [|kept rest|x0 kept r0|kept|pc0 x0 rest] eqn:EI.
  5: { destruct (istep_task _ _ _ _ _ _ _ EI H) as (s1 & npc & -> & _ & [->|(pc' & -> & F)]); fields; intros pc x r E.
       - left. exact (next_task_pc _ _ _ _ E).
       - injection E as <- <- <-. right. exists pc0. split; [reflexivity | exact F]. }
  all: unfold istep in H; rewrite EI in H; revert H.
  - destruct (i_rest s) as [|b bs]; intros H; injection H as <- _ _; fields; intros pc x r E.
    + congruence.
    + destruct (negb _); [destruct (filt_next_task [] b _ _ _ E) | destruct (filt_next_task b [] _ _ _ E)].
  - destruct rest as [|x1 r1]; [|destruct (mem (d_uid x1) (clist s))]; intros H; injection H as <- _ _; fields; intros pc x r E.
    + destruct (filt_next_task kept [] _ _ _ E).
    + discriminate E.
    + destruct (filt_next_task (kept ++ [x1]) r1 _ _ _ E).
  - intros H; injection H as <- _ _; fields; intros pc x r E. destruct (filt_next_task kept r0 _ _ _ E).
  - intros H; injection H as <- _ _; fields; intros pc x r E. left. exact (next_task_pc _ _ _ _ E).
Qed.

(* a run-time limit is registered only for a task that has one *)
Lemma itflow_hto x pc : itflow x pc ITHto -> d_to x = true.
Proof.
  intros F. remember ITHto as p eqn:E. destruct F; try discriminate E.
  unfold after_pid in E. destruct (d_to x); [reflexivity | discriminate E].
Qed.
