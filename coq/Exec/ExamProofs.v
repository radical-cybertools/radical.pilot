(* Exec.ExamProofs -- a named task that was launched is examined for
   cancellation after it entered the executor's registry (Oracle.ok_named_examined),
   for every scenario and every schedule of Exec.Model.  The argument is the
   order inside BaseComponent._control_cb: the uids of a request are appended
   to the cancel list BEFORE control_cb looks them up in self._tasks; so when
   the lookup comes too early for a task (it is not yet registered), the late
   check of _launch_task finds the uid on the cancel list. *)
From Coq Require Import ZArith List Bool Permutation.
From RP Require Import Exec.Model Exec.Step Exec.Oracle Exec.Proj Exec.ProjProofs Exec.WfProofs Exec.Proofs.
Import ListNotations.

Definition looplist (p : cpc) : list Z := match p with CIdle => [] | CLoop us => us | CK _ _ r => r end.
(* the lookups the cancel handler has still to perform, in order *)
Definition backlog (s : state) : list Z := looplist (cpc_ s) ++ concat (c_rest s).
Definition pend (u : Z) (s : state) : Prop := In u (backlog s).
(* the intake has still to deal with u (and has not canceled it in its filter) *)
Definition live (u : Z) (s : state) : Prop :=
  In u (uids (ipending s)) /\ (forall x k r, ipc_ s = IFilterPub x k r -> d_uid x <> u).

(* u cannot slip past the intake: it is on the cancel list, or no longer the intake's to launch *)
Definition covered (u : Z) (s : state) : Prop := In u (clist s) \/ ~ live u s.

(* what an examination state demands: after a miss a lookup still to come, before the examination
   that u cannot slip past the intake, after it nothing.  Only a miss moves down. *)
Definition rank (g : gex) : Z := match g with G3 => 0 | G0 | G1 => 1 | G2 => 2 end.

Record einv (u : Z) (s : state) (g : gex) : Prop := mkEinv {
  einv_open : rank g <= 1 -> In u (concat (c_rest s)) \/ covered u s;
  einv_miss : g = G3 -> pend u s;
  (* the uids of a request are on the cancel list before the first of them is looked up *)
  einv_listed : In u (looplist (cpc_ s)) -> covered u s }.

Lemma covered_step u s s' : covered u s -> (In u (clist s) -> In u (clist s')) -> (live u s' -> live u s) -> covered u s'.
Proof. intros [A|A] HC HL; [left; exact (HC A) | right; intros L; exact (A (HL L))]. Qed.

Lemma looplist_next m : looplist (cloop_next m) = m.
Proof. destruct m; reflexivity. Qed.
Lemma looplist_lookup (f : bool) u r : looplist (if f then CK KGet u r else cloop_next r) = r.
Proof. destruct f; [reflexivity | apply looplist_next]. Qed.
Lemma looplist_k k' u r : looplist (match k' with Some k2 => CK k2 u r | None => cloop_next r end) = r.
Proof. destruct k'; [reflexivity | apply looplist_next]. Qed.

Lemma gex_other u th g k v a :
  (k =? K_TASKS_UPDATE) = false -> (k =? K_TASKS_GET) = false -> (k =? K_CLIST_IN) = false -> gex_ev u th g (k, v, a) = g.
Proof. intros A B C. unfold gex_ev. rewrite A, B, C. cbn [andb]. destruct (negb (v =? u)); reflexivity. Qed.

(* only three kinds of recorded action move the examination state: the others are passed over, whatever their uid *)
Definition gex_kind (e : event) : bool :=
  let '(k, _, _) := e in (k =? K_TASKS_UPDATE) || (k =? K_TASKS_GET) || (k =? K_CLIST_IN).
Lemma gex_quiet u th es : forall g, forallb (fun e => negb (gex_kind e)) es = true -> fold_left (gex_ev u th) es g = g.
Proof.
  induction es as [|[[k v] a] es IH]; intros g H; [reflexivity|]. cbn [forallb] in H. apply andb_prop in H as [H1 H2].
  apply negb_true_iff, orb_false_iff in H1 as [H1 C]. apply orb_false_iff in H1 as [A B].
  cbn [fold_left]. rewrite (gex_other u th g k v a A B C). exact (IH g H2).
Qed.
Lemma gex_lock u th g l a : gex_ev u th g (ev K_LOCK l a) = g.
Proof. apply gex_other; reflexivity. Qed.
Lemma gex_clrm u th g v a : gex_ev u th g (ev K_CLIST_REMOVE v a) = g.
Proof. apply gex_other; reflexivity. Qed.
Lemma gex_clin_I u g v a :
  gex_ev u ThI g (ev K_CLIST_IN v a) = if v =? u then match g with G1 => if a =? 1 then G2 else G3 | _ => g end else g.
Proof. unfold gex_ev, ev. destruct (v =? u); reflexivity. Qed.
Lemma gex_upd u th g v : gex_ev u th g (ev K_TASKS_UPDATE v 0) = if v =? u then match g with G0 => G1 | _ => g end else g.
Proof. unfold gex_ev, ev. destruct (v =? u); reflexivity. Qed.
Lemma gex_get_C u g v a : gex_ev u ThC g (ev K_TASKS_GET v a) = if v =? u then match g with G1 | G3 => G2 | _ => g end else g.
Proof. unfold gex_ev, ev. destruct (v =? u); reflexivity. Qed.

Lemma gex_kstep u th x k s s1 k' es ms g : kstep x k s = (s1, k', es, ms) -> fold_left (gex_ev u th) es g = g.
Proof.
  destruct k; cbn [kstep]; intros H;
    branches H; inversion H; subst; (apply gex_quiet; reflexivity).
Qed.

Lemma gex_wqget u th g l : fold_left (gex_ev u th) (map (fun v => ev K_WQ_GET v 0) l) g = g.
Proof. induction l as [|y l IH]; [reflexivity|]. cbn [map fold_left]. unfold ev. rewrite gex_other by reflexivity. exact IH. Qed.

Lemma gex_wstep u s s' es ms g : wstep s = (s', es, ms) -> fold_left (gex_ev u ThW) es g = g.
Proof.
  unfold wstep. destruct (wpc_ s) as [|pc x r adv|adv|adv].
  - intros H; injection H as <- <- <-. rewrite !fold_left_app, gex_wqget.
    destruct (Nat.ltb (length (firstn bulk (wq s))) bulk); cbn [fold_left]; unfold ev; rewrite ?gex_other by reflexivity; reflexivity.
  - intros H; branches H; inversion H; subst; (apply gex_quiet; reflexivity).
  - intros H; inversion H; subst; reflexivity.
  - intros H; inversion H; subst; reflexivity.
Qed.

Lemma gex_other_threads u ch s s' es ms g :
  exec_step ch s = (s', es, ms) -> ch <> CI -> ch <> CC -> fold_left (gex_ev u (thread_of ch)) es g = g.
Proof.
  intros H NI NC. destruct (in_k (thread_of ch) s) as [[x kk]|] eqn:EK.
  { destruct (step_k _ _ _ _ _ _ _ EK H) as (s1 & k' & HK & _). exact (gex_kstep _ _ _ _ _ _ _ _ _ g HK). }
  destruct ch; try destruct (NI eq_refl); try destruct (NC eq_refl); cbn [exec_step thread_of in_k] in *.
  - exact (gex_wstep u s s' es ms g H).
  - unfold tstep in H. destruct (tpc_ s); try discriminate EK. injection H as _ <- _. apply gex_lock.
  - unfold xstep in H. destruct (is_running (world s u0)); injection H as _ <- _; [apply gex_other|]; reflexivity.
Qed.

Lemma live_back k u ch s s' es ms : wf k u s -> exec_step ch s = (s', es, ms) -> live u s' -> live u s.
Proof.
  intros W H [L1 L2]. destruct (step_frame _ _ _ _ _ H) as [F _].
  destruct ch; try (destruct (F ThI) as [A B]; [discriminate|];
                    split; [rewrite <- (ipending_keeps s s' (conj A B)); exact L1 | intros x kk r E; apply (L2 x kk r); congruence]).
  cbn [exec_step] in H. destruct (istep_pending _ _ _ _ H) as [l P].
  assert (L1' : In u (uids (ipending s))).
  { apply (Permutation_in _ (Permutation_sym (Permutation_map d_uid P))). rewrite map_app. apply in_or_app. right. exact L1. }
  split; [exact L1'|]. intros x kk r E Eu.
  (* the intake was about to publish the unschedule of the filtered u: afterwards u is gone *)
  pose proof (wf_nodup _ _ _ W) as ND. unfold ipending, icur in ND. rewrite E in ND.
  unfold istep in H. rewrite E in H. injection H as <- <- <-.
  rewrite ipending_filt_next in L1. unfold later in *. fields.
  cbn [app uids map] in ND. apply NoDup_cons_iff in ND as [NI _].
  apply NI. rewrite Eu. exact L1.
Qed.

(* The invariant survives a step in two moves: what the step does to the state, the examination
   state held fixed (einv_transfer), and what it records, the state held fixed (einv_weaken, einv_missed). *)
Lemma einv_transfer u s s' g :
  einv u s g ->
  (In u (concat (c_rest s)) -> In u (concat (c_rest s')) \/ covered u s') ->
  (covered u s -> covered u s') ->
  (In u (looplist (cpc_ s')) -> In u (looplist (cpc_ s)) \/ covered u s') ->
  (g = G3 -> pend u s -> pend u s') ->
  einv u s' g.
Proof.
  intros [E1 E2 E3] HA HC HL HP. constructor.
  - intros R. destruct (E1 R) as [A|C]; [exact (HA A) | right; exact (HC C)].
  - intros Hg. exact (HP Hg (E2 Hg)).
  - intros Hi. destruct (HL Hi) as [B|C]; [exact (HC (E3 B)) | exact C].
Qed.

Lemma einv_weaken u s g g' : einv u s g -> rank g <= rank g' -> einv u s g'.
Proof.
  intros [E1 E2 E3] R. constructor.
  - intros R'. exact (E1 (Z.le_trans _ _ _ R R')).
  - intros ->. apply E2. destruct g; first [reflexivity | destruct (R eq_refl)].
  - exact E3.
Qed.

(* the late check (or the filter) of the intake misses u, which it still has to deal with:
   the request is not registered yet, so its lookup is still to come *)
Lemma einv_missed u s g :
  einv u s g -> live u s -> ~ In u (clist s) -> einv u s (match g with G1 => G3 | _ => g end).
Proof.
  intros [E1 E2 E3] Lv NI.
  assert (HA : rank g <= 1 -> In u (concat (c_rest s))).
  { intros R. destruct (E1 R) as [A|[A|A]]; [exact A | contradiction | destruct (A Lv)]. }
  constructor.
  - intros R. left. apply HA. destruct g; first [exact R | discriminate].
  - intros Hg. destruct g; try discriminate Hg; [apply in_or_app; right; apply HA; discriminate | apply E2; reflexivity].
  - exact E3.
Qed.

(* a step of another thread than the cancel handler that leaves the cancel list alone *)
Lemma einv_frame u s s' g :
  einv u s g -> (live u s' -> live u s) -> keeps ThC s s' -> clist s' = clist s -> einv u s' g.
Proof.
  intros E LB [A B] C. apply (einv_transfer u s s' g E); unfold pend, backlog; rewrite ?A, ?B; auto.
  intros Cv. apply (covered_step u s s' Cv); [rewrite C; auto | exact LB].
Qed.

Lemma einv_cstep k u s s' es ms g :
  wf k u s -> einv u s g -> cstep s = (s', es, ms) -> einv u s' (fold_left (gex_ev u ThC) es g).
Proof.
  intros W E H. pose proof (live_back k u CC s s' es ms W H) as LB.
  assert (HC : (In u (clist s) -> In u (clist s')) -> covered u s -> covered u s').
  { intros I C. exact (covered_step u s s' C I LB). }
  unfold cstep in H. destruct (cpc_ s) as [|us|kk x r] eqn:EC.
  - destruct (c_rest s) as [|m ms'] eqn:ER; injection H as <- <- <-.
    + exact E.
    + (* the uids of the request are on the cancel list before the first of them is looked up *)
      rewrite gex_quiet by reflexivity. fields.
      assert (L : In u m -> covered u (set_cpc (set_c_rest (set_clist s (clist s ++ m)) ms') (cloop_next m))).
      { intros A. left. fields. apply in_or_app. right. exact A. }
      apply (einv_transfer u s _ g E); unfold pend, backlog; fields; rewrite ?looplist_next, ?EC, ?ER; cbn [concat looplist].
      * rewrite in_app_iff. intros [A|A]; auto.
      * apply HC. fields. intros A. apply in_or_app. left. exact A.
      * auto.
      * auto.
  - destruct us as [|u0 r]; injection H as <- <- <-.
    + apply (einv_transfer u s _ g E); unfold pend, backlog; fields; rewrite ?EC; cbn [looplist]; auto.
    + cbn [fold_left]. rewrite gex_get_C.
      assert (R : rank g <= rank (if u0 =? u then match g with G1 | G3 => G2 | _ => g end else g))
        by (destruct (u0 =? u), g; discriminate).
      apply (einv_transfer u s _ _ (einv_weaken u s g _ E R)); unfold pend, backlog; fields; rewrite ?looplist_lookup, ?EC; cbn [looplist]; auto using in_cons.
      (* after a miss the lookup to come is not this one, or this one makes up for it *)
      intros Hg. destruct (u0 =? u) eqn:Eu; [destruct g; discriminate Hg|]. apply Z.eqb_neq in Eu.
      intros [A|A]; [congruence | exact A].
  - destruct (kstep x kk s) as [[[s1 k'] es1] ms1] eqn:EK. injection H as <- <- <-.
    destruct (kstep_frame _ _ _ _ _ _ _ EK) as (C1 & _ & _ & _ & _ & _ & C7 & _).
    rewrite (gex_kstep _ _ _ _ _ _ _ _ _ g EK).
    apply (einv_transfer u s _ g E); unfold pend, backlog; fields; rewrite ?looplist_k, ?C7, ?EC; cbn [looplist]; auto.
    apply HC. fields. rewrite C1. auto.
Qed.

Lemma einv_istep k u s s' es ms g :
  wf k u s -> einv u s g -> istep s = (s', es, ms) -> einv u s' (fold_left (gex_ev u ThI) es g).
Proof.
  intros W E H. pose proof (live_back k u CI s s' es ms W H) as LB.
  destruct (step_frame CI _ _ _ _ H) as [F _]. assert (K : keeps ThC s s') by (apply F; discriminate).
  pose proof (fun g' E' => einv_frame u s s' g' E' LB K) as Same.
  unfold istep in H. destruct (ipc_ s) as [|kept [|x r]|x kept r|kept|[| | | | | |kk| | |] x rest] eqn:EI.
  3: { (* the filter looks x up in the cancel list *)
    destruct (mem (d_uid x) (clist s)) eqn:EM; injection H as <- <- <-; cbn [fold_left]; rewrite gex_lock, gex_clin_I, ?gex_clrm.
    - (* a hit: x is taken off the list, and is no longer the intake's to launch *)
      apply (einv_weaken u _ g); [|destruct (d_uid x =? u), g; discriminate]. destruct K as [K1 K2].
      apply (einv_transfer u s _ g E); unfold pend, backlog; rewrite ?K1, ?K2; auto.
      intros C. destruct (Z.eq_dec (d_uid x) u) as [Eu|N].
      + right. intros [_ L2]. exact (L2 x kept r eq_refl Eu).
      + apply (covered_step u s _ C); [|exact LB]. fields. intros HI. apply mem_In. rewrite (mem_remove1_neq _ _ _ N). apply mem_In, HI.
    - apply Same; [|reflexivity]. destruct (d_uid x =? u) eqn:Eu; [|exact E]. apply Z.eqb_eq in Eu.
      apply (einv_missed u s g E); [|apply mem_false; rewrite <- Eu; exact EM].
      split.
      + unfold ipending, icur. rewrite EI, !uids_app. cbn [uids map]. apply in_or_app. left. apply in_or_app. right. left. exact Eu.
      + intros x0 k0 r0 E0. rewrite EI in E0. discriminate E0. }
  5: { (* ITUpdate: x enters self._tasks *)
    injection H as <- <- <-. cbn [fold_left]. rewrite gex_upd. apply Same; [|reflexivity].
    apply (einv_weaken u s g _ E). destruct (d_uid x =? u), g; discriminate. }
  9: { (* ITLate: the late check *)
    injection H as <- <- <-. cbn [fold_left]. rewrite gex_lock, gex_clin_I. apply Same; [|reflexivity].
    destruct (d_uid x =? u) eqn:Eu; [|exact E]. apply Z.eqb_eq in Eu. rewrite Eu in *.
    destruct (mem u (clist s)) eqn:EM.
    - apply (einv_weaken u s g _ E). destruct g; discriminate.
    - apply (einv_missed u s g E); [|exact (proj1 (mem_false _ _) EM)].
      split.
      + unfold ipending, icur. rewrite EI, uids_app. cbn [uids map]. apply in_or_app. left. left. exact Eu.
      + intros x0 k0 r0 E0. rewrite EI in E0. discriminate E0. }
  9: { (* cancel_task *)
    destruct (kstep (d_uid x) kk s) as [[[s1 k'] es1] ms1] eqn:EK. injection H as <- <- <-.
    destruct (kstep_frame _ _ _ _ _ _ _ EK) as (C1 & _). rewrite (gex_kstep _ _ _ _ _ _ _ _ _ g EK). apply Same; [exact E | fields; exact C1]. }
  all: branches H; injection H as <- <- <-; rewrite gex_quiet by reflexivity; (apply Same; [exact E | reflexivity]).
Qed.

Theorem einv_step k u ch s s' es ms g :
  wf k u s -> einv u s g -> exec_step ch s = (s', es, ms) ->
  einv u s' (fold_left (gex_ev u (thread_of ch)) es g).
Proof.
  intros W E H. destruct (step_frame _ _ _ _ _ H) as [F S]. destruct ch; cbn [shared_kept] in S.
  1: exact (einv_istep k u s s' es ms g W E H).
  1: exact (einv_cstep k u s s' es ms g W E H).
  all: rewrite (gex_other_threads u _ s s' es ms g H) by discriminate;
    apply (einv_frame u s s' g E (live_back k u _ s s' es ms W H)); [apply F; discriminate | apply S].
Qed.

Lemma gex_of_snoc u tr o : gex_of u (tr ++ [o]) = gex_step u (gex_of u tr) o.
Proof. unfold gex_of. rewrite fold_left_app. reflexivity. Qed.

Lemma run_einv k u sched s s' tr :
  run s sched = (s', tr) -> forall tr0, wf k u s /\ einv u s (gex_of u tr0) -> wf k u s' /\ einv u s' (gex_of u (tr0 ++ tr)).
Proof.
  apply (run_inv (fun s tr => wf k u s /\ einv u s (gex_of u tr))). clear s s' sched tr. intros s tr ch s1 es ms [W E] ES.
  split; [exact (wf_step _ _ _ _ _ _ _ W ES)|]. rewrite gex_of_snoc. exact (einv_step k u ch s s1 es ms _ W E ES).
Qed.

(* For every scenario and every schedule: at quiescence, a delivered uid that
   some cancel request names is not in state G3 -- if it was launched far
   enough to reach the late check, it has been examined for cancellation after
   it entered self._tasks (looked up by the cancel handler, or found on the
   cancel list by the late check, which then calls cancel_task). *)
Theorem named_examined sc sched s tr u :
  NoDup (delivered sc) -> In u (delivered sc) -> In u (named sc) ->
  run (init sc) sched = (s, tr) -> quiescent s = true -> gex_of u tr <> G3.
Proof.
  intros ND HI HN HR Q Hg.
  assert (E0 : einv u (init sc) (gex_of u [])).
  { constructor; cbn [gex_of fold_left].
    - intros _. left. unfold init. fields. exact HN.
    - intros X. discriminate X.
    - unfold init. fields. intros []. }
  destruct (run_einv (kof sc u) u _ _ _ _ HR [] (conj (wf_init sc u ND) E0)) as [_ E].
  destruct (quiescent_inv s Q) as (_ & EC & _ & _ & _ & ER & _).
  pose proof (einv_miss _ _ _ E Hg) as A. unfold pend, backlog in A. rewrite EC, ER in A. exact A.
Qed.

(* the same as the oracle clause evaluated by the harness on the traces of the real code *)
Theorem model_named_examined sc sched s tr :
  NoDup (delivered sc) -> run (init sc) sched = (s, tr) -> ok_named_examined sc tr (quiescent s) = true.
Proof.
  intros ND HR. unfold ok_named_examined. destruct (quiescent s) eqn:Q; [|reflexivity]. cbn [negb orb].
  apply forallb_forall. intros u Hu. apply filter_In in Hu as [HI HN]. apply mem_In in HN.
  pose proof (named_examined sc sched s tr u ND HI HN HR Q) as G. destruct (gex_of u tr); try reflexivity. contradiction.
Qed.
