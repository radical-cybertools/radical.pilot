(* Exec.KillProofs -- the kill reaches the running process, cancel_task does not
   wait for a natural end, bystanders are not signalled
   (Oracle.ok_kill_reaches, ok_no_natural_wait, ok_not_signalled), for every
   scenario and every schedule of Exec.Model, of any length.  The invariant
   relates the process table of the model to the history of recorded actions:
   the process of u runs iff the history says so (spawned, neither exited nor
   killed since), and while a kill attempt on u is under way and no signal was
   delivered without effect, the process does not run. *)
From Coq Require Import ZArith List Bool.
From RP Require Import Exec.Model Exec.Step Exec.Oracle Exec.Proj Exec.ProjProofs Exec.Proofs Exec.CancelProofs.
Import ListNotations.

(* recorded actions that say nothing about the process of u: those of another kind than
   spawn, exit and kill (tested first: most actions are settled by their kind), those about
   another uid, and a failed spawn *)
Definition irrel (u : Z) (e : event) : bool :=
  let '(k, v, a) := e in
  negb (k =? K_GSIG) &&
  (negb ((k =? K_SPAWN) || (k =? K_EXIT) || (k =? K_KILL)) || negb (v =? u) || ((k =? K_SPAWN) && negb (a =? 1))).

Definition kinv (u : Z) (s : state) (st : kst) : Prop :=
  ks_ok1 st = true /\ ks_ok2 st = true /\ ks_run st = is_running (world s u) /\
  (ks_killing st = true -> ks_noeff st = false -> is_running (world s u) = false).

(* such an action leaves the history's account of the process as it is; the return of a wait ends a kill attempt *)
Lemma kinv_irrel1 u s st e : kinv u s st -> irrel u e = true -> kinv u s (kst_ev u st e).
Proof.
  intros I H. destruct e as [[k v] a]. unfold irrel in H. unfold kst_ev. apply andb_prop in H as [_ H].
  destruct (v =? u); cbn [negb orb] in *; [|exact I].
  destruct (k =? K_SPAWN) eqn:E1.
  - cbn [orb negb andb] in H. destruct (a =? 1); [discriminate H | exact I].
  - destruct (k =? K_EXIT); [discriminate H|]. destruct (k =? K_KILL); [discriminate H|].
    destruct (k =? K_WAIT); [|exact I]. destruct I as (I1 & I2 & I3 & _). repeat split; auto. discriminate.
Qed.

Lemma kinv_irrel u s s1 es st :
  kinv u s st -> world s1 u = world s u -> forallb (irrel u) es = true -> kinv u s1 (fold_left (kst_ev u) es st).
Proof.
  intros I W H. assert (I1 : kinv u s1 st) by (unfold kinv in *; rewrite W; exact I). clear I. revert st I1.
  induction es as [|e es IH]; intros st I1; [exact I1|]. cbn [forallb] in H. apply andb_true_iff in H as [H1 H2].
  exact (IH H2 _ (kinv_irrel1 u s1 st e I1 H1)).
Qed.

(* what a step can do to the process of u, and what it records about it *)
Inductive proc_step (u : Z) (w w1 : Z -> pstate) (es : list event) : Prop :=
| ps_none : w1 u = w u -> forallb (irrel u) es = true -> proc_step u w w1 es
| ps_spawn : es = [ev K_SPAWN u 1; ev K_PROC_SET u 0] -> is_running (w1 u) = true -> proc_step u w w1 es
| ps_exit c : es = [ev K_EXIT u c] -> is_running (w u) = true -> is_running (w1 u) = false -> proc_step u w w1 es
| ps_kill : es = [ev K_PID u 1; ev K_KILL u 1; ev K_KILL u 0] -> is_running (w u) = true -> w1 u = PKilled -> proc_step u w w1 es
| ps_kill_noeffect : es = [ev K_PID u 1; ev K_KILL u 2; ev K_KILL u 2] -> w1 u = w u -> proc_step u w w1 es
| ps_kill_gone : es = [ev K_PID u 1; ev K_KILL u 0] -> is_running (w u) = false -> w1 u = w u -> proc_step u w w1 es.

Lemma irrel_other u x k a : x <> u -> (k =? K_GSIG) = false -> irrel u (k, x, a) = true.
Proof. intros N G. unfold irrel. rewrite G, (neq_eqb _ _ N). cbn [negb andb]. rewrite orb_true_r. reflexivity. Qed.

Lemma kstep_proc u x k s s1 k' es ms : kstep x k s = (s1, k', es, ms) -> proc_step u (world s) (world s1) es.
Proof.
  intros H. destruct (Z.eq_dec x u) as [->|N].
  - destruct k; cbn [kstep] in H.
    4: { destruct (world s u) eqn:EW; inversion H; subst; clear H; fields.
         - apply ps_kill_gone; rewrite ?EW; reflexivity.
         - apply ps_kill; rewrite ?upd_same, ?EW; reflexivity.
         - apply ps_kill_noeffect; rewrite ?EW; reflexivity.
         - apply ps_kill_gone; rewrite ?EW; reflexivity.
         - apply ps_kill_gone; rewrite ?EW; reflexivity. }
    all: branches H; inversion H; subst; clear H; fields; (apply ps_none; reflexivity).
  - destruct (kstep_other u x k s s1 k' es ms [] N H) as (_ & _ & W & _).
    apply ps_none; [exact W|].
    destruct k; cbn [kstep] in H;
      branches H;
      inversion H; subst; clear H; cbn [forallb app]; unfold ev;
      rewrite ?(irrel_other u x _ _ N) by reflexivity; reflexivity.
Qed.

Lemma irrel_wqget u l : forallb (irrel u) (map (fun v => ev K_WQ_GET v 0) l) = true.
Proof. induction l as [|y l IH]; [reflexivity|]. cbn [map forallb]. rewrite IH, andb_true_r. reflexivity. Qed.

Theorem exec_step_proc u ch s s1 es ms : exec_step ch s = (s1, es, ms) -> proc_step u (world s) (world s1) es.
Proof.
  intros H. destruct (in_k (thread_of ch) s) as [[x k]|] eqn:EK.
  { destruct (step_k _ _ _ _ _ _ _ EK H) as (s2 & k' & HK & W & _).
    rewrite W. exact (kstep_proc u _ _ _ _ _ _ _ HK). }
  destruct (step_frame _ _ _ _ _ H) as [_ S]. destruct ch; cbn [exec_step thread_of in_k shared_kept] in *.
  - (* intake: outside cancel_task the process table is written by the spawn only *)
    unfold istep in H. destruct (ipc_ s) as [|kept rest|x kept r|kept|[| | | | | |kk| | |] x rest] eqn:EI; try discriminate EK.
    6: { destruct (d_fault x) eqn:EF; inversion H; subst; clear H; fields.
         4: { apply ps_none; [reflexivity | cbn; rewrite orb_true_r; reflexivity]. }   (* the spawn failed *)
         all: destruct (Z.eq_dec (d_uid x) u) as [Eu|N];
           [ rewrite Eu; apply ps_spawn; [reflexivity | rewrite upd_same; destruct (d_stub x); reflexivity]
           | apply ps_none; [apply upd_other; exact N | cbn [forallb]; unfold ev; rewrite !(irrel_other u _ _ _ N) by reflexivity; reflexivity] ]. }
    all: branches H; inversion H; subst; apply ps_none; reflexivity.
  - unfold cstep in H. destruct (cpc_ s); try discriminate EK.
    all: branches H; inversion H; subst; apply ps_none; reflexivity.
  - destruct S as (_ & _ & W). apply ps_none; [rewrite W; reflexivity|].
    unfold wstep in H. destruct (wpc_ s) as [|pc x r adv|adv|adv].
    + injection H as <- <- <-. rewrite !forallb_app, irrel_wqget.
      destruct (Nat.ltb (length (firstn bulk (wq s))) bulk); reflexivity.
    + branches H; inversion H; subst; reflexivity.
    + inversion H; reflexivity.
    + inversion H; reflexivity.
  - unfold tstep in H. destruct (tpc_ s); try discriminate EK. inversion H; subst; apply ps_none; reflexivity.
  - unfold xstep in H. destruct (is_running (world s u0)) eqn:ER; inversion H; subst; clear H; fields.
    + destruct (Z.eq_dec u0 u) as [->|N].
      * apply (ps_exit _ _ _ _ code); [reflexivity | exact ER | rewrite upd_same; reflexivity].
      * apply ps_none; [apply upd_other; exact N | cbn [forallb]; unfold ev; rewrite (irrel_other u _ _ _ N) by reflexivity; reflexivity].
    + apply ps_none; reflexivity.
Qed.

Lemma kst_spawn u st : kst_ev u st (ev K_SPAWN u 1) = mkKst (ks_ok1 st) (ks_ok2 st) true false false.
Proof. unfold kst_ev, ev. rewrite Z.eqb_refl. reflexivity. Qed.
Lemma kst_exit u st c :
  kst_ev u st (ev K_EXIT u c)
  = mkKst (ks_ok1 st) (ks_ok2 st && (negb (ks_killing st) || ks_noeff st)) false (ks_killing st) (ks_noeff st).
Proof. unfold kst_ev, ev. rewrite Z.eqb_refl. reflexivity. Qed.
Lemma kst_kill u st a :
  kst_ev u st (ev K_KILL u a)
  = let ne := if ks_killing st then ks_noeff st else false in
    if a =? 1 then mkKst (ks_ok1 st) (ks_ok2 st) false true ne
    else if a =? 0 then mkKst (ks_ok1 st && negb (ks_run st)) (ks_ok2 st) (ks_run st) true ne
    else mkKst (ks_ok1 st) (ks_ok2 st) (ks_run st) true true.
Proof. unfold kst_ev, ev. rewrite Z.eqb_refl. reflexivity. Qed.
Lemma kst_pid u st a : kst_ev u st (ev K_PID u a) = st.
Proof. unfold kst_ev, ev. rewrite Z.eqb_refl. reflexivity. Qed.
Lemma kst_procset u st a : kst_ev u st (ev K_PROC_SET u a) = st.
Proof. unfold kst_ev, ev. rewrite Z.eqb_refl. reflexivity. Qed.

Lemma kinv_step u ch s s1 es ms st :
  kinv u s st -> exec_step ch s = (s1, es, ms) -> kinv u s1 (fold_left (kst_ev u) es st).
Proof.
  intros I H. pose proof I as (I1 & I2 & I3 & I4).
  destruct (exec_step_proc u ch s s1 es ms H) as [W Hi|E R|c E R0 R1|E R0 R1|E W|E R0 W].
  1: exact (kinv_irrel u s s1 es st I W Hi).
  (* otherwise the recorded actions are known *)
  all: subst es; cbn [fold_left]; unfold kinv.
  - rewrite kst_spawn, kst_procset. cbn [ks_ok1 ks_ok2 ks_run ks_killing ks_noeff]. rewrite R. repeat split; auto.
  - rewrite kst_exit. cbn [ks_ok1 ks_ok2 ks_run ks_killing ks_noeff]. rewrite R1, I2. repeat split; auto.
    (* a process that a kill attempt has signalled with effect does not run: it cannot exit now *)
    destruct (ks_killing st) eqn:K; [|reflexivity]. destruct (ks_noeff st) eqn:N; [reflexivity|].
    rewrite (I4 eq_refl eq_refl) in R0. discriminate R0.
  - rewrite kst_pid, !kst_kill. cbn [Z.eqb Pos.eqb ks_ok1 ks_ok2 ks_run ks_killing ks_noeff negb]. rewrite R1, I1. repeat split; auto.
  - rewrite kst_pid, !kst_kill. cbn [Z.eqb Pos.eqb ks_ok1 ks_ok2 ks_run ks_killing ks_noeff]. rewrite W. repeat split; auto. discriminate.
  - rewrite kst_pid, kst_kill. cbn [Z.eqb Pos.eqb ks_ok1 ks_ok2 ks_run ks_killing ks_noeff]. rewrite W, I1, I3, R0. repeat split; auto.
Qed.

Lemma all_events_snoc tr th es ms : all_events (tr ++ [(th, es, ms)]) = all_events tr ++ es.
Proof. unfold all_events. rewrite map_app, concat_app. cbn. rewrite app_nil_r. reflexivity. Qed.

Lemma run_kinv u sched s s' tr :
  run s sched = (s', tr) -> forall tr0, kinv u s (kst_of u (all_events tr0)) -> kinv u s' (kst_of u (all_events (tr0 ++ tr))).
Proof.
  apply (run_inv (fun s tr => kinv u s (kst_of u (all_events tr)))). clear s s' sched tr. intros s tr ch s1 es ms I ES.
  unfold kst_of. rewrite all_events_snoc, fold_left_app. exact (kinv_step u ch s s1 es ms _ I ES).
Qed.

Lemma kinv_init u sc : kinv u (init sc) kst0.
Proof. unfold kinv, kst0, init. fields. cbn. repeat split; auto. Qed.

(* For every scenario and every schedule: a signal is answered "no such
   process" only when the process does not run, and while a kill attempt is
   under way the process does not end by itself unless a signal was delivered
   without effect. *)
Theorem kill_reaches_and_no_natural_wait sc sched s tr u :
  run (init sc) sched = (s, tr) ->
  ks_ok1 (kst_of u (all_events tr)) = true /\ ks_ok2 (kst_of u (all_events tr)) = true /\
  ks_run (kst_of u (all_events tr)) = is_running (world s u).
Proof.
  intros HR. destruct (run_kinv u _ _ _ _ HR [] (kinv_init u sc)) as (A & B & C & _). auto.
Qed.

Theorem model_kill_reaches sc sched s tr :
  run (init sc) sched = (s, tr) -> ok_kill_reaches (delivered sc) tr = true /\ ok_no_natural_wait (delivered sc) tr = true.
Proof.
  intros HR. unfold ok_kill_reaches, ok_no_natural_wait. split; apply forallb_forall; intros u _;
    destruct (kill_reaches_and_no_natural_wait sc sched s tr u HR) as (A & B & _); assumption.
Qed.

Lemma proc_step_no_gsig u w w1 es : proc_step u w w1 es -> forall e, In e es -> (let '(k, _, _) := e in k =? K_GSIG) = false.
Proof.
  intros [_ Hi|E _|c E _ _|E _ _|E _|E _ _] e He.
  - rewrite forallb_forall in Hi. specialize (Hi e He). destruct e as [[k v] a]. unfold irrel in Hi.
    apply andb_true_iff in Hi as [Hi _]. apply negb_true_iff in Hi. exact Hi.
  - subst es. destruct He as [<-|[<-|[]]]; reflexivity.
  - subst es. destruct He as [<-|[]]; reflexivity.
  - subst es. destruct He as [<-|[<-|[<-|[]]]]; reflexivity.
  - subst es. destruct He as [<-|[<-|[<-|[]]]]; reflexivity.
  - subst es. destruct He as [<-|[<-|[]]]; reflexivity.
Qed.

Lemma event_origin sched s s' tr :
  run s sched = (s', tr) -> forall e, In e (all_events tr) ->
  exists sched1 ch s1 tr1 s2 es ms,
    exec_step ch s1 = (s2, es, ms) /\ In e es /\
    run s (sched1 ++ [ch]) = (s2, tr1 ++ [(thread_of ch, es, ms)]).
Proof.
  revert sched s s' tr. refine (run_ind _ _ _).
  - intros s e [].
  - intros s ch r s1 es ms s2 tr ES _ IH e He. change (In e (es ++ all_events tr)) in He. apply in_app_or in He as [He|He].
    + exists [], ch, s, [], s1, es, ms. cbn [app run]. rewrite ES. auto.
    + destruct (IH e He) as (sched1 & ch1 & s3 & tr1 & s4 & es1 & ms1 & E1 & I1 & R2).
      exists (ch :: sched1), ch1, s3, ((thread_of ch, es, ms) :: tr1), s4, es1, ms1. cbn [app run]. rewrite ES, R2. auto.
Qed.

Theorem no_group_signal sc sched s tr :
  run (init sc) sched = (s, tr) -> existsb (fun e : event => let '(k, _, _) := e in k =? K_GSIG) (all_events tr) = false.
Proof.
  intros HR. destruct (existsb _ (all_events tr)) eqn:E; [|reflexivity]. exfalso.
  apply existsb_exists in E as [e [He Hk]].
  destruct (event_origin _ _ _ _ HR _ He) as (sched1 & ch & s1 & tr1 & s2 & es & ms & ES & Ie & _).
  pose proof (proc_step_no_gsig 0 _ _ es (exec_step_proc 0 ch s1 s2 es ms ES) e Ie) as N. congruence.
Qed.

(* the process of a task that no request names and that has no run-time limit is never killed *)
Theorem bystander_never_killed sc sched s tr u :
  NoDup (delivered sc) -> In u (delivered sc) -> mem u (named sc) = false -> has_limit sc u = false ->
  run (init sc) sched = (s, tr) -> existsb (event_eqb (ev K_KILL u 1)) (all_events tr) = false.
Proof.
  intros ND HI HN HL HR. destruct (existsb _ (all_events tr)) eqn:E; [|reflexivity]. exfalso.
  apply existsb_exists in E as [e [He Hk]].
  assert (e = ev K_KILL u 1).
  { destruct e as [[k v] a]. unfold event_eqb, ev in *. apply andb_true_iff in Hk as [Hk A]. apply andb_true_iff in Hk as [K V].
    apply Z.eqb_eq in K, V, A. congruence. }
  subst e.
  destruct (event_origin _ _ _ _ HR _ He) as (sched1 & ch & s1 & tr1 & s2 & es & ms & ES & Ie & R2).
  destruct (bystanders_untouched_exec sc _ _ _ u ND HI R2 HN HL) as (NK & _).
  destruct (exec_step_proc u ch s1 s2 es ms ES) as [_ Hi|E _|c E _ _|E _ W|E _|E _ _].
  - rewrite forallb_forall in Hi. specialize (Hi _ Ie). unfold irrel, ev in Hi. rewrite (Z.eqb_refl u) in Hi. discriminate Hi.
  - subst es. destruct Ie as [X|[X|[]]]; discriminate X.
  - subst es. destruct Ie as [X|[]]; discriminate X.
  - exact (NK W).
  - subst es. destruct Ie as [X|[X|[X|[]]]]; discriminate X.
  - subst es. destruct Ie as [X|[X|[]]]; discriminate X.
Qed.

Theorem model_not_signalled sc sched s tr :
  NoDup (delivered sc) -> run (init sc) sched = (s, tr) -> ok_not_signalled sc tr = true.
Proof.
  intros ND HR. unfold ok_not_signalled. rewrite (no_group_signal sc sched s tr HR). cbn [negb andb].
  apply forallb_forall. intros x Hx. apply filter_In in Hx as [Hx Hc]. apply andb_true_iff in Hc as [Hn Ht].
  apply negb_true_iff in Hn, Ht. apply negb_true_iff.
  apply (bystander_never_killed sc sched s tr (d_uid x) ND); auto.
  - unfold delivered. apply in_map. exact Hx.
  - unfold has_limit. rewrite (kof_in sc (d_uid x) x ND Hx eq_refl). exact Ht.
Qed.
