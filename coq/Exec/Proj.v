(* Exec.Proj -- the view of one uid in a global state, and the well-formedness
   invariant under which every global step projects to a local move; also what
   the proofs about runs share (run_ind, run_inv, the saturating counters). *)
From Coq Require Import ZArith List Bool Lia.
From RP Require Import Common.ListFacts Exec.Model Exec.Oracle Exec.Local.
Import ListNotations.

Definition lworld_of (p : pstate) : lworld :=
  match p with PNone => LNone | PRunning => LRun | PStubborn => LStub | PExited _ => LExit | PKilled => LKill end.
Definition uids (l : list tdesc) : list Z := map d_uid l.
Definition later (s : state) : list tdesc := concat (i_rest s).
Definition cnt (u : Z) (l : list Z) : nat := length (filter (Z.eqb u) l).

Definition pos_in (u : Z) (kept rest : list tdesc) (s : state) : li :=
  if mem u (uids kept) then LiKept
  else if mem u (uids rest) || mem u (uids (later s)) then LiBefore else LiDone.

Definition view_i (u : Z) (s : state) : li :=
  match ipc_ s with
  | IIdle => pos_in u [] [] s
  | IFilter kept rest => pos_in u kept rest s
  | IFilterPub x kept rest => if d_uid x =? u then LiFilterPub else pos_in u kept rest s
  | IAdv kept => pos_in u kept [] s
  | ITask pc x rest =>
      if d_uid x =? u then LiAt pc
      else if mem u (uids rest) then LiAdvd
      else if mem u (uids (later s)) then LiBefore else LiDone
  end.

Definition view_c (u : Z) (s : state) : lk :=
  match cpc_ s with CK k x _ => if x =? u then LkAt k else LkOut | _ => LkOut end.
Definition view_t (u : Z) (s : state) : lk :=
  match tpc_ s with TK k x _ => if x =? u then LkAt k else LkOut | _ => LkOut end.

Definition lwt_of (p : wtpc) : lwt :=
  match p with WGet => LGet | WPoll => LPoll | WWait _ => LWait | WDel _ => LDel | WLock _ => LLock end.

Definition view_w (u : Z) (s : state) : lwf :=
  let q := mem u (wq s) in let w := mem u (w_watch s) in
  match wpc_ s with
  | WDrain => mkWf q w false 0%nat LwDrainPos
  | WTask pc x r adv => mkWf q w (mem u r) (sat (cnt u (map fst adv))) (if x =? u then LwAt (lwt_of pc) else LwIter)
  | WPub adv => mkWf q w false (sat (cnt u (map fst adv))) LwPub
  | WAdv adv => mkWf q w false (sat (cnt u (map fst adv))) LwAdv
  end.

Definition cnt_of (u : Z) (ems : list emission) : lcn :=
  mkCn (sat (n_adv SExecuting u ems)) (sat (n_adv SCanceled u ems)) (sat (n_adv SFailed u ems))
       (sat (n_adv SStaging u ems)) (sat (n_collected u ems)) (sat (n_canceled u ems)) (sat (n_uns u ems)).

Definition owns (u : Z) (o : stepobs) : bool :=
  let '(th, es, _) := o in negb (thread_eqb th ThW) && existsb (event_eqb (ev K_TASKS_DEL u 1)) es.
Definition own_of (u : Z) (tr : list stepobs) : bool := existsb (owns u) tr.

Definition view (k : lconst) (u : Z) (s : state) (tr : list stepobs) : lstate :=
  mkL k (mkSh (tasks s u) (procattr s u) (lworld_of (world s u)))
      (view_i u s) (view_c u s) (view_t u s) (view_w u s) (cnt_of u (emissions tr)) (own_of u tr).

Definition icur (s : state) : list tdesc :=
  match ipc_ s with
  | IIdle => [] | IFilter kept rest => kept ++ rest | IFilterPub x kept rest => x :: kept ++ rest
  | IAdv kept => kept | ITask _ x rest => x :: rest
  end.
Definition ipending (s : state) : list tdesc := icur s ++ later s.
Definition cpending (s : state) : list Z :=
  match cpc_ s with CIdle => [] | CLoop us => us | CK _ x r => x :: r end ++ concat (c_rest s) ++ clist s.
Definition tpending (s : state) : list Z :=
  match tpc_ s with TAbsorb => [] | TK _ x r => x :: r end ++ to_new s.

Record wf (k : lconst) (u : Z) (s : state) : Prop := mkWfS {
  wf_nodup : NoDup (uids (ipending s));
  wf_desc : forall x, In x (ipending s) -> d_uid x = u -> d_fault x = k_fault k /\ d_to x = k_to k /\ d_stub x = k_stub k;
  wf_named : k_named k = false -> ~ In u (cpending s);
  wf_to : k_to k = false -> ~ In u (tpending s);
  wf_hto : forall x r, ipc_ s = ITask ITHto x r -> d_to x = true }.

Lemma wf_named_in k u s : wf k u s -> In u (cpending s) -> k_named k = true.
Proof. intros W HI. destruct (k_named k) eqn:En; [reflexivity|]. destruct (wf_named _ _ _ W En HI). Qed.
Lemma wf_to_in k u s : wf k u s -> In u (tpending s) -> k_to k = true.
Proof. intros W HI. destruct (k_to k) eqn:En; [reflexivity|]. destruct (wf_to _ _ _ W En HI). Qed.

Lemma mem_In u l : mem u l = true <-> In u l.
Proof. apply (existsb_eqb_In _ Z.eqb_eq). Qed.
Lemma mem_false u l : mem u l = false <-> ~ In u l.
Proof. apply (existsb_eqb_not_In _ Z.eqb_eq). Qed.
Lemma clist_named k u s : wf k u s -> mem u (clist s) = true -> k_named k = true.
Proof. intros W M. apply (wf_named_in k u s W). unfold cpending. rewrite !in_app_iff. right. right. apply mem_In. exact M. Qed.
Lemma mem_app u a b : mem u (a ++ b) = mem u a || mem u b.
Proof. unfold mem. apply existsb_app. Qed.
Lemma mem_cons u x l : mem u (x :: l) = (u =? x) || mem u l.
Proof. reflexivity. Qed.
Lemma mem_remove1_neq u x l : x <> u -> mem u (remove1 x l) = mem u l.
Proof.
  intros N. induction l as [|y l IH]; [reflexivity|]. cbn [remove1].
  destruct (y =? x) eqn:E.
  - apply Z.eqb_eq in E. subst y. rewrite mem_cons. replace (u =? x) with false; [reflexivity|].
    symmetry. apply Z.eqb_neq. congruence.
  - rewrite !mem_cons, IH. reflexivity.
Qed.
Lemma mem_remove1_sub u x l : mem u (remove1 x l) = true -> mem u l = true.
Proof.
  induction l as [|y l IH]; [intros H; exact H|]. cbn [remove1].
  destruct (y =? x); rewrite ?mem_cons; intros H.
  - rewrite H. apply orb_true_r.
  - apply orb_true_iff in H as [H|H]; [rewrite H; reflexivity | rewrite (IH H); apply orb_true_r].
Qed.

Lemma run_ind (P : state -> list choice -> state -> list stepobs -> Prop) :
  (forall s, P s [] s []) ->
  (forall s ch r s1 es ms s2 tr,
     exec_step ch s = (s1, es, ms) -> run s1 r = (s2, tr) -> P s1 r s2 tr -> P s (ch :: r) s2 ((thread_of ch, es, ms) :: tr)) ->
  forall sched s s' tr, run s sched = (s', tr) -> P s sched s' tr.
Proof.
  intros P0 PS. induction sched as [|ch r IH]; intros s s' tr H; cbn [run] in H.
  - injection H as <- <-. apply P0.
  - destruct (exec_step ch s) as [[s1 es] ms] eqn:ES. destruct (run s1 r) as [s2 tr2] eqn:ER.
    injection H as <- <-. exact (PS _ _ _ _ _ _ _ _ ES ER (IH _ _ _ ER)).
Qed.

Lemma run_inv (I : state -> list stepobs -> Prop) :
  (forall s tr ch s1 es ms, I s tr -> exec_step ch s = (s1, es, ms) -> I s1 (tr ++ [(thread_of ch, es, ms)])) ->
  forall sched s s' tr, run s sched = (s', tr) -> forall tr0, I s tr0 -> I s' (tr0 ++ tr).
Proof.
  intros IS. apply (run_ind (fun s _ s' tr => forall tr0, I s tr0 -> I s' (tr0 ++ tr))).
  - intros s tr0 H. rewrite app_nil_r. exact H.
  - intros s ch r s1 es ms s2 tr ES _ IH tr0 H. pose proof (IH _ (IS _ _ _ _ _ _ H ES)) as H'.
    rewrite <- app_assoc in H'. exact H'.
Qed.

Lemma quiescent_inv s : quiescent s = true ->
  ipc_ s = IIdle /\ cpc_ s = CIdle /\ wpc_ s = WDrain /\ tpc_ s = TAbsorb /\
  i_rest s = [] /\ c_rest s = [] /\ to_new s = [] /\ w_watch s = [] /\ wq s = [].
Proof.
  unfold quiescent.
  destruct (ipc_ s), (cpc_ s), (wpc_ s), (tpc_ s); try discriminate.
  destruct (i_rest s), (c_rest s), (to_new s), (w_watch s), (wq s); try discriminate. repeat split.
Qed.

Lemma lquiescent_inv v : lquiescent v = true ->
  l_i v = LiDone /\ l_c v = LkOut /\ l_t v = LkOut /\ f_ph (l_w v) = LwDrainPos /\ f_inq (l_w v) = false /\ f_watch (l_w v) = false.
Proof.
  unfold lquiescent.
  destruct (l_i v), (l_c v), (l_t v), (f_ph (l_w v)), (f_inq (l_w v)), (f_watch (l_w v)); try discriminate. repeat split.
Qed.

Lemma cnt_app u a b : cnt u (a ++ b) = (cnt u a + cnt u b)%nat.
Proof. unfold cnt. rewrite filter_app, app_length. reflexivity. Qed.
Lemma cnt_nil u : cnt u [] = 0%nat.
Proof. reflexivity. Qed.
Lemma cnt_one u x : cnt u [x] = if x =? u then 1%nat else 0%nat.
Proof. unfold cnt. cbn [filter]. rewrite (Z.eqb_sym u x). destruct (x =? u); reflexivity. Qed.

Lemma sat_min n : sat n = Nat.min n 2.
Proof. destruct n as [|[|n]]; cbn [sat]; lia. Qed.
Lemma sat_id n : (n <= 1)%nat -> sat n = n.
Proof. rewrite sat_min. lia. Qed.
Lemma sat_sat n : sat (sat n) = sat n.
Proof. rewrite !sat_min. lia. Qed.
Lemma addc_sat a b : addc (sat a) b = sat (a + b).
Proof. unfold addc. rewrite !sat_min. lia. Qed.
Lemma addc_sat2 a b : addc (sat a) (sat b) = sat (a + b).
Proof. unfold addc. rewrite !sat_min. lia. Qed.
Lemma addc_0 a : addc (sat a) 0 = sat a.
Proof. rewrite addc_sat, Nat.add_0_r. reflexivity. Qed.

Lemma n_adv_app st u a b : n_adv st u (a ++ b) = (n_adv st u a + n_adv st u b)%nat.
Proof. induction a as [|[s items p|us|] a IH]; cbn [app n_adv]; rewrite ?IH; lia. Qed.
Lemma n_uns_app u a b : n_uns u (a ++ b) = (n_uns u a + n_uns u b)%nat.
Proof. induction a as [|[s items p|us|] a IH]; cbn [app n_uns]; rewrite ?IH; lia. Qed.
Lemma n_collected_app u a b : n_collected u (a ++ b) = (n_collected u a + n_collected u b)%nat.
Proof. induction a as [|[[] items []|us|] a IH]; cbn [app n_collected]; rewrite ?IH; lia. Qed.
Lemma n_canceled_app u a b : n_canceled u (a ++ b) = (n_canceled u a + n_canceled u b)%nat.
Proof. induction a as [|[[] items []|us|] a IH]; cbn [app n_canceled]; rewrite ?IH; lia. Qed.

Lemma n_adv_canceled_le u ems : (n_adv SCanceled u ems <= n_canceled u ems)%nat.
Proof. induction ems as [|[[] items []|us|] e IH]; cbn [n_canceled n_adv est_eqb counts andb]; lia. Qed.

Lemma emissions_snoc tr th es ms : emissions (tr ++ [(th, es, ms)]) = emissions tr ++ ms.
Proof. unfold emissions. rewrite map_app, concat_app. cbn. rewrite app_nil_r. reflexivity. Qed.

Lemma own_of_snoc u tr o : own_of u (tr ++ [o]) = own_of u tr || owns u o.
Proof. unfold own_of. rewrite existsb_app. cbn. rewrite orb_false_r. reflexivity. Qed.

(* the counters after one more step, as the local moves compute them *)
Definition delta (u : Z) (ms : list emission) : lcn := cnt_of u ms.
Definition cn_plus (c : lcn) (d : list emission) (u : Z) : lcn :=
  mkCn (addc (c_exec c) (n_adv SExecuting u d)) (addc (c_canc c) (n_adv SCanceled u d)) (addc (c_fail c) (n_adv SFailed u d))
       (addc (c_stage c) (n_adv SStaging u d)) (addc (c_coll c) (n_collected u d)) (addc (c_cncl c) (n_canceled u d))
       (addc (c_uns c) (n_uns u d)).
Lemma cnt_of_app u a b : cnt_of u (a ++ b) = cn_plus (cnt_of u a) b u.
Proof.
  unfold cnt_of, cn_plus; cbn [c_exec c_canc c_fail c_stage c_coll c_cncl c_uns].
  rewrite !n_adv_app, n_uns_app, n_collected_app, n_canceled_app, !addc_sat. reflexivity.
Qed.
Lemma cn_plus_nil u e : cn_plus (cnt_of u e) [] u = cnt_of u e.
Proof.
  unfold cn_plus, cnt_of; cbn [c_exec c_canc c_fail c_stage c_coll c_cncl c_uns n_adv n_uns n_collected n_canceled].
  rewrite !addc_0. reflexivity.
Qed.
