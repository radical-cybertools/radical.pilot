(* Exec.Local -- the executor seen from ONE task uid: a finite transition
   system.  Every step of the global model (Exec.Model.exec_step), projected on
   a uid, is either invisible or one of the local moves below (Exec.Proj).
   Lists are abstracted to membership flags, counters saturate at 2, and the
   cancel/timeout threads may call cancel_task(u) at any time (when the uid is
   named in a request / has a run-time limit): an over-approximation of what
   the threads do.  The reachable local states are explored by the kernel
   (vm_compute) and the clauses of C07/C08, the predicate `safe` below, checked
   on each.  Definitions only; proofs in Exec.LocalProofs. *)
From Coq Require Import ZArith List Bool PArith FMapPositive.
From RP Require Import Exec.Model.
Import ListNotations.
Local Open Scope nat_scope.

Inductive lworld := LNone | LRun | LStub | LExit | LKill.
Inductive lk := LkOut | LkAt (k : kpc).
Inductive li := LiBefore | LiFilterPub | LiKept | LiAdvd | LiAt (pc : itpc) | LiDone.
Inductive lwt := LGet | LPoll | LWait | LDel | LLock.
Inductive lwph := LwDrainPos | LwIter | LwAt (pc : lwt) | LwPub | LwAdv.

Record lconst := mkK { k_fault : fault; k_named : bool; k_to : bool; k_stub : bool }.
Record lsh := mkSh { h_tasks : bool; h_proc : bool; h_world : lworld }.
Record lwf := mkWf { f_inq : bool; f_watch : bool; f_iter : bool; f_adv : nat; f_ph : lwph }.
Record lcn := mkCn { c_exec : nat; c_canc : nat; c_fail : nat; c_stage : nat; c_coll : nat; c_cncl : nat; c_uns : nat }.
Record lstate := mkL { l_k : lconst; l_sh : lsh; l_i : li; l_c : lk; l_t : lk; l_w : lwf; l_n : lcn;
                       l_own : bool (* ghost: some cancel_task(u) removed u from _tasks *) }.

Definition sat (n : nat) : nat := match n with 0 => 0 | 1 => 1 | _ => 2 end.
Definition addc (n k : nat) : nat := sat (n + k).

Definition w_sh v x := mkL (l_k v) x (l_i v) (l_c v) (l_t v) (l_w v) (l_n v) (l_own v).
Definition w_i v x := mkL (l_k v) (l_sh v) x (l_c v) (l_t v) (l_w v) (l_n v) (l_own v).
Definition w_c v x := mkL (l_k v) (l_sh v) (l_i v) x (l_t v) (l_w v) (l_n v) (l_own v).
Definition w_t v x := mkL (l_k v) (l_sh v) (l_i v) (l_c v) x (l_w v) (l_n v) (l_own v).
Definition w_w v x := mkL (l_k v) (l_sh v) (l_i v) (l_c v) (l_t v) x (l_n v) (l_own v).
Definition w_n v x := mkL (l_k v) (l_sh v) (l_i v) (l_c v) (l_t v) (l_w v) x (l_own v).
Definition w_own v x := mkL (l_k v) (l_sh v) (l_i v) (l_c v) (l_t v) (l_w v) (l_n v) x.

Definition sh_tasks h b := mkSh b (h_proc h) (h_world h).
Definition sh_proc h b := mkSh (h_tasks h) b (h_world h).
Definition sh_world h w := mkSh (h_tasks h) (h_proc h) w.

Definition n_exec_ c k := mkCn (addc (c_exec c) k) (c_canc c) (c_fail c) (c_stage c) (c_coll c) (c_cncl c) (c_uns c).
Definition n_canc_ c k := mkCn (c_exec c) (addc (c_canc c) k) (c_fail c) (c_stage c) (c_coll c) (addc (c_cncl c) k) (c_uns c).
Definition n_fail_ c k := mkCn (c_exec c) (c_canc c) (addc (c_fail c) k) (c_stage c) (c_coll c) (c_cncl c) (c_uns c).
Definition n_stcoll_ c k := mkCn (c_exec c) (c_canc c) (c_fail c) (addc (c_stage c) k) (addc (c_coll c) k) (c_cncl c) (c_uns c).
Definition n_stcncl_ c k := mkCn (c_exec c) (c_canc c) (c_fail c) (addc (c_stage c) k) (c_coll c) (addc (c_cncl c) k) (c_uns c).
Definition n_uns_ c k := mkCn (c_exec c) (c_canc c) (c_fail c) (c_stage c) (c_coll c) (c_cncl c) (addc (c_uns c) k).

Definition wf_ph w p := mkWf (f_inq w) (f_watch w) (f_iter w) (f_adv w) p.
Definition wf_iter w b := mkWf (f_inq w) (f_watch w) b (f_adv w) (f_ph w).
Definition wf_watch w b := mkWf (f_inq w) b (f_iter w) (f_adv w) (f_ph w).

Definition lrunning (w : lworld) : bool := match w with LRun | LStub => true | _ => false end.

(* ---- cancel_task(u), locally: new state and continuation ---- *)
Definition lkstep (k : kpc) (v : lstate) : lstate * option kpc :=
  let h := l_sh v in
  match k with
  | KGet => (v, if h_proc h then Some KPoll else None)
  | KPoll => (v, if lrunning (h_world h) then Some KLock else None)
  | KLock => if h_tasks h then (w_own (w_sh v (sh_tasks h false)) true, Some KKill) else (v, None)
  | KKill => (w_sh v (sh_world h (match h_world h with LRun => LKill | w => w end)), Some KWait)
  | KWait => (v, if lrunning (h_world h) then Some KWait else Some KDel)     (* blocked while the process runs *)
  | KDel => (w_sh v (sh_proc h false), Some KPub)
  | KPub => (w_n v (n_uns_ (l_n v) 1), Some KAdv)
  | KAdv => (w_n v (n_stcncl_ (l_n v) 1), None)
  end.

Definition lk_of (o : option kpc) : lk := match o with Some k => LkAt k | None => LkOut end.
Definition li_of (o : option kpc) : li := match o with Some k => LiAt (ITK k) | None => LiDone end.

(* ---- what the watcher does after it is done with one list element ---- *)
Definition iter_advs (v : lstate) : list lstate :=
  let w := l_w v in
  (if f_iter w then [w_w v (wf_iter (wf_ph w (LwAt LGet)) true); w_w v (wf_iter (wf_ph w (LwAt LGet)) false)] else [])
  ++ [w_w v (wf_ph w LwIter)]
  ++ (if f_iter w then [] else [w_w v (wf_ph w LwPub)]).

(* remove(u) from to_watch: u may still be in the list if it was there twice *)
Definition drop_watch (v : lstate) : list lstate :=
  let w := l_w v in if f_watch w then [w_w v (wf_watch w false); v] else [v].

(* ---- the local moves ---- *)
Definition act_env (v : lstate) : list lstate :=
  match h_world (l_sh v) with LRun | LStub => [w_sh v (sh_world (l_sh v) LExit)] | _ => [] end.

Definition act_i (v : lstate) : list lstate :=
  let h := l_sh v in let k := l_k v in
  match l_i v with
  | LiBefore => [w_i v LiKept] ++ (if k_named k then [w_n (w_i v LiFilterPub) (n_canc_ (l_n v) 1)] else [])
  | LiFilterPub => [w_n (w_i v LiDone) (n_uns_ (l_n v) 1)]
  | LiKept => [w_n (w_i v (LiAt ITUpdate)) (n_exec_ (l_n v) 1); w_n (w_i v LiAdvd) (n_exec_ (l_n v) 1)]
  | LiAdvd => [w_i v (LiAt ITUpdate)]
  | LiDone => []
  | LiAt pc =>
      match pc with
      | ITUpdate => [w_i (w_sh v (sh_tasks h true))
                         (LiAt (match k_fault k with FNoLauncher | FScript => ITXLock | _ => ITSpawn end))]
      | ITSpawn => match k_fault k with
                   | FSpawn => [w_i v (LiAt ITXLock)]
                   | _ => [w_i (w_sh v (mkSh (h_tasks h) true (if k_stub k then LStub else LRun))) (LiAt ITPid)]
                   end
      | ITPid => if h_proc h
                 then match k_fault k with
                      | FAfterSpawn => [w_i v (LiAt ITXLock)]
                      | _ => [w_i v (LiAt (if k_to k then ITHto else ITPut))]
                      end
                 else [w_i v (LiAt ITXLock)]
      | ITHto => [w_i v (LiAt ITPut)]
      | ITPut => [w_i (w_w v (mkWf true (f_watch (l_w v)) (f_iter (l_w v)) (f_adv (l_w v)) (f_ph (l_w v)))) (LiAt ITLate)]
      | ITLate => [w_i v LiDone] ++ (if k_named k then [w_i v (LiAt (ITK KGet))] else [])
      | ITK kk => let '(v', o) := lkstep kk v in [w_i v' (li_of o)]
      | ITXLock => if h_tasks h then [w_i (w_sh v (sh_tasks h false)) (LiAt ITXPub)] else [w_i v LiDone]
      | ITXPub => [w_n (w_i v (LiAt ITXAdv)) (n_uns_ (l_n v) 1)]
      | ITXAdv => [w_n (w_i v LiDone) (n_fail_ (l_n v) 1)]
      end
  end.

Definition act_c (v : lstate) : list lstate :=
  match l_c v with
  | LkOut => if k_named (l_k v) then [w_c v (LkAt KGet)] else []
  | LkAt kk => let '(v', o) := lkstep kk v in [w_c v' (lk_of o)]
  end.

Definition act_t (v : lstate) : list lstate :=
  match l_t v with
  | LkOut => if k_to (l_k v) then [w_t v (LkAt KGet)] else []
  | LkAt kk => let '(v', o) := lkstep kk v in
               [w_t v' (lk_of o)] ++
               (* the next entry of the timeout table is taken up in the same step *)
               match o with None => if k_to (l_k v) then [w_t v' (LkAt KGet)] else [] | Some _ => [] end
  end.

Definition act_w (v : lstate) : list lstate :=
  let w := l_w v in let h := l_sh v in
  match f_ph w with
  | LwDrainPos =>
      (* one round of pulls takes at most MAX_QUEUE_BULKSIZE entries: u is taken (t) and/or stays queued (r) *)
      flat_map (fun tr : bool * bool =>
                  let '(t, r) := tr in
                  let wa := f_watch w || t in
                  [w_w v (mkWf r wa wa (f_adv w) LwIter)]
                  ++ (if wa then [w_w v (mkWf r wa true (f_adv w) (LwAt LGet)); w_w v (mkWf r wa false (f_adv w) (LwAt LGet))]
                      else [w_w v (mkWf r wa false (f_adv w) LwPub)]))
               (if f_inq w then [(true, false); (false, true); (true, true)] else [(false, false)])
  | LwIter => iter_advs v
  | LwAt LGet => if h_proc h then [w_w v (wf_ph w (LwAt LPoll))] else flat_map iter_advs (drop_watch v)
  | LwAt LPoll => match h_world h with
                  | LExit | LKill => [w_w v (wf_ph w (LwAt LWait))]
                  | _ => iter_advs v
                  end
  | LwAt LWait => map (fun v' => w_w v' (wf_ph (l_w v') (LwAt LDel))) (drop_watch v)
  | LwAt LDel => [w_w (w_sh v (sh_proc h false)) (wf_ph w (LwAt LLock))]
  | LwAt LLock =>
      if h_tasks h
      then iter_advs (w_w (w_sh v (sh_tasks h false)) (mkWf (f_inq w) (f_watch w) (f_iter w) (addc (f_adv w) 1) (f_ph w)))
      else iter_advs v
  | LwPub =>
      let v1 := w_n v (n_uns_ (l_n v) (f_adv w)) in
      [w_w v1 (wf_ph w LwAdv)] ++ (match f_adv w with 0 => [w_w v1 (wf_ph w LwDrainPos)] | _ => [] end)
  | LwAdv =>
      [w_w (w_n v (n_stcoll_ (l_n v) (f_adv w))) (mkWf (f_inq w) (f_watch w) (f_iter w) 0 LwDrainPos)]
  end.

Definition lnext (v : lstate) : list lstate := act_env v ++ act_i v ++ act_c v ++ act_t v ++ act_w v.

Definition linit (k : lconst) : lstate :=
  mkL k (mkSh false false LNone) LiBefore LkOut LkOut (mkWf false false false 0 LwDrainPos) (mkCn 0 0 0 0 0 0 0) false.

(* ---- boolean equality and an injective key ---- *)
Definition fault_n (f : fault) : N := match f with FNone => 0 | FNoLauncher => 1 | FScript => 2 | FSpawn => 3 | FAfterSpawn => 4 end.
Definition kpc_n (k : kpc) : N := match k with KGet => 0 | KPoll => 1 | KLock => 2 | KKill => 3 | KWait => 4 | KDel => 5 | KPub => 6 | KAdv => 7 end.
Definition itpc_n (p : itpc) : N :=
  match p with ITUpdate => 0 | ITSpawn => 1 | ITPid => 2 | ITHto => 3 | ITPut => 4 | ITLate => 5 | ITXLock => 6
             | ITXPub => 7 | ITXAdv => 8 | ITK k => 9 + kpc_n k end.
Definition li_n (i : li) : N :=
  match i with LiBefore => 0 | LiFilterPub => 1 | LiKept => 2 | LiAdvd => 3 | LiDone => 4 | LiAt p => 5 + itpc_n p end.
Definition lk_n (k : lk) : N := match k with LkOut => 0 | LkAt k => 1 + kpc_n k end.
Definition lwt_n (p : lwt) : N := match p with LGet => 0 | LPoll => 1 | LWait => 2 | LDel => 3 | LLock => 4 end.
Definition lwph_n (p : lwph) : N := match p with LwDrainPos => 0 | LwIter => 1 | LwPub => 2 | LwAdv => 3 | LwAt p => 4 + lwt_n p end.
Definition lworld_n (w : lworld) : N := match w with LNone => 0 | LRun => 1 | LExit => 2 | LKill => 3 | LStub => 4 end.
Definition b_n (b : bool) : N := if b then 1 else 0.

Local Open Scope N_scope.
Definition mix (acc radix d : N) : N := acc * radix + d.
Definition enc_n (v : lstate) : N :=
  let k := l_k v in let h := l_sh v in let w := l_w v in let c := l_n v in
  let a := fault_n (k_fault k) in
  let a := mix a 2 (b_n (k_named k)) in let a := mix a 2 (b_n (k_to k)) in let a := mix a 2 (b_n (k_stub k)) in
  let a := mix a 2 (b_n (h_tasks h)) in let a := mix a 2 (b_n (h_proc h)) in let a := mix a 8 (lworld_n (h_world h)) in
  let a := mix a 32 (li_n (l_i v)) in let a := mix a 16 (lk_n (l_c v)) in let a := mix a 16 (lk_n (l_t v)) in
  let a := mix a 2 (b_n (f_inq w)) in let a := mix a 2 (b_n (f_watch w)) in let a := mix a 2 (b_n (f_iter w)) in
  let a := mix a 4 (N.of_nat (f_adv w)) in let a := mix a 16 (lwph_n (f_ph w)) in
  let a := mix a 4 (N.of_nat (c_exec c)) in let a := mix a 4 (N.of_nat (c_canc c)) in let a := mix a 4 (N.of_nat (c_fail c)) in
  let a := mix a 4 (N.of_nat (c_stage c)) in let a := mix a 4 (N.of_nat (c_coll c)) in let a := mix a 4 (N.of_nat (c_cncl c)) in
  let a := mix a 4 (N.of_nat (c_uns c)) in
  mix a 2 (b_n (l_own v)).
Definition enc (v : lstate) : positive := N.succ_pos (enc_n v).
Local Close Scope N_scope.

Definition lstate_eqb (a b : lstate) : bool :=
  let ka := l_k a in let kb := l_k b in let ha := l_sh a in let hb := l_sh b in
  let wa := l_w a in let wb := l_w b in let ca := l_n a in let cb := l_n b in
  N.eqb (fault_n (k_fault ka)) (fault_n (k_fault kb)) && Bool.eqb (k_named ka) (k_named kb) && Bool.eqb (k_to ka) (k_to kb)
  && Bool.eqb (k_stub ka) (k_stub kb)
  && Bool.eqb (h_tasks ha) (h_tasks hb) && Bool.eqb (h_proc ha) (h_proc hb) && N.eqb (lworld_n (h_world ha)) (lworld_n (h_world hb))
  && N.eqb (li_n (l_i a)) (li_n (l_i b)) && N.eqb (lk_n (l_c a)) (lk_n (l_c b)) && N.eqb (lk_n (l_t a)) (lk_n (l_t b))
  && Bool.eqb (f_inq wa) (f_inq wb) && Bool.eqb (f_watch wa) (f_watch wb) && Bool.eqb (f_iter wa) (f_iter wb)
  && Nat.eqb (f_adv wa) (f_adv wb) && N.eqb (lwph_n (f_ph wa)) (lwph_n (f_ph wb))
  && Nat.eqb (c_exec ca) (c_exec cb) && Nat.eqb (c_canc ca) (c_canc cb) && Nat.eqb (c_fail ca) (c_fail cb)
  && Nat.eqb (c_stage ca) (c_stage cb) && Nat.eqb (c_coll ca) (c_coll cb) && Nat.eqb (c_cncl ca) (c_cncl cb)
  && Nat.eqb (c_uns ca) (c_uns cb) && Bool.eqb (l_own a) (l_own b).

(* ---- reachable set ---- *)
Module PM := PositiveMap.
Definition lset := PM.t lstate.
Definition in_set (v : lstate) (m : lset) : bool :=
  match PM.find (enc v) m with Some v' => lstate_eqb v v' | None => false end.

Definition visit (acc : lset * list lstate) (v : lstate) : lset * list lstate :=
  let '(m, nw) := acc in
  match PM.find (enc v) m with
  | Some _ => acc
  | None => (PM.add (enc v) v m, v :: nw)
  end.

Fixpoint bfs (fuel : nat) (frontier : list lstate) (m : lset) : lset :=
  match fuel with
  | O => m
  | S f =>
      match frontier with
      | [] => m
      | _ => let '(m', nw) := fold_left (fun acc v => fold_left visit (lnext v) acc) frontier (m, []) in
             bfs f nw m'
      end
  end.

Definition all_consts : list lconst :=
  flat_map (fun f => flat_map (fun n => flat_map (fun t => map (fun b => mkK f n t b) [false; true]) [false; true]) [false; true])
           [FNone; FNoLauncher; FScript; FSpawn; FAfterSpawn].
Definition linits : list lstate := map linit all_consts.
Definition reach_set : lset :=
  let '(m, nw) := fold_left visit linits (PM.empty lstate, []) in bfs 5000 nw m.

(* checks over all elements of the set (a fold over the tree: no deep recursion) *)
Definition allp (m : lset) (p : lstate -> bool) : bool := PM.fold (fun _ v acc => acc && p v) m true.
Definition closed (m : lset) : bool := allp m (fun v => forallb (fun v' => in_set v' m) (lnext v)).
Definition all_in (m : lset) (p : lstate -> bool) : bool := allp m p.

(* ---- what is read off the reachable set ---- *)
Definition lquiescent (v : lstate) : bool :=
  match l_i v, l_c v, l_t v, f_ph (l_w v) with
  | LiDone, LkOut, LkOut, LwDrainPos => negb (f_inq (l_w v)) && negb (f_watch (l_w v))
  | _, _, _, _ => false
  end.

Definition le1 (n : nat) : bool := Nat.leb n 1.
Definition hand (c : lcn) : nat := c_stage c + c_fail c + c_canc c.

(* C07, at any time: nothing twice, never both collected and canceled, announced first *)
Definition safe_always (v : lstate) : bool :=
  let c := l_n v in
  le1 (c_exec c) && le1 (hand c) && le1 (c_uns c) && le1 (f_adv (l_w v))
  && negb (Nat.ltb 0 (c_coll c) && Nat.ltb 0 (c_cncl c))
  && (Nat.eqb (c_stage c + c_fail c) 0 || Nat.eqb (c_exec c) 1)
  && (Nat.eqb (c_uns c) 0 || Nat.eqb (c_exec c) 1 || Nat.eqb (c_canc c) 1)
  && Nat.eqb (c_stage c) (c_coll c + (c_cncl c - c_canc c)).

(* C07, at quiescence: exactly once, and not left behind *)
Definition safe_quiescent (v : lstate) : bool :=
  let c := l_n v in
  negb (lquiescent v) ||
  ((Nat.eqb (c_exec c) 1 && Nat.eqb (c_canc c) 0 || Nat.eqb (c_exec c) 0 && Nat.eqb (c_canc c) 1)
   && Nat.eqb (hand c) 1 && Nat.eqb (c_uns c) 1 && negb (h_tasks (l_sh v))
   && (negb (h_proc (l_sh v)) || match k_fault (l_k v) with FAfterSpawn => true | _ => false end)).

(* C08: canceled => the process does not run; a task canceled at intake was never launched;
   once a cancel_task owns the task it is never collected and ends CANCELED *)
Definition safe_cancel (v : lstate) : bool :=
  let c := l_n v in
  (Nat.eqb (c_cncl c) 0 || negb (lrunning (h_world (l_sh v))))
  && (Nat.eqb (c_canc c) 0 || (match h_world (l_sh v) with LNone => true | _ => false end) && Nat.eqb (c_exec c) 0)
  && (negb (l_own v) || Nat.eqb (c_coll c) 0 && Nat.eqb (c_fail c) 0 && negb (lrunning (h_world (l_sh v)))
                        || match l_c v, l_t v, l_i v with
                           | LkAt KKill, _, _ | _, LkAt KKill, _ | _, _, LiAt (ITK KKill)
                           | LkAt KWait, _, _ | _, LkAt KWait, _ | _, _, LiAt (ITK KWait) => Nat.eqb (c_coll c) 0 && Nat.eqb (c_fail c) 0
                           | _, _, _ => false end)
  && (negb (l_own v && lquiescent v) || Nat.eqb (c_cncl c) 1 && Nat.eqb (c_stage c) 1).

(* C08: a task that is not named and has no run-time limit is never killed or
   canceled, and ends with its own outcome *)
Definition safe_bystander (v : lstate) : bool :=
  let c := l_n v in let k := l_k v in
  k_named k || k_to k ||
  (negb (match h_world (l_sh v) with LKill => true | _ => false end) && Nat.eqb (c_cncl c) 0 && negb (l_own v)
   && (negb (lquiescent v) ||
       match k_fault k with
       | FNone => Nat.eqb (c_coll c) 1 && Nat.eqb (c_fail c) 0
       | _ => Nat.eqb (c_fail c) 1 && Nat.eqb (c_stage c) 0
       end)).

Definition safe (v : lstate) : bool := safe_always v && safe_quiescent v && safe_cancel v && safe_bystander v.
