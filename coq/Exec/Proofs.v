(* Exec.Proofs -- C07 over the global model: every run (any number of tasks,
   any schedule) projects, for every delivered uid, onto a path of the local
   transition system; the clauses checked on the reachable local states carry
   over. *)
From Coq Require Import ZArith List Bool Lia.
From RP Require Import Exec.Model Exec.Step Exec.Oracle Exec.Local Exec.LocalProofs Exec.Proj Exec.ProjProofs Exec.WfProofs.
Import ListNotations.

Theorem step_proj k u ch s s' es ms tr :
  wf k u s -> exec_step ch s = (s', es, ms) -> proj_ok k u s s' tr (thread_of ch, es, ms).
Proof.
  intros W H. destruct ch; cbn [exec_step thread_of] in *.
  - exact (istep_proj _ _ _ _ _ _ _ W H).
  - exact (cstep_proj _ _ _ _ _ _ _ W H).
  - exact (wstep_proj _ _ _ _ _ _ _ H).
  - exact (tstep_proj _ _ _ _ _ _ _ W H).
  - exact (xstep_proj _ _ _ _ _ _ _ _ _ H).
Qed.

Lemma run_reach k u sched s s' tr :
  run s sched = (s', tr) -> forall tr0, wf k u s /\ lreach k (view k u s tr0) -> wf k u s' /\ lreach k (view k u s' (tr0 ++ tr)).
Proof.
  apply (run_inv (fun s tr => wf k u s /\ lreach k (view k u s tr))). clear s s' sched tr. intros s tr ch s1 es ms [W R] ES.
  split; [exact (wf_step _ _ _ _ _ _ _ W ES)|].
  destruct (step_proj k u ch s s1 es ms tr W ES) as [E|HI]; [exact (eq_ind_r (lreach k) R E) | exact (lr_step _ _ _ R HI)].
Qed.

Definition kof (sc : scenario) (u : Z) : lconst :=
  match find (fun x => d_uid x =? u) (concat (sc_batches sc)) with
  | Some x => mkK (d_fault x) (mem u (named sc)) (d_to x) (d_stub x)
  | None => mkK FNone (mem u (named sc)) false false
  end.

Lemma concat_filter_nonempty {A} (l : list (list A)) : concat (filter nonempty l) = concat l.
Proof. induction l as [|[|a b] l IH]; cbn [filter nonempty concat]; rewrite ?IH; reflexivity. Qed.

Lemma nodup_map_inj {A} (f : A -> Z) (l : list A) a b :
  NoDup (map f l) -> In a l -> In b l -> f a = f b -> a = b.
Proof.
  induction l as [|y l IH]; intros ND Ha Hb E; [destruct Ha|].
  cbn [map] in ND. apply NoDup_cons_iff in ND as [NI ND].
  destruct Ha as [->|Ha], Hb as [->|Hb]; try reflexivity.
  - exfalso. apply NI. rewrite E. apply in_map. exact Hb.
  - exfalso. apply NI. rewrite <- E. apply in_map. exact Ha.
  - exact (IH ND Ha Hb E).
Qed.

Lemma kof_in sc u x :
  NoDup (delivered sc) -> In x (concat (sc_batches sc)) -> d_uid x = u ->
  kof sc u = mkK (d_fault x) (mem u (named sc)) (d_to x) (d_stub x).
Proof.
  intros ND Hx Eu. unfold kof. destruct (find (fun x0 => d_uid x0 =? u) (concat (sc_batches sc))) as [x'|] eqn:EF.
  - apply find_some in EF as [Hx' E']. apply Z.eqb_eq in E'.
    rewrite (nodup_map_inj d_uid _ x' x ND Hx' Hx) by congruence. reflexivity.
  - apply (find_none _ _ EF) in Hx. apply Z.eqb_neq in Hx. contradiction.
Qed.

Lemma kof_named sc u : k_named (kof sc u) = mem u (named sc).
Proof. unfold kof. destruct (find _ _); reflexivity. Qed.

Lemma wf_init sc u : NoDup (delivered sc) -> wf (kof sc u) u (init sc).
Proof.
  intros ND.
  assert (HP : ipending (init sc) = concat (sc_batches sc)).
  { unfold ipending, icur, later, init. fields. cbn [app]. apply concat_filter_nonempty. }
  constructor.
  - rewrite HP. exact ND.
  - rewrite HP. intros x Hx Eu. rewrite (kof_in sc u x ND Hx Eu). repeat split; reflexivity.
  - intros En HI. unfold cpending, init in HI. fields. cbn [app] in HI. rewrite app_nil_r in HI.
    rewrite kof_named in En. apply mem_false in En. exact (En HI).
  - intros _ HI. unfold tpending, init in HI. fields. destruct HI.
  - intros x r E. unfold init in E. fields. discriminate E.
Qed.

Lemma view_init sc u : In u (delivered sc) -> view (kof sc u) u (init sc) [] = linit (kof sc u).
Proof.
  intros HI. unfold view, linit. f_equal.
  unfold view_i, pos_in, later, init. fields. rewrite concat_filter_nonempty.
  change (uids []) with (@nil Z). change (mem u []) with false. cbn [orb].
  apply mem_In in HI. unfold delivered in HI. unfold uids. rewrite HI. reflexivity.
Qed.

Theorem run_safe sc sched s tr u :
  NoDup (delivered sc) -> In u (delivered sc) -> run (init sc) sched = (s, tr) ->
  safe (view (kof sc u) u s tr) = true.
Proof.
  intros ND HI HR. apply (lreach_safe (kof sc u)).
  apply (run_reach _ u _ _ _ _ HR []). split; [exact (wf_init sc u ND)|]. rewrite (view_init _ _ HI). apply lr_init.
Qed.

Lemma quiescent_local k u s tr : quiescent s = true -> lquiescent (view k u s tr) = true.
Proof.
  intros Q. destruct (quiescent_inv s Q) as (EI & EC & EW & ET & E1 & _ & _ & E4 & E5).
  unfold lquiescent. cbn [view l_i l_c l_t l_w]. unfold view_i, view_c, view_t, view_w, pos_in, later.
  rewrite EI, EC, EW, ET, E1, E4, E5. reflexivity.
Qed.

Lemma sat_le1 n : Nat.leb (sat n) 1 = true -> (n <= 1)%nat.
Proof. destruct n as [|[|n]]; cbn; intros H; try lia; discriminate H. Qed.
Lemma sat_eq1 n : Nat.eqb (sat n) 1 = true -> n = 1%nat.
Proof. destruct n as [|[|n]]; cbn; intros H; try lia; discriminate H. Qed.
Lemma sat_eq0 n : Nat.eqb (sat n) 0 = true -> n = 0%nat.
Proof. destruct n as [|[|n]]; cbn; intros H; try lia; discriminate H. Qed.
Lemma sat_pos n : Nat.ltb 0 (sat n) = Nat.ltb 0 n.
Proof. destruct n as [|[|n]]; reflexivity. Qed.
Lemma sat3_le1 a b c : Nat.leb (sat a + sat b + sat c) 1 = true -> (a + b + c <= 1)%nat.
Proof. rewrite !sat_min. intros H. apply Nat.leb_le in H. lia. Qed.
Lemma sat3_eq1 a b c : Nat.eqb (sat a + sat b + sat c) 1 = true -> (a + b + c = 1)%nat.
Proof. rewrite !sat_min. intros H. apply Nat.eqb_eq in H. lia. Qed.

Lemma safe_clauses v : safe v = true ->
  safe_always v = true /\ safe_quiescent v = true /\ safe_cancel v = true /\ safe_bystander v = true.
Proof. unfold safe. rewrite !andb_true_iff. tauto. Qed.

(* The clauses of `safe` speak of saturated counters: here v is a local state
   whose counters are the saturated values of the true counts e .. un.  Each
   clause that bounds a counter by 1 gives the true count (sat_le1 and its
   like); after that sat n = n (sat_id) in the clauses that relate counters. *)
Section Counts.
Variables (v : lstate) (e c f st co cn un : nat).
Hypothesis Hn : l_n v = mkCn (sat e) (sat c) (sat f) (sat st) (sat co) (sat cn) (sat un).

Lemma always_counts :
  safe_always v = true ->
  ((e <= 1)%nat /\ (st + (f + c) <= 1)%nat /\ (un <= 1)%nat /\ ~ (0 < co /\ 0 < cn)%nat /\ ((0 < st + f)%nat -> e = 1%nat)) /\
  (co <= st)%nat.
Proof.
  intros S. unfold safe_always, le1, hand in S. rewrite Hn in S. cbn [c_exec c_canc c_fail c_stage c_coll c_cncl c_uns] in S.
  rewrite !andb_true_iff in S. destruct S as [[[[[[[S1 S2] S3] _] S4] S5] _] S6].
  apply sat_le1 in S1, S3. apply sat3_le1 in S2. rewrite !sat_pos, negb_true_iff, andb_false_iff, !Nat.ltb_ge in S4.
  rewrite (sat_id st), (sat_id f) in S5 by lia. rewrite (sat_id st) in S6 by lia. rewrite orb_true_iff, Nat.eqb_eq in S5. apply Nat.eqb_eq in S6.
  assert (C : (co <= 1)%nat) by (apply sat_le1, Nat.leb_le; lia). rewrite (sat_id co C) in S6.
  repeat split; try lia. destruct S5 as [S5|S5]; [lia | intros _; exact (sat_eq1 _ S5)].
Qed.

Lemma quiescent_counts :
  lquiescent v = true -> safe_quiescent v = true ->
  (e = 1 /\ c = 0 \/ e = 0 /\ c = 1)%nat /\ (st + (f + c))%nat = 1%nat /\ un = 1%nat /\ h_tasks (l_sh v) = false.
Proof.
  intros Q S. unfold safe_quiescent, hand in S. rewrite Q, Hn in S.
  cbn [negb orb c_exec c_canc c_fail c_stage c_uns] in S.
  rewrite !andb_true_iff in S. destruct S as [[[[S1 S2] S3] S4] _].
  apply sat3_eq1 in S2. apply sat_eq1 in S3. apply negb_true_iff in S4.
  repeat split; try assumption; [|lia].
  apply orb_true_iff in S1 as [S1|S1]; apply andb_true_iff in S1 as [A B]; [left | right];
    split; first [exact (sat_eq1 _ A) | exact (sat_eq0 _ A) | exact (sat_eq1 _ B) | exact (sat_eq0 _ B)].
Qed.
End Counts.

(* C07: at any time nothing happens twice *)
Theorem at_most_once sc sched s tr u :
  NoDup (delivered sc) -> In u (delivered sc) -> run (init sc) sched = (s, tr) ->
  let ems := emissions tr in
  (n_adv SExecuting u ems <= 1)%nat /\ (n_hand u ems <= 1)%nat /\ (n_uns u ems <= 1)%nat /\
  ~ (0 < n_collected u ems /\ 0 < n_canceled u ems)%nat /\
  ((0 < n_adv SStaging u ems + n_adv SFailed u ems)%nat -> n_adv SExecuting u ems = 1%nat).
Proof.
  intros ND HI HR ems. destruct (safe_clauses _ (run_safe _ _ _ _ _ ND HI HR)) as (SA & _).
  exact (proj1 (always_counts (view (kof sc u) u s tr) _ _ _ _ _ _ _ eq_refl SA)).
Qed.

(* C07: under fair completion everything happens exactly once *)
Theorem exactly_once sc sched s tr u :
  NoDup (delivered sc) -> In u (delivered sc) -> run (init sc) sched = (s, tr) -> quiescent s = true ->
  let ems := emissions tr in
  (n_adv SExecuting u ems = 1 /\ n_adv SCanceled u ems = 0 \/ n_adv SExecuting u ems = 0 /\ n_adv SCanceled u ems = 1)%nat /\
  n_hand u ems = 1%nat /\ n_uns u ems = 1%nat /\ tasks s u = false.
Proof.
  intros ND HI HR Q ems. destruct (safe_clauses _ (run_safe _ _ _ _ _ ND HI HR)) as (_ & SQ & _).
  exact (quiescent_counts (view (kof sc u) u s tr) _ _ _ _ _ _ _ eq_refl (quiescent_local _ _ _ _ Q) SQ).
Qed.

(* the same facts in the form of the oracle clauses that the harness evaluates
   on the traces of the real code *)
Theorem model_clauses sc sched s tr :
  NoDup (delivered sc) -> run (init sc) sched = (s, tr) ->
  let dl := delivered sc in let q := quiescent s in let ems := emissions tr in
  ok_announced dl q ems = true /\ ok_handed_on dl q ems = true /\ ok_unscheduled dl q ems = true /\
  ok_not_both dl ems = true.
Proof.
  intros ND HR dl q ems.
  assert (P : forall u, In u dl ->
     (Nat.leb (n_adv SExecuting u ems) 1 && (negb q || Nat.eqb (n_adv SExecuting u ems) 1
        || Nat.eqb (n_adv SExecuting u ems) 0 && Nat.eqb (n_adv SCanceled u ems) 1)) = true /\
     once q (n_hand u ems) = true /\ once q (n_uns u ems) = true /\
     negb (Nat.ltb 0 (n_collected u ems) && Nat.ltb 0 (n_canceled u ems)) = true).
  { intros u HI. destruct (at_most_once _ _ _ _ _ ND HI HR) as (A1 & A2 & A3 & A4 & _). fold ems in A1, A2, A3, A4.
    assert (B4 : negb (Nat.ltb 0 (n_collected u ems) && Nat.ltb 0 (n_canceled u ems)) = true)
      by (apply negb_true_iff, andb_false_iff; rewrite !Nat.ltb_ge; lia).
    unfold once. destruct q eqn:Q.
    - destruct (exactly_once _ _ _ _ _ ND HI HR Q) as (E1 & E2 & E3 & _). fold ems in E1, E2, E3.
      rewrite E2, E3. cbn [negb orb Nat.eqb]. repeat split; try assumption.
      apply andb_true_iff. split; [apply Nat.leb_le; exact A1|].
      destruct E1 as [[a b]|[a b]]; rewrite a, b; reflexivity.
    - cbn [negb orb]. rewrite andb_true_r. repeat split; try assumption; apply Nat.leb_le; assumption. }
  unfold ok_announced, ok_handed_on, ok_unscheduled, ok_not_both. rewrite !forallb_forall.
  repeat split; intros u HI; destruct (P u HI) as (P1 & P2 & P3 & P4); assumption.
Qed.
