(* Exec.LocalProofs -- `safe` holds in every reachable local state: a
   depth-first exploration from the initial states, which checks `safe` on every
   state it meets, terminates without a failure (evaluated by the kernel), and
   what such an exploration has visited is closed under the local moves.
   The exploration is this file's own (key, explore); no proof rests on the
   breadth-first one of Exec.Local (enc, visit, bfs, reach_set, closed). *)
From Coq Require Import ZArith List Bool.
From RP Require Import Exec.Model Exec.Local.
Import ListNotations.

(* An injective key for the set of visited states: one match per field, fixed
   width per type, no arithmetic -- the key is computed once for every state
   taken off the stack, 629 146 times, also by the kernel's own reduction
   (coqchk has no VM).  The counters are natural numbers and are written in
   unary (they stay below 3), so the key is injective on all states. *)
Local Open Scope positive_scope.
Definition kbool (b : bool) p := if b then p~1 else p~0.
Fixpoint kcnt (n : nat) p := match n with O => p~0 | S n => (kcnt n p)~1 end.
Definition kfault f p :=
  match f with FNone => p~0~0~0 | FNoLauncher => p~0~0~1 | FScript => p~0~1~0 | FSpawn => p~0~1~1 | FAfterSpawn => p~1~0~0 end.
Definition kworld w p :=
  match w with LNone => p~0~0~0 | LRun => p~0~0~1 | LStub => p~0~1~0 | LExit => p~0~1~1 | LKill => p~1~0~0 end.
Definition kkpc k p :=
  match k with KGet => p~0~0~0 | KPoll => p~0~0~1 | KLock => p~0~1~0 | KKill => p~0~1~1
             | KWait => p~1~0~0 | KDel => p~1~0~1 | KPub => p~1~1~0 | KAdv => p~1~1~1 end.
Definition klk k p := match k with LkOut => p~0~0~0~0 | LkAt k => kkpc k p~1 end.
Definition kitpc i p :=
  match i with ITUpdate => p~0~0~0~0~0 | ITSpawn => p~0~0~0~0~1 | ITPid => p~0~0~0~1~0 | ITHto => p~0~0~0~1~1 | ITPut => p~0~0~1~0~0
             | ITLate => p~0~0~1~0~1 | ITXLock => p~0~0~1~1~0 | ITXPub => p~0~0~1~1~1 | ITXAdv => p~0~1~0~0~0 | ITK k => kkpc k p~1~0 end.
Definition kli i p :=
  match i with LiBefore => p~0~0~0~0~0~0 | LiFilterPub => p~0~0~0~0~0~1 | LiKept => p~0~0~0~0~1~0 | LiAdvd => p~0~0~0~0~1~1
             | LiDone => p~0~0~0~1~0~0 | LiAt pc => kitpc pc p~1 end.
Definition klwt t p := match t with LGet => p~0~0~0 | LPoll => p~0~0~1 | LWait => p~0~1~0 | LDel => p~0~1~1 | LLock => p~1~0~0 end.
Definition klwph t p :=
  match t with LwDrainPos => p~0~0~0~0 | LwIter => p~0~0~0~1 | LwPub => p~0~0~1~0 | LwAdv => p~0~0~1~1 | LwAt t => klwt t p~1 end.

Definition key (v : lstate) : positive :=
  let k := l_k v in let h := l_sh v in let w := l_w v in let c := l_n v in
  kfault (k_fault k) (kbool (k_named k) (kbool (k_to k) (kbool (k_stub k)
  (kbool (h_tasks h) (kbool (h_proc h) (kworld (h_world h)
  (kli (l_i v) (klk (l_c v) (klk (l_t v)
  (kbool (f_inq w) (kbool (f_watch w) (kbool (f_iter w) (kcnt (f_adv w) (klwph (f_ph w)
  (kcnt (c_exec c) (kcnt (c_canc c) (kcnt (c_fail c) (kcnt (c_stage c) (kcnt (c_coll c) (kcnt (c_cncl c) (kcnt (c_uns c)
  (kbool (l_own v) 1)))))))))))))))))))))).
Local Close Scope positive_scope.

Ltac field_inj := cbn; intros H; inversion H; auto.
Lemma kbool_inj a b p q : kbool a p = kbool b q -> a = b /\ p = q.
Proof. destruct a, b; field_inj. Qed.
Lemma kcnt_inj a : forall b p q, kcnt a p = kcnt b q -> a = b /\ p = q.
Proof.
  induction a as [|a IH]; intros [|b] p q; cbn; intros H; inversion H; auto.
  destruct (IH _ _ _ H1) as [-> ->]. auto.
Qed.
Lemma kfault_inj a b p q : kfault a p = kfault b q -> a = b /\ p = q.
Proof. destruct a, b; field_inj. Qed.
Lemma kworld_inj a b p q : kworld a p = kworld b q -> a = b /\ p = q.
Proof. destruct a, b; field_inj. Qed.
Lemma klk_inj a b p q : klk a p = klk b q -> a = b /\ p = q.
Proof. destruct a as [|[]], b as [|[]]; field_inj. Qed.
Lemma kli_inj a b p q : kli a p = kli b q -> a = b /\ p = q.
Proof.
  destruct a as [| | | |[| | | | | |[]| | |]|], b as [| | | |[| | | | | |[]| | |]|]; field_inj.
Qed.
Lemma klwph_inj a b p q : klwph a p = klwph b q -> a = b /\ p = q.
Proof. destruct a as [| |[]| |], b as [| |[]| |]; field_inj. Qed.

Lemma key_inj a b : key a = key b -> a = b.
Proof.
  destruct a as [[fa na ta sa] [hta hpa hwa] ia ca tta [wia wwa wita wada wpa] [c1 c2 c3 c4 c5 c6 c7] oa].
  destruct b as [[fb nb tb sb] [htb hpb hwb] ib cb ttb [wib wwb witb wadb wpb] [d1 d2 d3 d4 d5 d6 d7] ob].
  unfold key; cbn [l_k l_sh l_i l_c l_t l_w l_n l_own k_fault k_named k_to k_stub h_tasks h_proc h_world
                          f_inq f_watch f_iter f_adv f_ph c_exec c_canc c_fail c_stage c_coll c_cncl c_uns].
  intros H.
  apply kfault_inj in H as [-> H]. do 3 apply kbool_inj in H as [-> H]. do 2 apply kbool_inj in H as [-> H].
  apply kworld_inj in H as [-> H]. apply kli_inj in H as [-> H]. do 2 apply klk_inj in H as [-> H].
  do 3 apply kbool_inj in H as [-> H]. apply kcnt_inj in H as [-> H]. apply klwph_inj in H as [-> H].
  do 7 apply kcnt_inj in H as [-> H]. apply kbool_inj in H as [-> _]. reflexivity.
Qed.

(* the exploration: `todo` is a stack of states still to be looked at, `m` the keys of the states visited *)
Definition kset := PM.t unit.

Fixpoint explore (fuel : nat) (todo : list lstate) (m : kset) : option kset :=
  match todo with
  | [] => Some m
  | v :: todo' =>
      match fuel with
      | O => None
      | S f =>
          let k := key v in
          match PM.find k m with
          | Some _ => explore f todo' m
          | None => if safe v then explore f (lnext v ++ todo') (PM.add k tt m) else None
          end
      end
  end.

Definition InM (v : lstate) (m : kset) : Prop := PM.find (key v) m = Some tt.

Lemma explore_sound fuel : forall todo m m',
  explore fuel todo m = Some m' ->
  (forall v, InM v m -> InM v m') /\ (forall v, In v todo -> InM v m') /\
  (forall v, InM v m' -> InM v m \/ safe v = true /\ forall v', In v' (lnext v) -> InM v' m').
Proof.
  induction fuel as [|f IH]; intros [|v todo] m m' E; cbn [explore] in E; try discriminate.
  1,2: injection E as <-; (split; [auto | split; [intros ? [] | auto]]).
  destruct (PM.find (key v) m) as [[]|] eqn:F.
  - destruct (IH _ _ _ E) as (A & B & C). split; [exact A|]. split; [|exact C].
    intros x [<-|Hx]; [exact (A _ F) | exact (B _ Hx)].
  - destruct (safe v) eqn:S; [|discriminate].
    destruct (IH _ _ _ E) as (A & B & C). unfold InM in *.
    split; [|split].
    + intros x Hx. apply A. rewrite PM.gso; [exact Hx | congruence].
    + intros x [<-|Hx]; [apply A, PM.gss | apply B, in_or_app; right; exact Hx].
    + intros x Hx. destruct (C _ Hx) as [Hx'|G]; [|right; exact G].
      destruct (Pos.eq_dec (key x) (key v)) as [K|K].
      * apply key_inj in K. subst x.
        right. split; [exact S|]. intros v' Hv'. apply B, in_or_app; left; exact Hv'.
      * rewrite PM.gso in Hx' by exact K. left; exact Hx'.
Qed.

Lemma all_consts_complete k : In k all_consts.
Proof. destruct k as [[] [] [] []]; vm_compute; repeat (first [left; reflexivity | right]). Qed.

Inductive lreach (k : lconst) : lstate -> Prop :=
| lr_init : lreach k (linit k)
| lr_step v v' : lreach k v -> In v' (lnext v) -> lreach k v'.

Lemma explore_safe fuel m :
  explore fuel linits (PM.empty unit) = Some m -> forall k v, lreach k v -> safe v = true.
Proof.
  intros X. destruct (explore_sound _ _ _ _ X) as (_ & B & C).
  assert (G : forall x, InM x m -> safe x = true /\ forall x', In x' (lnext x) -> InM x' m).
  { intros x Hx. destruct (C _ Hx) as [Hx'|G]; [|exact G].
    unfold InM in Hx'. rewrite PM.gempty in Hx'. discriminate Hx'. }
  intros k v H. apply G. induction H as [|v v' _ IH Hn].
  - apply B. unfold linits. apply in_map, all_consts_complete.
  - exact (proj2 (G _ IH) _ Hn).
Qed.

(* the finite part, done by the kernel: 40 initial states, 112 538 states,
   629 146 taken off the stack *)
Definition succeeds (o : option kset) : bool := if o then true else false.

Lemma exploration_succeeds : succeeds (explore (1000 * 1000) linits (PM.empty unit)) = true.
Proof. vm_cast_no_check (eq_refl true). Qed.     (* the kernel evaluates the exploration once, at Qed *)

(* `destruct` abstracts the closed term without evaluating it; anything that
   unifies against it (apply, rewrite) would start the exploration in the
   tactic engine's slow reduction *)
Theorem lreach_safe k v : lreach k v -> safe v = true.
Proof.
  pose proof exploration_succeeds as E.
  destruct (explore (1000 * 1000) linits (PM.empty unit)) as [m|] eqn:X; [|discriminate E].
  exact (explore_safe _ _ X k v).
Qed.

(* What Local.lstate_eqb and the codes of Exec.Local are; nothing above uses them
   (the exploration does not compare states). *)
Lemma fault_n_inj a b : N.eqb (fault_n a) (fault_n b) = true -> a = b.
Proof. destruct a, b; simpl; intros H; try reflexivity; discriminate H. Qed.
Lemma kpc_n_inj a b : kpc_n a = kpc_n b -> a = b.
Proof. destruct a, b; simpl; intros H; try reflexivity; discriminate H. Qed.
Lemma itpc_n_inj a b : itpc_n a = itpc_n b -> a = b.
Proof.
  destruct a as [| | | | | |ka| | |], b as [| | | | | |kb| | |];
    try destruct ka; try destruct kb; intros H; try reflexivity; vm_compute in H; discriminate H.
Qed.
Lemma li_n_inj a b : N.eqb (li_n a) (li_n b) = true -> a = b.
Proof.
  intros H; apply N.eqb_eq in H.
  destruct a as [| | | |[| | | | | |ka| | |]|], b as [| | | |[| | | | | |kb| | |]|];
    try destruct ka; try destruct kb; try reflexivity; vm_compute in H; discriminate H.
Qed.
Lemma lk_n_inj a b : N.eqb (lk_n a) (lk_n b) = true -> a = b.
Proof.
  intros H; apply N.eqb_eq in H.
  destruct a as [|[]], b as [|[]]; try reflexivity; vm_compute in H; discriminate H.
Qed.
Lemma lwt_n_inj a b : lwt_n a = lwt_n b -> a = b.
Proof. destruct a, b; simpl; intros H; try reflexivity; discriminate H. Qed.
Lemma lwph_n_inj a b : N.eqb (lwph_n a) (lwph_n b) = true -> a = b.
Proof.
  intros H; apply N.eqb_eq in H.
  destruct a as [| |[]| |], b as [| |[]| |]; try reflexivity; vm_compute in H; discriminate H.
Qed.
Lemma lworld_n_inj a b : N.eqb (lworld_n a) (lworld_n b) = true -> a = b.
Proof. destruct a, b; simpl; intros H; try reflexivity; discriminate H. Qed.

Lemma lstate_eqb_eq a b : lstate_eqb a b = true -> a = b.
Proof.
  destruct a as [[fa na ta sa] [hta hpa hwa] ia ca tta [wia wwa wita wada wpa] [c1 c2 c3 c4 c5 c6 c7] oa].
  destruct b as [[fb nb tb sb] [htb hpb hwb] ib cb ttb [wib wwb witb wadb wpb] [d1 d2 d3 d4 d5 d6 d7] ob].
  unfold lstate_eqb; cbn [l_k l_sh l_i l_c l_t l_w l_n l_own k_fault k_named k_to k_stub h_tasks h_proc h_world
                          f_inq f_watch f_iter f_adv f_ph c_exec c_canc c_fail c_stage c_coll c_cncl c_uns].
  intros H. repeat (apply andb_true_iff in H; destruct H as [H ?]).
  repeat match goal with
         | X : Bool.eqb _ _ = true |- _ => apply Bool.eqb_prop in X
         | X : Nat.eqb _ _ = true |- _ => apply Nat.eqb_eq in X
         end.
  apply fault_n_inj in H.
  repeat match goal with
         | X : N.eqb (lworld_n _) _ = true |- _ => apply lworld_n_inj in X
         | X : N.eqb (li_n _) _ = true |- _ => apply li_n_inj in X
         | X : N.eqb (lk_n _) _ = true |- _ => apply lk_n_inj in X
         | X : N.eqb (lwph_n _) _ = true |- _ => apply lwph_n_inj in X
         end.
  subst. reflexivity.
Qed.
