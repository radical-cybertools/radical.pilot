(* Exec.ProjProofs -- thread by thread: a step of the global model, seen from
   one uid, is invisible or a local move (any number of tasks).  Put together in
   Exec.Proofs.step_proj; the induction over the schedule is run_reach there. *)
From Coq Require Import ZArith List Bool Lia.
From RP Require Import Common.ListFacts Exec.Model Exec.Oracle Exec.Local Exec.Step Exec.Proj.
Import ListNotations.

(* the ten equations of Step.kstep_frame, under a name *)
Definition same_ctl (s s' : state) : Prop :=
  clist s' = clist s /\ to_new s' = to_new s /\ wq s' = wq s /\ ipc_ s' = ipc_ s /\ i_rest s' = i_rest s /\
  cpc_ s' = cpc_ s /\ c_rest s' = c_rest s /\ wpc_ s' = wpc_ s /\ w_watch s' = w_watch s /\ tpc_ s' = tpc_ s.

Lemma same_ctl_refl s : same_ctl s s.
Proof. repeat split. Qed.

Lemma neq_eqb x u : x <> u -> (x =? u) = false.
Proof. intros N. apply Z.eqb_neq. exact N. Qed.
Lemma neq_eqb' x u : x <> u -> (u =? x) = false.
Proof. intros N. apply Z.eqb_neq. congruence. Qed.

Lemma ev_del_neq u x a : x <> u -> event_eqb (ev K_TASKS_DEL u 1) (ev K_TASKS_DEL x a) = false.
Proof. intros N. unfold event_eqb, ev. rewrite (neq_eqb' _ _ N), andb_false_r. reflexivity. Qed.

Lemma cn_plus_uns_other e u x : x <> u -> cn_plus (cnt_of u e) [EUns [x]] u = cnt_of u e.
Proof.
  intros N. unfold cn_plus, cnt_of; cbn. rewrite (neq_eqb' _ _ N). cbn. rewrite !addc_0. reflexivity.
Qed.
Lemma cn_plus_adv_other e u x st cd tg p :
  x <> u -> cn_plus (cnt_of u e) [EAdv st [(x, cd, tg)] p] u = cnt_of u e.
Proof.
  intros N. unfold cn_plus, cnt_of; cbn. rewrite (neq_eqb _ _ N).
  destruct st, p; cbn; rewrite ?andb_false_l; cbn; rewrite !addc_0; reflexivity.
Qed.

(* of the steps of cancel_task(x) only the one at KLock records a removal from self._tasks, and only if x was registered *)
Lemma kstep_del u x k s s' k' es ms : kstep x k s = (s', k', es, ms) ->
  existsb (event_eqb (ev K_TASKS_DEL u 1)) es = match k with KLock => (x =? u) && tasks s x | _ => false end.
Proof.
  intros H. destruct k; cbn [kstep] in H; branches H; injection H as _ _ <- _; try reflexivity.
  - cbn. rewrite (Z.eqb_sym u x), orb_false_r. reflexivity.
  - symmetry. apply andb_false_r.
Qed.

Lemma kstep_other u x k s s' k' es ms e :
  x <> u -> kstep x k s = (s', k', es, ms) ->
  tasks s' u = tasks s u /\ procattr s' u = procattr s u /\ world s' u = world s u /\
  cn_plus (cnt_of u e) ms u = cnt_of u e /\ existsb (event_eqb (ev K_TASKS_DEL u 1)) es = false.
Proof.
  intros N H. rewrite (kstep_del u _ _ _ _ _ _ _ H), (neq_eqb _ _ N).
  destruct k; cbn [kstep] in H; branches H; injection H as <- _ _ <-; fields; rewrite ?(upd_other _ _ _ _ N); repeat split.
  all: first [apply cn_plus_nil | apply cn_plus_uns_other; exact N | apply cn_plus_adv_other; exact N].
Qed.

Lemma lrunning_of p : lrunning (lworld_of p) = is_running p.
Proof. destruct p; reflexivity. Qed.

Lemma cn_plus_uns_same e u : cn_plus (cnt_of u e) [EUns [u]] u = n_uns_ (cnt_of u e) 1.
Proof. unfold cn_plus, n_uns_, cnt_of; cbn. rewrite Z.eqb_refl. cbn. rewrite !addc_0. reflexivity. Qed.
Lemma cn_plus_stcncl_same e u : cn_plus (cnt_of u e) [EAdv SStaging [(u, None, TgCanceled)] true] u = n_stcncl_ (cnt_of u e) 1.
Proof. unfold cn_plus, n_stcncl_, cnt_of; cbn. rewrite Z.eqb_refl. cbn. rewrite !addc_0. reflexivity. Qed.
Lemma cn_plus_fail_same e u x : d_uid x = u -> cn_plus (cnt_of u e) [EAdv SFailed [exec_item x] false] u = n_fail_ (cnt_of u e) 1.
Proof. intros <-. unfold cn_plus, n_fail_, cnt_of, exec_item; cbn. rewrite Z.eqb_refl. cbn. rewrite !addc_0. reflexivity. Qed.
Lemma cn_plus_canc_same e u x : d_uid x = u -> cn_plus (cnt_of u e) [EAdv SCanceled [exec_item x] false] u = n_canc_ (cnt_of u e) 1.
Proof. intros <-. unfold cn_plus, n_canc_, cnt_of, exec_item; cbn. rewrite Z.eqb_refl. cbn. rewrite !addc_0. reflexivity. Qed.

Definition proj_ok (k : lconst) (u : Z) (s s' : state) (tr : list stepobs) (o : stepobs) : Prop :=
  view k u s' (tr ++ [o]) = view k u s tr \/ In (view k u s' (tr ++ [o])) (lnext (view k u s tr)).

Lemma view_snoc k u s' tr th es ms :
  view k u s' (tr ++ [(th, es, ms)]) =
  mkL k (mkSh (tasks s' u) (procattr s' u) (lworld_of (world s' u))) (view_i u s') (view_c u s') (view_t u s') (view_w u s')
      (cn_plus (cnt_of u (emissions tr)) ms u)
      (own_of u tr || (negb (thread_eqb th ThW) && existsb (event_eqb (ev K_TASKS_DEL u 1)) es)).
Proof. unfold view. rewrite emissions_snoc, cnt_of_app, own_of_snoc. reflexivity. Qed.

(* ... when the step records no removal from self._tasks by cancel_task(u) *)
Lemma view_snoc_q k u s' tr th es ms :
  existsb (event_eqb (ev K_TASKS_DEL u 1)) es = false ->
  view k u s' (tr ++ [(th, es, ms)]) =
  mkL k (mkSh (tasks s' u) (procattr s' u) (lworld_of (world s' u))) (view_i u s') (view_c u s') (view_t u s') (view_w u s')
      (cn_plus (cnt_of u (emissions tr)) ms u) (own_of u tr).
Proof. intros H. rewrite view_snoc, H, andb_false_r, orb_false_r. reflexivity. Qed.

Lemma view_i_keeps u s s' : keeps ThI s s' -> view_i u s' = view_i u s.
Proof. unfold view_i, pos_in, later. intros [-> ->]. reflexivity. Qed.
Lemma view_c_keeps u s s' : keeps ThC s s' -> view_c u s' = view_c u s.
Proof. unfold view_c. intros [-> _]. reflexivity. Qed.
Lemma view_t_keeps u s s' : keeps ThT s s' -> view_t u s' = view_t u s.
Proof. unfold view_t, keeps. intros ->. reflexivity. Qed.
Lemma view_w_keeps u s s' : keeps ThW s s' -> wq s' = wq s -> view_w u s' = view_w u s.
Proof. unfold view_w. intros [-> ->] ->. reflexivity. Qed.

Lemma in_act_env v x : In x (act_env v) -> In x (lnext v).
Proof. unfold lnext. rewrite !in_app_iff. tauto. Qed.
Lemma in_act_i v x : In x (act_i v) -> In x (lnext v).
Proof. unfold lnext. rewrite !in_app_iff. tauto. Qed.
Lemma in_act_c v x : In x (act_c v) -> In x (lnext v).
Proof. unfold lnext. rewrite !in_app_iff. tauto. Qed.
Lemma in_act_t v x : In x (act_t v) -> In x (lnext v).
Proof. unfold lnext. rewrite !in_app_iff. tauto. Qed.
Lemma in_act_w v x : In x (act_w v) -> In x (lnext v).
Proof. unfold lnext. rewrite !in_app_iff. tauto. Qed.

(* cancel_task(u), by whichever thread runs it, is the local cancel_task on the view of u *)
Lemma kstep_seen k u kk s s1 k' es ms tr th :
  kstep u kk s = (s1, k', es, ms) -> thread_eqb th ThW = false ->
  lkstep kk (view k u s tr) = (view k u s1 (tr ++ [(th, es, ms)]), k').
Proof.
  intros H T. pose proof (kstep_keeps _ _ _ _ _ _ _ H) as F. destruct (kstep_frame _ _ _ _ _ _ _ H) as (_ & _ & C3 & _).
  rewrite view_snoc, T, (kstep_del u _ _ _ _ _ _ _ H), Z.eqb_refl,
    (view_i_keeps u s s1 (F ThI)), (view_c_keeps u s s1 (F ThC)), (view_t_keeps u s s1 (F ThT)), (view_w_keeps u s s1 (F ThW) C3).
  unfold view. clear F C3. cbn [negb andb].
  destruct kk; cbn [kstep] in H;
    [ | | | destruct (world s u) eqn:EW | destruct (world s u) eqn:EW; cbn [is_running] in H | | | ];
    injection H as <- <- _ <-; fields;
    cbn [lkstep l_sh l_n h_tasks h_proc h_world w_own w_sh w_n sh_tasks sh_proc sh_world l_k l_i l_c l_t l_w l_own];
    rewrite ?lrunning_of, ?upd_same, ?cn_plus_uns_same, ?cn_plus_stcncl_same, ?cn_plus_nil, ?orb_false_r, ?EW; try reflexivity.
  (* left: KLock, where the own flag rises if u was registered *)
  destruct (tasks s u); [rewrite orb_true_r | rewrite orb_false_r]; reflexivity.
Qed.

Lemma kstep_unseen k u x kk s s1 k' es ms tr th :
  x <> u -> kstep x kk s = (s1, k', es, ms) -> view k u s1 (tr ++ [(th, es, ms)]) = view k u s tr.
Proof.
  intros N H. pose proof (kstep_keeps _ _ _ _ _ _ _ H) as F. destruct (kstep_frame _ _ _ _ _ _ _ H) as (_ & _ & C3 & _).
  destruct (kstep_other u x kk s s1 k' es ms (emissions tr) N H) as (K1 & K2 & K3 & K4 & K5).
  rewrite view_snoc_q by exact K5.
  rewrite K1, K2, K3, K4, (view_i_keeps u s s1 (F ThI)), (view_c_keeps u s s1 (F ThC)), (view_t_keeps u s s1 (F ThT)), (view_w_keeps u s s1 (F ThW) C3).
  reflexivity.
Qed.

Lemma view_set_cpc k u s p tr : view k u (set_cpc s p) tr = w_c (view k u s tr) (view_c u (set_cpc s p)).
Proof. reflexivity. Qed.
Lemma view_set_tpc k u s p tr : view k u (set_tpc s p) tr = w_t (view k u s tr) (view_t u (set_tpc s p)).
Proof. reflexivity. Qed.
Lemma view_set_ipc k u s p tr : view k u (set_ipc s p) tr = w_i (view k u s tr) (view_i u (set_ipc s p)).
Proof. reflexivity. Qed.
Lemma w_c_id k u s tr c : view_c u s = c -> w_c (view k u s tr) c = view k u s tr.
Proof. intros <-. reflexivity. Qed.
Lemma w_t_id k u s tr t : view_t u s = t -> w_t (view k u s tr) t = view k u s tr.
Proof. intros <-. reflexivity. Qed.

Lemma view_silent k u s tr th es :
  existsb (event_eqb (ev K_TASKS_DEL u 1)) es = false -> view k u s (tr ++ [(th, es, [])]) = view k u s tr.
Proof. intros H. rewrite view_snoc_q by exact H. rewrite cn_plus_nil. reflexivity. Qed.

(* a thread outside cancel_task(u) stays outside, or enters it when u is named in a request / has a run-time limit *)
Lemma w_c_out k u s tr c' :
  view_c u s = LkOut -> c' = LkOut \/ c' = LkAt KGet /\ k_named k = true ->
  w_c (view k u s tr) c' = view k u s tr \/ In (w_c (view k u s tr) c') (lnext (view k u s tr)).
Proof.
  intros Hc [->|[-> Hn]]; [left; apply w_c_id; exact Hc|].
  right. apply in_act_c. unfold act_c. change (l_c (view k u s tr)) with (view_c u s). rewrite Hc.
  change (l_k (view k u s tr)) with k. rewrite Hn. left. reflexivity.
Qed.
Lemma w_t_out k u s tr t' :
  view_t u s = LkOut -> t' = LkOut \/ t' = LkAt KGet /\ k_to k = true ->
  w_t (view k u s tr) t' = view k u s tr \/ In (w_t (view k u s tr) t') (lnext (view k u s tr)).
Proof.
  intros Hc [->|[-> Hn]]; [left; apply w_t_id; exact Hc|].
  right. apply in_act_t. unfold act_t. change (l_t (view k u s tr)) with (view_t u s). rewrite Hc.
  change (l_k (view k u s tr)) with k. rewrite Hn. left. reflexivity.
Qed.

Lemma cstep_proj k u s s' es ms tr :
  wf k u s -> cstep s = (s', es, ms) -> proj_ok k u s s' tr (ThC, es, ms).
Proof.
  intros W H. unfold proj_ok. unfold cstep in H.
  destruct (cpc_ s) as [|us|kk x r] eqn:EC.
  (* outside cancel_task the handler writes the cancel list and its own variables: of these u sees the pc alone *)
  1-2: assert (Hc : view_c u s = LkOut) by (unfold view_c; rewrite EC; reflexivity).
  - (* CIdle *)
    destruct (c_rest s) as [|m ms'] eqn:ER; injection H as <- <- <-; rewrite view_silent by reflexivity.
    + left. reflexivity.
    + apply (w_c_out k u s tr _ Hc). left. unfold view_c. fields. destruct m; reflexivity.
  - (* CLoop *)
    destruct us as [|u0 r]; injection H as <- <- <-; rewrite view_silent by reflexivity; apply (w_c_out k u s tr _ Hc).
    + left. reflexivity.
    + (* the lookup of u0: if it is u and registered, cancel_task(u) starts *)
      unfold view_c. fields. destruct (tasks s u0); [|left; destruct r; reflexivity].
      destruct (u0 =? u) eqn:Eu; [|left; reflexivity]. apply Z.eqb_eq in Eu. subst u0. right. split; [reflexivity|].
      apply (wf_named_in k u s W). unfold cpending. rewrite EC. left. reflexivity.
  - (* CK *)
    destruct (kstep x kk s) as [[[s1 k'] es1] ms1] eqn:EK. injection H as <- <- <-. rewrite view_set_cpc.
    assert (Hc' : view_c u (set_cpc s1 match k' with Some k2 => CK k2 x r | None => cloop_next r end)
                  = if x =? u then lk_of k' else LkOut).
    { unfold view_c. fields. destruct k'; [reflexivity | destruct r, (x =? u); reflexivity]. }
    rewrite Hc'. destruct (Z.eq_dec x u) as [->|N].
    + assert (Hc : view_c u s = LkAt kk) by (unfold view_c; rewrite EC, Z.eqb_refl; reflexivity).
      right. apply in_act_c. unfold act_c. change (l_c (view k u s tr)) with (view_c u s).
      rewrite Hc, (kstep_seen k _ _ _ _ _ _ _ tr ThC EK eq_refl), Z.eqb_refl. left. reflexivity.
    + left. rewrite (kstep_unseen k _ _ _ _ _ _ _ _ _ _ N EK), (neq_eqb _ _ N). apply w_c_id.
      unfold view_c. rewrite EC, (neq_eqb _ _ N). reflexivity.
Qed.

Lemma tstep_proj k u s s' es ms tr :
  wf k u s -> tstep s = (s', es, ms) -> proj_ok k u s s' tr (ThT, es, ms).
Proof.
  intros W H. unfold proj_ok. unfold tstep in H.
  (* the next entry the thread takes up, if it is u, has a run-time limit *)
  assert (Hnx : forall s1 l, (forall y, In y l -> In y (tpending s)) ->
                  view_t u (set_tpc s1 (tloop_next l)) = LkOut \/ view_t u (set_tpc s1 (tloop_next l)) = LkAt KGet /\ k_to k = true).
  { intros s1 [|y l] Hl; [left; reflexivity|]. unfold view_t. fields. cbn [tloop_next]. destruct (y =? u) eqn:Ey; [|left; reflexivity].
    apply Z.eqb_eq in Ey. subst y. right. split; [reflexivity|]. apply (wf_to_in k u s W), Hl. left. reflexivity. }
  destruct (tpc_ s) as [|kk x r] eqn:EC.
  - (* TAbsorb *)
    injection H as <- <- <-. rewrite view_silent by reflexivity.
    apply (w_t_out k u s tr); [unfold view_t; rewrite EC; reflexivity|].
    apply Hnx. intros y Hy. unfold tpending. rewrite EC. exact Hy.
  - (* TK *)
    destruct (kstep x kk s) as [[[s1 k'] es1] ms1] eqn:EK. injection H as <- <- <-. rewrite view_set_tpc.
    assert (Hr : forall y, In y r -> In y (tpending s)).
    { intros y Hy. unfold tpending. rewrite EC. right. apply in_or_app. left. exact Hy. }
    destruct (Z.eq_dec x u) as [->|N].
    + assert (Hc : view_t u s = LkAt kk) by (unfold view_t; rewrite EC, Z.eqb_refl; reflexivity).
      right. apply in_act_t. unfold act_t. change (l_t (view k u s tr)) with (view_t u s).
      rewrite Hc, (kstep_seen k _ _ _ _ _ _ _ tr ThT EK eq_refl). change (l_k (view k u s tr)) with k.
      destruct k' as [k2|]; [unfold view_t; fields; rewrite Z.eqb_refl; left; reflexivity|].
      destruct (Hnx s1 r Hr) as [->|[-> ->]]; [left | right; left]; reflexivity.
    + rewrite (kstep_unseen k _ _ _ _ _ _ _ _ _ _ N EK).
      apply w_t_out; [unfold view_t; rewrite EC, (neq_eqb _ _ N); reflexivity|].
      destruct k' as [k2|]; [left; unfold view_t; fields; rewrite (neq_eqb _ _ N); reflexivity | exact (Hnx s1 r Hr)].
Qed.

Lemma xstep_proj k u s s' es ms tr x c :
  xstep x c s = (s', es, ms) -> proj_ok k u s s' tr (ThX, es, ms).
Proof.
  intros H. unfold proj_ok. unfold xstep in H.
  destruct (is_running (world s x)) eqn:ER; injection H as <- <- <-; rewrite view_silent by reflexivity.
  - unfold view at 1 3. fields. destruct (Z.eq_dec x u) as [->|N].
    + right. apply in_act_env. rewrite upd_same.
      unfold act_env. change (h_world (l_sh (view k u s tr))) with (lworld_of (world s u)).
      destruct (world s u); try discriminate ER; left; reflexivity.
    + left. rewrite (upd_other _ _ _ _ N). reflexivity.
  - left. reflexivity.
Qed.

(* Proj.view_w with the two membership flags and the pc as arguments *)
Definition vw (u : Z) (q w : bool) (pc : wpc) : lwf :=
  match pc with
  | WDrain => mkWf q w false 0%nat LwDrainPos
  | WTask pc x r adv => mkWf q w (mem u r) (sat (cnt u (map fst adv))) (if x =? u then LwAt (lwt_of pc) else LwIter)
  | WPub adv => mkWf q w false (sat (cnt u (map fst adv))) LwPub
  | WAdv adv => mkWf q w false (sat (cnt u (map fst adv))) LwAdv
  end.
Lemma view_w_vw u s : view_w u s = vw u (mem u (wq s)) (mem u (w_watch s)) (wpc_ s).
Proof. unfold view_w, vw. destruct (wpc_ s); reflexivity. Qed.

Lemma w_view k u s s' tr es ms :
  keeps ThI s s' -> keeps ThC s s' -> keeps ThT s s' ->
  view k u s' (tr ++ [(ThW, es, ms)]) =
  mkL k (mkSh (tasks s' u) (procattr s' u) (lworld_of (world s' u))) (view_i u s) (view_c u s) (view_t u s)
      (vw u (mem u (wq s')) (mem u (w_watch s')) (wpc_ s'))
      (cn_plus (cnt_of u (emissions tr)) ms u) (own_of u tr).
Proof.
  intros H1 H2 H3. rewrite view_snoc. cbn [negb thread_eqb andb]. rewrite orb_false_r.
  rewrite (view_i_keeps u s s' H1), (view_c_keeps u s s' H2), (view_t_keeps u s s' H3), view_w_vw. reflexivity.
Qed.

Lemma view_unfold k u s tr :
  view k u s tr =
  mkL k (mkSh (tasks s u) (procattr s u) (lworld_of (world s u))) (view_i u s) (view_c u s) (view_t u s)
      (vw u (mem u (wq s)) (mem u (w_watch s)) (wpc_ s)) (cnt_of u (emissions tr)) (own_of u tr).
Proof. unfold view. rewrite view_w_vw. reflexivity. Qed.

Lemma iter_next_in u kc sh i c t n o q w r adv ph :
  In (mkL kc sh i c t (vw u q w (witer_next r adv)) n o)
     (iter_advs (mkL kc sh i c t (mkWf q w (mem u r) (sat (cnt u (map fst adv))) ph) n o)).
Proof.
  unfold iter_advs. cbn [l_w f_iter f_inq f_watch f_adv f_ph wf_ph wf_iter].
  destruct r as [|y r'].
  - cbn [mem existsb witer_next vw]. cbn. right. left. reflexivity.
  - cbn [witer_next vw]. rewrite mem_cons. destruct (y =? u) eqn:Ey.
    + apply Z.eqb_eq in Ey. subst y. rewrite Z.eqb_refl. cbn [orb app].
      destruct (mem u r'); [left | right; left]; reflexivity.
    + rewrite (Z.eqb_sym u y), Ey. cbn [orb].
      destruct (mem u r'); cbn [app]; [right; right; left | left]; reflexivity.
Qed.

(* remove(u) from to_watch *)
Lemma drop_watch_in u kc sh i c t n o q l it ad ph :
  In (mkL kc sh i c t (mkWf q (mem u (remove1 u l)) it ad ph) n o)
     (drop_watch (mkL kc sh i c t (mkWf q (mem u l) it ad ph) n o)).
Proof.
  unfold drop_watch. cbn [l_w f_watch w_w wf_watch f_inq f_iter f_adv f_ph].
  destruct (mem u l) eqn:E.
  - destruct (mem u (remove1 u l)); [right; left | left]; reflexivity.
  - destruct (mem u (remove1 u l)) eqn:E2; [apply mem_remove1_sub in E2; congruence | left; reflexivity].
Qed.

Lemma cnt_snoc_other u x (c : Z) adv : x <> u -> cnt u (map fst (adv ++ [(x, c)])) = cnt u (map fst adv).
Proof. intros N. rewrite map_app, cnt_app. cbn [map fst]. rewrite cnt_one, (neq_eqb _ _ N). lia. Qed.
Lemma cnt_snoc_same u (c : Z) adv : cnt u (map fst (adv ++ [(u, c)])) = (cnt u (map fst adv) + 1)%nat.
Proof. rewrite map_app, cnt_app. cbn [map fst]. rewrite cnt_one, Z.eqb_refl. reflexivity. Qed.

Lemma n_uns_list u l : n_uns u [EUns l] = cnt u l.
Proof. cbn. unfold cnt. lia. Qed.
Lemma items_adv_cnt u adv : cnt_items (for_uid u) (map adv_item adv) = cnt u (map fst adv).
Proof.
  unfold cnt_items, cnt. induction adv as [|[x c] adv IH]; [reflexivity|].
  cbn [map filter fst adv_item for_uid]. rewrite (Z.eqb_sym u x). destruct (x =? u); cbn [length]; rewrite IH; reflexivity.
Qed.
Lemma items_adv_coll u adv :
  cnt_items (fun i : item => let '(v, c, _) := i in (v =? u) && match c with Some _ => true | None => false end) (map adv_item adv)
  = cnt u (map fst adv).
Proof.
  unfold cnt_items, cnt. induction adv as [|[x c] adv IH]; [reflexivity|].
  cbn [map filter fst adv_item]. rewrite (Z.eqb_sym u x), andb_true_r. destruct (x =? u); cbn [length]; rewrite IH; reflexivity.
Qed.
Lemma adv_item_target u a : (let '(v, _, t) := adv_item a in (v =? u) && tgt_eqb t TgCanceled) = false.
Proof. unfold adv_item. destruct (snd a =? 0); cbn [tgt_eqb]; apply andb_false_r. Qed.
Lemma items_adv_cncl u adv :
  cnt_items (fun i : item => let '(v, _, t) := i in (v =? u) && tgt_eqb t TgCanceled) (map adv_item adv) = 0%nat.
Proof. unfold cnt_items. induction adv as [|a adv IH]; [reflexivity|]. cbn [map filter]. rewrite adv_item_target. exact IH. Qed.

Lemma cn_plus_wpub e u l : cn_plus (cnt_of u e) [EUns l] u = n_uns_ (cnt_of u e) (sat (cnt u l)).
Proof.
  unfold cn_plus, n_uns_, cnt_of; cbn [c_exec c_canc c_fail c_stage c_coll c_cncl c_uns n_adv n_collected n_canceled].
  rewrite n_uns_list, !addc_0, addc_sat2, addc_sat. reflexivity.
Qed.
Lemma cn_plus_wadv e u adv :
  cn_plus (cnt_of u e) [EAdv SStaging (map adv_item adv) true] u = n_stcoll_ (cnt_of u e) (sat (cnt u (map fst adv))).
Proof.
  unfold cn_plus, n_stcoll_, cnt_of;
    cbn [c_exec c_canc c_fail c_stage c_coll c_cncl c_uns n_adv n_uns n_collected n_canceled est_eqb].
  rewrite items_adv_cnt, items_adv_coll, items_adv_cncl, !Nat.add_0_r, !addc_0, !addc_sat2, !addc_sat. reflexivity.
Qed.

Ltac lproj := cbn [l_k l_sh l_i l_c l_t l_w l_n l_own h_tasks h_proc h_world f_inq f_watch f_iter f_adv f_ph
                   w_sh w_i w_c w_t w_w w_n w_own sh_tasks sh_proc sh_world wf_ph wf_iter wf_watch].

Lemma iter_next_other u kc sh i c t n o q w x pc r adv adv' :
  x <> u -> cnt u (map fst adv') = cnt u (map fst adv) ->
  In (mkL kc sh i c t (vw u q w (witer_next r adv')) n o) (lnext (mkL kc sh i c t (vw u q w (WTask pc x r adv)) n o)).
Proof.
  intros N E. apply in_act_w. unfold act_w. lproj. cbn [vw f_ph]. rewrite (neq_eqb _ _ N). lproj.
  rewrite <- E. apply iter_next_in.
Qed.

(* the watcher at work on another task x: nothing of u changes, and it stays with x or moves on to the next list element *)
Lemma wstep_other u s pc x r adv s' es ms :
  wpc_ s = WTask pc x r adv -> x <> u -> wstep s = (s', es, ms) ->
  tasks s' u = tasks s u /\ procattr s' u = procattr s u /\ world s' = world s /\ wq s' = wq s /\
  mem u (w_watch s') = mem u (w_watch s) /\ ms = [] /\
  ((exists pc', wpc_ s' = WTask pc' x r adv) \/
   exists adv', wpc_ s' = witer_next r adv' /\ cnt u (map fst adv') = cnt u (map fst adv)).
Proof.
  intros EW N H. unfold wstep in H. rewrite EW in H. destruct pc; branches H; injection H as <- _ <-; fields;
    rewrite ?(upd_other _ _ _ _ N), ?(mem_remove1_neq _ _ _ N); repeat split.
  all: first [left; eexists; reflexivity | right; eexists; split; [reflexivity|]]; try reflexivity.
  apply cnt_snoc_other. exact N.
Qed.

Lemma wstep_proj k u s s' es ms tr :
  wstep s = (s', es, ms) -> proj_ok k u s s' tr (ThW, es, ms).
Proof.
  intros H. destruct (step_frame CW _ _ _ _ H) as [F _].
  unfold proj_ok. rewrite (w_view k u s s') by (apply F; discriminate). rewrite (view_unfold k u s tr). clear F.
  pose proof H as HV. unfold wstep in H. destruct (wpc_ s) as [|pc x r adv|adv|adv] eqn:EW.
  - (* WDrain *)
    injection H as <- <- <-. fields. rewrite cn_plus_nil.
    right. apply in_act_w. unfold act_w. lproj. cbn [vw f_ph f_watch f_inq f_adv]. lproj.
    apply in_flat_map. exists (mem u (firstn bulk (wq s)), mem u (skipn bulk (wq s))). split.
    + replace (mem u (wq s)) with (mem u (firstn bulk (wq s)) || mem u (skipn bulk (wq s)))
        by (rewrite <- mem_app, firstn_skipn; reflexivity).
      destruct (mem u (firstn bulk (wq s))), (mem u (skipn bulk (wq s))); cbn; auto.
    + (* the watcher turns to the head of its list *)
      rewrite <- mem_app. destruct (w_watch s ++ firstn bulk (wq s)) as [|y r'].
      * right. left. reflexivity.
      * rewrite mem_cons. cbn [witer_next vw]. destruct (y =? u) eqn:Ey.
        -- apply Z.eqb_eq in Ey. subst y. rewrite Z.eqb_refl. cbn [orb app].
           destruct (mem u r'); [right; left | right; right; left]; reflexivity.
        -- rewrite (Z.eqb_sym u y), Ey. cbn [orb]. left. reflexivity.
  - (* WTask *)
    destruct (Z.eq_dec x u) as [->|N].
    + (* the watcher looks at u: each such step is a move of act_w *)
      right. apply in_act_w. unfold act_w. lproj. cbn [vw f_ph]. rewrite Z.eqb_refl.
      destruct pc as [| |c|c|c]; cbn [lwt_of]; lproj.
      * (* WGet *)
        destruct (procattr s u) eqn:EP; injection H as <- <- <-; fields; rewrite cn_plus_nil, EP.
        -- cbn [vw lwt_of]. rewrite Z.eqb_refl. left. reflexivity.
        -- apply in_flat_map. eexists. split; [apply drop_watch_in | apply iter_next_in].
      * (* WPoll *)
        destruct (world s u) as [| | |c|] eqn:EWo; injection H as <- <- <-; fields; rewrite cn_plus_nil, EWo; cbn [lworld_of].
        -- apply iter_next_in.
        -- apply iter_next_in.
        -- apply iter_next_in.
        -- cbn [vw lwt_of]. rewrite Z.eqb_refl. left. reflexivity.
        -- cbn [vw lwt_of]. rewrite Z.eqb_refl. left. reflexivity.
      * (* WWait *)
        injection H as <- <- <-. fields. rewrite cn_plus_nil.
        cbn [vw lwt_of]. rewrite Z.eqb_refl. apply in_map_iff. eexists. split; [|apply drop_watch_in]. reflexivity.
      * (* WDel *)
        injection H as <- <- <-. fields. rewrite cn_plus_nil, upd_same. cbn [vw lwt_of]. rewrite Z.eqb_refl. left. reflexivity.
      * (* WLock *)
        injection H as <- <- <-. fields. rewrite cn_plus_nil, upd_same. destruct (tasks s u) eqn:ET.
        -- replace (addc (sat (cnt u (map fst adv))) 1) with (sat (cnt u (map fst (adv ++ [(u, c)]))))
             by (rewrite cnt_snoc_same, addc_sat; reflexivity).
           apply iter_next_in.
        -- apply iter_next_in.
    + (* the watcher looks at another task: u sees nothing, or the move on to the next list element *)
      clear H. destruct (wstep_other u s pc x r adv s' es ms EW N HV) as (T & P & Wo & Q & Wm & -> & Sh).
      rewrite T, P, Wo, Q, Wm, cn_plus_nil. destruct Sh as [(pc' & ->)|(adv' & -> & E)].
      * left. cbn [vw]. rewrite (neq_eqb _ _ N). reflexivity.
      * right. exact (iter_next_other _ _ _ _ _ _ _ _ _ _ _ _ _ _ _ N E).
  - (* WPub *)
    injection H as <- <- <-. fields. rewrite cn_plus_wpub.
    right. apply in_act_w. unfold act_w. lproj. cbn [vw f_ph f_adv]. lproj.
    destruct adv as [|a adv'].
    + cbn [map cnt filter length sat vw]. right. left. reflexivity.
    + left. reflexivity.
  - (* WAdv *)
    injection H as <- <- <-. fields. rewrite cn_plus_wadv.
    right. apply in_act_w. unfold act_w. lproj. cbn [vw f_ph f_adv f_inq f_watch f_iter]. lproj.
    left. reflexivity.
Qed.

(* what u sees of a step of the intake that is not part of cancel_task(u): the step records no removal of u
   from self._tasks by cancel_task, and the variables of the other threads stay as they are *)
Lemma istep_view k u s s' tr es ms :
  istep s = (s', es, ms) -> (forall kk x r, ipc_ s = ITask (ITK kk) x r -> d_uid x <> u) ->
  view k u s' (tr ++ [(ThI, es, ms) : stepobs]) =
  mkL k (mkSh (tasks s' u) (procattr s' u) (lworld_of (world s' u))) (view_i u s') (view_c u s) (view_t u s)
      (vw u (mem u (wq s')) (mem u (w_watch s)) (wpc_ s))
      (cn_plus (cnt_of u (emissions tr)) ms u) (own_of u tr).
Proof.
  intros H NK.
  destruct (step_frame CI _ _ _ _ H) as [F _].
  destruct (F ThW) as [F3 F4]; [discriminate|].
  assert (F5 : existsb (event_eqb (ev K_TASKS_DEL u 1)) es = false).
  { unfold istep in H. destruct (ipc_ s) as [| | | |[| | | | | |kk| | |] x rest] eqn:EI.
    11: { destruct (kstep (d_uid x) kk s) as [[[s1 k'] es1] ms1] eqn:EK. injection H as _ <- _.
          destruct (kstep_other u _ kk s s1 k' es1 ms1 [] (NK _ _ _ eq_refl) EK) as (_ & _ & _ & _ & K5). exact K5. }
    all: branches H; injection H as _ <- _; reflexivity. }
  rewrite view_snoc_q by exact F5. rewrite (view_c_keeps u s s'), (view_t_keeps u s s') by (apply F; discriminate). rewrite view_w_vw, F3, F4. reflexivity.
Qed.

Lemma uids_app a b : uids (a ++ b) = uids a ++ uids b.
Proof. unfold uids. apply map_app. Qed.

Lemma mem_uids_cons u x l : mem u (uids (x :: l)) = (u =? d_uid x) || mem u (uids l).
Proof. reflexivity. Qed.

(* what u sees when the intake turns to the tasks of l, one after the other *)
Lemma view_i_next u s l :
  view_i u (set_ipc s (next_task l)) =
  if mem u (uids l) then match l with y :: _ => if d_uid y =? u then LiAt ITUpdate else LiAdvd | [] => LiDone end
  else if mem u (uids (later s)) then LiBefore else LiDone.
Proof.
  unfold view_i, pos_in, later. fields. destruct l as [|y r]; [reflexivity|]. cbn [next_task]. rewrite mem_uids_cons, (Z.eqb_sym u).
  destruct (d_uid y =? u); [reflexivity|]. destruct (mem u (uids r)); reflexivity.
Qed.

Lemma next_task_other u s x pc rest :
  ipc_ s = ITask pc x rest -> d_uid x <> u ->
  view_i u (set_ipc s (next_task rest)) = view_i u s \/
  (view_i u s = LiAdvd /\ view_i u (set_ipc s (next_task rest)) = LiAt ITUpdate).
Proof.
  intros EI N. rewrite view_i_next. unfold view_i. rewrite EI, (neq_eqb _ _ N).
  destruct (mem u (uids rest)) eqn:E; [|left; reflexivity].
  destruct rest as [|y r]; [discriminate E|]. destruct (d_uid y =? u); [right; split | left]; reflexivity.
Qed.

Lemma nodup_cur k u s x pc rest :
  wf k u s -> ipc_ s = ITask pc x rest -> d_uid x = u ->
  mem u (uids rest) = false /\ mem u (uids (later s)) = false.
Proof.
  intros W EI Eu. pose proof (wf_nodup _ _ _ W) as ND. unfold ipending, icur in ND. rewrite EI in ND.
  rewrite uids_app in ND. cbn [uids map app] in ND. apply NoDup_cons_iff in ND as [NI _].
  rewrite Eu in NI. split; apply mem_false; intros HI; apply NI; apply in_or_app; [left|right]; exact HI.
Qed.

Lemma istep_other u s pc x rest s' es ms e :
  ipc_ s = ITask pc x rest -> d_uid x <> u -> istep s = (s', es, ms) ->
  tasks s' u = tasks s u /\ procattr s' u = procattr s u /\ world s' u = world s u /\ mem u (wq s') = mem u (wq s) /\
  cn_plus (cnt_of u e) ms u = cnt_of u e.
Proof.
  intros EI N H. unfold istep in H. rewrite EI in H. destruct pc as [| | | | | |kk| | |].
  7: { destruct (kstep (d_uid x) kk s) as [[[s1 k'] es1] ms1] eqn:EK. injection H as <- <- <-.
       destruct (kstep_frame _ _ _ _ _ _ _ EK) as (_ & _ & C3 & _).
       destruct (kstep_other u _ kk s s1 k' es1 ms1 e N EK) as (K1 & K2 & K3 & K4 & _).
       fields. rewrite C3. repeat split; assumption. }
  all: branches H; injection H as <- <- <-; fields; rewrite ?(upd_other _ _ _ _ N); repeat split; try apply cn_plus_nil.
  - rewrite mem_app. cbn [mem existsb]. rewrite (neq_eqb' _ _ N), !orb_false_r. reflexivity.
  - apply cn_plus_uns_other. exact N.
  - apply cn_plus_adv_other. exact N.
Qed.

Lemma cn_plus_uns_same' e x : cn_plus (cnt_of (d_uid x) e) [EUns [d_uid x]] (d_uid x) = n_uns_ (cnt_of (d_uid x) e) 1.
Proof. apply cn_plus_uns_same. Qed.

Lemma i_task_own k s s' x pc rest tr es ms :
  wf k (d_uid x) s -> ipc_ s = ITask pc x rest -> istep s = (s', es, ms) ->
  proj_ok k (d_uid x) s s' tr (ThI, es, ms).
Proof.
  intros W EI H. set (u := d_uid x) in *.
  destruct (wf_desc _ _ _ W x) as (Ef & Et & Es); [unfold ipending, icur; rewrite EI; left; reflexivity | reflexivity |].
  assert (Hv : view_i u s = LiAt pc) by (unfold view_i; rewrite EI; unfold u; rewrite Z.eqb_refl; reflexivity).
  assert (Hst : forall s1 pc', view_i u (set_ipc s1 (ITask pc' x rest)) = LiAt pc')
    by (intros; unfold view_i; fields; unfold u; rewrite Z.eqb_refl; reflexivity).
  assert (Hfin : forall s1, i_rest s1 = i_rest s -> view_i u (set_ipc s1 (next_task rest)) = LiDone).
  { intros s1 E. destruct (nodup_cur _ _ _ _ _ _ W EI eq_refl) as [H1 H2].
    rewrite view_i_next. unfold later. rewrite E. fold (later s). fold u. rewrite H1, H2. reflexivity. }
  unfold proj_ok. pose proof H as HV. unfold istep in H. rewrite EI in H. fold u in H.
  (* each step of the intake on u is a move of act_i *)
  right. apply in_act_i. unfold act_i. change (l_i (view k u s tr)) with (view_i u s). rewrite Hv.
  destruct pc as [| | | | | |kk| | |].
  7: { destruct (kstep u kk s) as [[[s1 k'] es1] ms1] eqn:EK. injection H as <- <- <-.
       destruct (kstep_frame _ _ _ _ _ _ _ EK) as (_ & _ & _ & _ & C5 & _).
       rewrite (kstep_seen k _ _ _ _ _ _ _ tr ThI EK eq_refl), view_set_ipc. left.
       destruct k' as [k2|]; cbn [li_of]; [rewrite Hst | rewrite (Hfin s1 C5)]; reflexivity. }
  all: rewrite (istep_view k u s s' tr es ms HV), (view_unfold k u s tr) by (intros kk x0 r0 E0; rewrite EI in E0; discriminate E0); lproj.
  - (* ITUpdate *)
    injection H as <- <- <-. fields.
    rewrite Hst, upd_same, <- Ef, cn_plus_nil. left. reflexivity.
  - (* ITSpawn *)
    destruct (d_fault x) eqn:EF; injection H as <- <- <-;
      fields;
      rewrite Hst, <- Ef, <- ?Es, ?upd_same, cn_plus_nil; left; destruct (d_stub x); reflexivity.
  - (* ITPid *)
    destruct (procattr s u) eqn:EP; [destruct (d_fault x) eqn:EF|]; injection H as <- <- <-;
      fields;
      rewrite Hst, EP, <- ?Ef, <- ?Et, cn_plus_nil; left; unfold after_pid; reflexivity.
  - (* ITHto *)
    injection H as <- <- <-. fields.
    rewrite Hst, cn_plus_nil. left. reflexivity.
  - (* ITPut *)
    injection H as <- <- <-. fields.
    rewrite Hst, cn_plus_nil. left.
    assert (Hq : mem u (wq s ++ [u]) = true) by (rewrite mem_app; cbn; rewrite Z.eqb_refl; apply orb_true_r).
    rewrite Hq. destruct (wpc_ s); reflexivity.
  - (* ITLate *)
    injection H as <- <- <-. fields.
    rewrite cn_plus_nil. destruct (mem u (clist s)) eqn:EM.
    + rewrite (clist_named k u s W EM), Hst. right. left. reflexivity.
    + rewrite Hfin by reflexivity. left. reflexivity.
  - (* ITXLock *)
    injection H as <- <- <-. fields.
    rewrite upd_same, cn_plus_nil. destruct (tasks s u) eqn:ET.
    + rewrite Hst. left. reflexivity.
    + rewrite Hfin by reflexivity. left. reflexivity.
  - (* ITXPub *)
    injection H as <- <- <-. fields.
    rewrite Hst, (cn_plus_uns_same (emissions tr) u). left. reflexivity.
  - (* ITXAdv *)
    injection H as <- <- <-. fields.
    rewrite (Hfin s eq_refl), (cn_plus_fail_same _ u x eq_refl). left. reflexivity.
Qed.

(* the intake works on another task x: u sees nothing, or its turn begins *)
Lemma i_task_other k u s s' x pc rest tr es ms :
  ipc_ s = ITask pc x rest -> d_uid x <> u -> istep s = (s', es, ms) ->
  proj_ok k u s s' tr (ThI, es, ms).
Proof.
  intros EI N H.
  destruct (istep_other u _ _ _ _ _ _ _ (emissions tr) EI N H) as (H7 & H8 & H9 & H10 & H11).
  unfold proj_ok. rewrite (istep_view k u s s' tr es ms H) by (intros kk x0 r0 E0; rewrite EI in E0; injection E0 as _ <- _; exact N).
  rewrite H7, H8, H9, H10, H11, (view_unfold k u s tr).
  destruct (istep_task _ _ _ _ _ _ _ EI H) as (s1 & npc & -> & E & Sh).
  assert (Hx : view_i u (set_ipc s1 npc) = view_i u (set_ipc s npc)) by (apply view_i_keeps; split; [reflexivity | exact E]).
  rewrite Hx. destruct Sh as [->|(pc' & -> & _)].
  - destruct (next_task_other _ _ _ _ _ EI N) as [E0|[E1 E2]].
    + left. rewrite E0. reflexivity.
    + right. apply in_act_i. unfold act_i. lproj. rewrite E1, E2. left. reflexivity.
  - left. f_equal. unfold view_i, later. fields. rewrite EI, (neq_eqb _ _ N). reflexivity.
Qed.

Lemma cnt_notin u l : mem u l = false -> cnt u l = 0%nat.
Proof.
  unfold cnt. induction l as [|y l IH]; [reflexivity|]. rewrite mem_cons. intros H.
  apply orb_false_iff in H as [H1 H2]. cbn [filter]. rewrite H1. exact (IH H2).
Qed.
Lemma cnt_nodup u l : NoDup l -> cnt u l = if mem u l then 1%nat else 0%nat.
Proof.
  induction 1 as [|y l NI ND IH]; [reflexivity|]. rewrite mem_cons. unfold cnt in *. cbn [filter].
  destruct (u =? y) eqn:E.
  - apply Z.eqb_eq in E. subst y. cbn [orb length]. f_equal.
    apply (cnt_notin u l). apply mem_false. exact NI.
  - cbn [orb]. exact IH.
Qed.

Lemma items_exec_cnt u l : cnt_items (for_uid u) (map exec_item l) = cnt u (uids l).
Proof.
  unfold cnt_items, cnt, uids. induction l as [|y l IH]; [reflexivity|].
  cbn [map filter exec_item for_uid]. rewrite (Z.eqb_sym u (d_uid y)). destruct (d_uid y =? u); cbn [length]; rewrite IH; reflexivity.
Qed.
Lemma cn_plus_iadv e u l :
  cn_plus (cnt_of u e) [EAdv SExecuting (map exec_item l) false] u = n_exec_ (cnt_of u e) (cnt u (uids l)).
Proof.
  unfold cn_plus, n_exec_, cnt_of;
    cbn [c_exec c_canc c_fail c_stage c_coll c_cncl c_uns n_adv n_uns n_collected n_canceled est_eqb].
  rewrite items_exec_cnt, !Nat.add_0_r, !addc_0. reflexivity.
Qed.
Lemma n_exec_0 e u : n_exec_ (cnt_of u e) 0 = cnt_of u e.
Proof. unfold n_exec_, cnt_of. cbn [c_exec c_canc c_fail c_stage c_coll c_cncl c_uns]. rewrite addc_0. reflexivity. Qed.

Lemma view_i_filt_next u s1 kept r : view_i u (set_ipc s1 (filt_next kept r)) = pos_in u kept r s1.
Proof. unfold view_i, filt_next, pos_in, later. destruct r; [destruct kept|]; fields; reflexivity. Qed.

Lemma mem_uids_snoc u kept x : mem u (uids (kept ++ [x])) = mem u (uids kept) || (u =? d_uid x).
Proof. rewrite uids_app, mem_app. cbn. rewrite orb_false_r. reflexivity. Qed.

(* the remaining intake steps: batch start, filter, announcement *)
Lemma i_batch k u s s' tr es ms :
  wf k u s -> (forall pc x rest, ipc_ s <> ITask pc x rest) -> istep s = (s', es, ms) ->
  proj_ok k u s s' tr (ThI, es, ms).
Proof.
  intros W NT H. unfold proj_ok.
  rewrite (istep_view k u s s' tr es ms H), (view_unfold k u s tr) by (intros kk x r E0; destruct (NT _ _ _ E0)).
  unfold istep in H.
  pose proof (wf_nodup _ _ _ W) as ND. unfold ipending, icur in ND.
  destruct (ipc_ s) as [|kept rest|x kept r|kept|pc x rest] eqn:EI; [| | | |exfalso; eapply NT; reflexivity].
  - (* IIdle *)
    destruct (i_rest s) as [|b bs] eqn:ER; injection H as <- <- <-; fields; rewrite cn_plus_nil.
    + left. reflexivity.
    + (* the new batch: filtered if the cancel list is not empty, else kept whole *)
      change (match b with [] => IIdle | _ :: _ => IAdv b end) with (filt_next b []).
      destruct (negb match clist s with [] => true | _ => false end); fields; rewrite view_i_filt_next.
      all: unfold view_i, pos_in, later; fields; rewrite EI, ER; cbn [concat]; rewrite uids_app, mem_app; cbn [uids map mem existsb orb].
      * left. reflexivity.
      * destruct (mem u (uids b)); [right | left; reflexivity].
        apply in_act_i. unfold act_i. lproj. left. reflexivity.
  - (* IFilter *)
    destruct rest as [|x r].
    + injection H as <- <- <-. fields. rewrite cn_plus_nil.
      left. f_equal. unfold view_i. fields. rewrite EI. destruct kept; reflexivity.
    + rewrite !uids_app in ND. cbn [uids map] in ND. rewrite <- app_assoc in ND. cbn [app] in ND.
      destruct (Z.eq_dec (d_uid x) u) as [Eu|N].
      * (* the filter looks at u, which stands in the batch once: it is not among the kept *)
        assert (Hb : view_i u s = LiBefore).
        { unfold view_i, pos_in. rewrite EI, mem_uids_cons, Eu, Z.eqb_refl, (proj2 (mem_false u (uids kept))); [reflexivity|].
          intros HI. apply NoDup_remove_2 in ND. apply ND. rewrite Eu. apply in_or_app. left. exact HI. }
        right. apply in_act_i. unfold act_i. lproj. rewrite Hb.
        destruct (mem (d_uid x) (clist s)) eqn:EM; injection H as <- <- <-; fields.
        -- (* canceled at intake *)
           rewrite (clist_named k u s W) by (rewrite <- Eu; exact EM). right. left. unfold view_i. fields.
           rewrite Eu, Z.eqb_refl, (cn_plus_canc_same _ _ _ Eu). reflexivity.
        -- rewrite cn_plus_nil, view_i_filt_next. left.
           unfold pos_in. rewrite mem_uids_snoc, Eu, Z.eqb_refl, orb_true_r. reflexivity.
      * (* it looks at another task: u sees nothing *)
        assert (Ho : view_i u s = pos_in u kept r s)
          by (unfold view_i, pos_in; rewrite EI, mem_uids_cons, (neq_eqb' _ _ N); reflexivity).
        left. rewrite Ho.
        destruct (mem (d_uid x) (clist s)); injection H as <- <- <-; fields.
        -- unfold exec_item. rewrite (cn_plus_adv_other _ _ _ _ _ _ _ N).
           f_equal. unfold view_i. fields. rewrite (neq_eqb _ _ N). reflexivity.
        -- rewrite cn_plus_nil, view_i_filt_next. unfold pos_in. rewrite mem_uids_snoc, (neq_eqb' _ _ N), orb_false_r. reflexivity.
  - (* IFilterPub *)
    injection H as <- <- <-. fields.
    cbn [app uids map] in ND. rewrite !uids_app in ND. apply NoDup_cons_iff in ND as [NI ND].
    destruct (Z.eq_dec (d_uid x) u) as [Eu|N].
    + right. apply in_act_i. unfold act_i. lproj.
      assert (Hv : view_i u s = LiFilterPub) by (unfold view_i; rewrite EI, Eu, Z.eqb_refl; reflexivity).
      rewrite Hv, Eu, cn_plus_uns_same, view_i_filt_next. left.
      (* u stood in the batch once: it is neither kept nor to come *)
      rewrite Eu, !in_app_iff in NI. unfold pos_in.
      rewrite (proj2 (mem_false u (uids kept))), (proj2 (mem_false u (uids r))), (proj2 (mem_false u (uids (later s)))) by tauto.
      reflexivity.
    + left. rewrite (cn_plus_uns_other _ _ _ N), view_i_filt_next. unfold view_i. rewrite EI, (neq_eqb _ _ N). reflexivity.
  - (* IAdv *)
    injection H as <- <- <-. fields.
    rewrite cn_plus_iadv, view_i_next. rewrite uids_app in ND. apply NoDup_app_iff in ND as (NDk & _).
    rewrite (cnt_nodup _ _ NDk). unfold view_i. rewrite EI. unfold pos_in.
    destruct (mem u (uids kept)) eqn:Ek.
    + right. apply in_act_i. unfold act_i. lproj.
      destruct kept as [|y r]; [discriminate Ek|]. destruct (d_uid y =? u); [left | right; left]; reflexivity.
    + left. rewrite n_exec_0. reflexivity.
Qed.

Lemma istep_proj k u s s' es ms tr :
  wf k u s -> istep s = (s', es, ms) -> proj_ok k u s s' tr (ThI, es, ms).
Proof.
  intros W H. destruct (ipc_ s) as [|kept rest|x kept r|kept|pc x rest] eqn:EI.
  1-4: apply (i_batch _ _ _ _ _ _ _ W); [intros pc x0 rest0; rewrite EI; discriminate | exact H].
  destruct (Z.eq_dec (d_uid x) u) as [<-|N].
  - exact (i_task_own _ _ _ _ _ _ _ _ _ W EI H).
  - exact (i_task_other _ _ _ _ _ _ _ _ _ _ EI N H).
Qed.
