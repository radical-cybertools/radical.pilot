(* Exec.PollProofs -- a task is handed on as CANCELED by cancel_task only if the
   same invocation's proc.poll() reported a running process
   (Oracle.ok_cancel_polled), for every scenario and every schedule of
   Exec.Model: a task whose process had exited before the poll -- with
   whatever exit code -- is left to the watcher and keeps its own outcome. *)
From Coq Require Import ZArith List Bool.
From RP Require Import Exec.Model Exec.Step Exec.Oracle Exec.Proj Exec.ProjProofs.
Import ListNotations.

(* cancel_task is past its poll *)
Definition past_poll (k : kpc) : bool := match k with KGet | KPoll => false | _ => true end.

Definition sel (th : thread) (pI pC pT : bool) : bool := match th with ThI => pI | ThC => pC | ThT => pT | _ => false end.

(* the invariant: a thread that is past the poll of cancel_task(u) has seen a running process *)
Definition pinv (u : Z) (s : state) (pI pC pT : bool) : Prop :=
  forall th k, in_k th s = Some (u, k) -> past_poll k = true -> sel th pI pC pT = true.

Lemma thread_eqb_eq a b : thread_eqb a b = true -> a = b.
Proof. destruct a, b; intros E; try reflexivity; discriminate E. Qed.
Lemma thread_eqb_refl a : thread_eqb a a = true.
Proof. destruct a; reflexivity. Qed.

(* the hypothesis only excludes ThW and ThX *)
Lemma sel_upd u t th es pI pC pT x k s : in_k th s = Some (x, k) ->
  sel th (pol_upd u t ThI es pI) (pol_upd u t ThC es pC) (pol_upd u t ThT es pT) = pol_upd u t th es (sel th pI pC pT).
Proof. destruct th; intros E; try reflexivity; discriminate E. Qed.

Lemma staged_canceled_other u x s0 c t p : x <> u -> staged_canceled u (EAdv s0 [(x, c, t)] p) = false.
Proof. intros N. unfold staged_canceled. destruct s0; try reflexivity. cbn. rewrite (neq_eqb _ _ N). reflexivity. Qed.

(* One step of cancel_task(u) by a thread whose last poll of u gave b; past the poll, b is true.
   The step keeps that: polls are recorded at KPoll alone. *)
Lemma kstep_pol u k s s1 k2 es ms b :
  kstep u k s = (s1, Some k2, es, ms) -> (past_poll k = true -> b = true) -> past_poll k2 = true ->
  fold_left (pol_ev u) es b = true.
Proof.
  intros H Hb L. destruct k; cbn [kstep] in H; branches H; try discriminate H;
    injection H as _ <- <- _; try discriminate L; try exact (Hb eq_refl).
  cbn [fold_left b2z negb]. unfold pol_ev, ev. rewrite !Z.eqb_refl. reflexivity.
Qed.

(* a task is handed on as CANCELED by the last step of cancel_task alone, which records nothing *)
Lemma kstep_staged u x k s s1 k' es ms :
  kstep x k s = (s1, k', es, ms) -> existsb (staged_canceled u) ms = true -> x = u /\ k = KAdv /\ es = [].
Proof.
  intros H. destruct k; cbn [kstep] in H; branches H; injection H as _ _ <- <-; try discriminate.
  cbn. rewrite !orb_false_r, andb_true_r. intros E. apply Z.eqb_eq in E. auto.
Qed.

Lemma staged_adv_items u adv : staged_canceled u (EAdv SStaging (map adv_item adv) true) = false.
Proof. unfold staged_canceled. induction adv as [|a adv IH]; [reflexivity|]. cbn [map existsb]. rewrite adv_item_target. exact IH. Qed.

(* cancel_task is entered at its start *)
Lemma itflow_enter x pc k : itflow x pc (ITK k) -> (forall k0, pc <> ITK k0) -> past_poll k = false.
Proof.
  intros F NK. remember (ITK k) as p eqn:E. destruct F; try discriminate E.
  - unfold after_pid in E. destruct (d_to x); discriminate E.
  - injection E as <-. reflexivity.
  - destruct (NK k0 eq_refl).
Qed.

Lemma step_nonk u ch s s' es ms :
  in_k (thread_of ch) s = None -> exec_step ch s = (s', es, ms) ->
  existsb (staged_canceled u) ms = false /\ (forall x k, in_k (thread_of ch) s' = Some (x, k) -> past_poll k = false).
Proof.
  intros NK H. destruct ch; cbn [exec_step thread_of in_k] in *.
  - split.
    + unfold istep in H. destruct (ipc_ s) as [| | | |[| | | | | |kk| | |] x0 rest]; try discriminate NK;
        branches H; injection H as _ _ <-; reflexivity.
    + intros x k E. destruct (ipc_ s') as [| | | |[| | | | | |k0| | |] x0 r] eqn:E'; try discriminate E. injection E as _ <-.
      destruct (istep_enters _ _ _ _ H _ _ _ E') as [D|(pc0 & E0 & F)]; [discriminate D|].
      apply (itflow_enter _ _ _ F). intros k1 ->. rewrite E0 in NK. discriminate NK.
  - unfold cstep in H. destruct (cpc_ s) as [|[|u0 r]|] eqn:EC; try discriminate NK.
    + destruct (c_rest s) as [|m c]; injection H as <- _ <-; fields; (split; [reflexivity|]); intros x k E.
      * rewrite EC in E. discriminate E.
      * destruct m; discriminate E.
    + injection H as <- _ <-. fields. split; [reflexivity|]. intros x k E. discriminate E.
    + injection H as <- _ <-. fields. split; [reflexivity|]. intros x k E.
      destruct (tasks s u0); [injection E as _ <-; reflexivity | destruct r; discriminate E].
  - split; [|intros x k E; discriminate E]. unfold wstep in H. destruct (wpc_ s) as [|pc x r adv|adv|adv].
    + injection H as _ _ <-; reflexivity.
    + branches H; injection H as _ _ <-; reflexivity.
    + injection H as _ _ <-; reflexivity.
    + injection H as _ _ <-. cbn [existsb]. rewrite staged_adv_items. reflexivity.
  - unfold tstep in H. destruct (tpc_ s); try discriminate NK. injection H as <- _ <-. fields. split; [reflexivity|].
    intros x k E. destruct (to_new s); [discriminate E | injection E as _ <-; reflexivity].
  - split; [|intros x k E; discriminate E]. unfold xstep in H. branches H; injection H as _ _ <-; reflexivity.
Qed.

Lemma step_staged u ch s s1 es ms :
  exec_step ch s = (s1, es, ms) -> existsb (staged_canceled u) ms = true -> in_k (thread_of ch) s = Some (u, KAdv) /\ es = [].
Proof.
  intros H St. destruct (in_k (thread_of ch) s) as [[x k]|] eqn:EK.
  - destruct (step_k _ _ _ _ _ _ _ EK H) as (s2 & k' & HK & _). destruct (kstep_staged u _ _ _ _ _ _ _ HK St) as (-> & -> & ->). auto.
  - rewrite (proj1 (step_nonk u ch s s1 es ms EK H)) in St. discriminate St.
Qed.

Theorem step_pol u ch s s1 es ms pI pC pT :
  pinv u s pI pC pT -> exec_step ch s = (s1, es, ms) ->
  let t := thread_of ch in
  let pI' := pol_upd u t ThI es pI in let pC' := pol_upd u t ThC es pC in let pT' := pol_upd u t ThT es pT in
  pinv u s1 pI' pC' pT' /\
  (negb (existsb (staged_canceled u) ms) || match t with ThI => pI' | ThC => pC' | ThT => pT' | _ => false end) = true.
Proof.
  intros P H. cbv zeta. split.
  - intros th k E L. rewrite (sel_upd _ _ _ _ _ _ _ _ _ _ E). unfold pol_upd. destruct (thread_eqb (thread_of ch) th) eqn:TE.
    + (* the stepping thread: it has taken a step of cancel_task(u), or stands before the poll *)
      apply thread_eqb_eq in TE. subst th. destruct (in_k (thread_of ch) s) as [[x k0]|] eqn:EK.
      * destruct (step_k _ _ _ _ _ _ _ EK H) as (s2 & [k3|] & HK & _ & Hk').
        -- rewrite Hk' in E. injection E as -> ->. exact (kstep_pol u k0 s s2 k es ms _ HK (P _ _ EK) L).
        -- rewrite (Hk' _ _ E) in L. discriminate L.
      * rewrite (proj2 (step_nonk u ch s s1 es ms EK H) _ _ E) in L. discriminate L.
    + apply (P th k); [|exact L]. destruct (step_frame _ _ _ _ _ H) as [F _].
      rewrite <- (in_k_keeps th s s1); [exact E|]. apply F. intros ->. rewrite thread_eqb_refl in TE. discriminate TE.
  - (* a hand-over is the step at KAdv: pinv of the state before it says the flag is true, and nothing recorded changes it *)
    destruct (existsb (staged_canceled u) ms) eqn:St; [|reflexivity].
    destruct (step_staged u ch s s1 es ms H St) as [EK ->]. pose proof (P _ _ EK eq_refl) as B. revert EK B.
    destruct (thread_of ch); intros EK B; first [discriminate EK | exact B].
Qed.

Lemma run_polled u sched s s' tr :
  run s sched = (s', tr) -> forall pI pC pT, pinv u s pI pC pT -> ok_polled_from u pI pC pT tr = true.
Proof.
  revert sched s s' tr. refine (run_ind _ _ _).
  - reflexivity.
  - intros s ch r s1 es ms s2 tr ES _ IH pI pC pT P.
    destruct (step_pol u ch s s1 es ms pI pC pT P ES) as [P1 C1]. cbv zeta in P1, C1.
    cbn [ok_polled_from]. rewrite C1. exact (IH _ _ _ P1).
Qed.

(* For every scenario and every schedule: whenever a thread hands a task on
   as CANCELED, the last proc.poll() of that thread on the task reported a
   running process. *)
Theorem canceled_only_if_polled_running sc sched s tr u :
  run (init sc) sched = (s, tr) -> ok_polled_from u false false false tr = true.
Proof.
  intros HR. apply (run_polled u _ _ _ _ HR). unfold pinv, init. intros [] k E; discriminate E.
Qed.

Theorem model_cancel_polled sc sched s tr :
  run (init sc) sched = (s, tr) -> ok_cancel_polled (delivered sc) tr = true.
Proof.
  intros HR. unfold ok_cancel_polled. apply forallb_forall. intros u _. exact (canceled_only_if_polled_running sc sched s tr u HR).
Qed.
