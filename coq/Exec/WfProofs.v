(* Exec.WfProofs -- the well-formedness invariant of Exec.Proj is preserved by
   every step. *)
From Coq Require Import List Permutation.
From RP Require Import Exec.Model Exec.Step Exec.Local Exec.Proj.
Import ListNotations.

Lemma wf_from k u s s' l :
  wf k u s ->
  Permutation (ipending s) (l ++ ipending s') ->
  (In u (cpending s') -> In u (cpending s)) ->
  (In u (tpending s') -> In u (tpending s) \/ k_to k = true) ->
  (forall x r, ipc_ s' = ITask ITHto x r -> d_to x = true) -> wf k u s'.
Proof.
  intros W P HC HT HH. constructor.
  - pose proof (wf_nodup _ _ _ W) as ND.
    assert (P2 : Permutation (uids (ipending s)) (uids l ++ uids (ipending s'))).
    { unfold uids. rewrite <- map_app. apply Permutation_map. exact P. }
    apply (Permutation_NoDup P2) in ND. clear P2.
    induction (uids l) as [|y yl IH]; [exact ND|]. apply IH. cbn [app] in ND. apply NoDup_cons_iff in ND as [_ ND]. exact ND.
  - intros x Hx Eu. apply (wf_desc _ _ _ W); [|exact Eu].
    apply (Permutation_in _ (Permutation_sym P)). apply in_or_app. right. exact Hx.
  - intros En HI. exact (wf_named _ _ _ W En (HC HI)).
  - intros En HI. destruct (HT HI) as [H|H]; [exact (wf_to _ _ _ W En H) | congruence].
  - exact HH.
Qed.

Lemma ipending_keeps s s' : keeps ThI s s' -> ipending s' = ipending s.
Proof. unfold ipending, icur, later. intros [-> ->]. reflexivity. Qed.
Lemma cpending_keeps s s' : keeps ThC s s' -> clist s' = clist s -> cpending s' = cpending s.
Proof. unfold cpending. intros [-> ->] ->. reflexivity. Qed.
Lemma tpending_keeps s s' : keeps ThT s s' -> to_new s' = to_new s -> tpending s' = tpending s.
Proof. unfold tpending. intros E ->. cbn [keeps] in E. rewrite E. reflexivity. Qed.

Lemma cstep_pending u s s' es ms : cstep s = (s', es, ms) -> In u (cpending s') -> In u (cpending s).
Proof.
  intros H. unfold cstep in H. unfold cpending. destruct (cpc_ s) as [|us|kk x r] eqn:EC.
  - destruct (c_rest s) as [|m ms'] eqn:ER; injection H as <- _ _; fields.
    + rewrite ?EC, ?ER. auto.
    + cbn [concat]. rewrite !in_app_iff. intros [HI|[HI|[HI|HI]]]; auto. apply in_cloop_next in HI. auto.
  - destruct us as [|u0 r]; injection H as <- _ _; fields.
    + rewrite ?EC. auto.
    + rewrite !in_app_iff. intros [HI|HI]; [|auto]. left.
      destruct (tasks s u0); [exact HI | apply in_cloop_next in HI; right; exact HI].
  - destruct (kstep x kk s) as [[[s1 k'] es1] ms1] eqn:EK. injection H as <- _ _.
    destruct (kstep_frame _ _ _ _ _ _ _ EK) as (C1 & _ & _ & _ & _ & _ & C7 & _).
    fields. rewrite C1, C7. rewrite !in_app_iff. intros [HI|HI]; [|auto]. left.
    destruct k'; [exact HI | apply in_cloop_next in HI; right; exact HI].
Qed.

Lemma tstep_pending u s s' es ms : tstep s = (s', es, ms) -> In u (tpending s') -> In u (tpending s).
Proof.
  intros H. unfold tstep in H. unfold tpending. destruct (tpc_ s) as [|kk x r] eqn:EC.
  - injection H as <- _ _; fields. rewrite !in_app_iff. intros [HI|HI]; [|destruct HI].
    apply in_tloop_next in HI. right. exact HI.
  - destruct (kstep x kk s) as [[[s1 k'] es1] ms1] eqn:EK. injection H as <- _ _.
    destruct (kstep_frame _ _ _ _ _ _ _ EK) as (_ & C2 & _).
    fields. rewrite C2. rewrite !in_app_iff. intros [HI|HI]; [|auto]. left.
    destruct k'; [exact HI | apply in_tloop_next in HI; right; exact HI].
Qed.

Lemma istep_lists s s' es ms : istep s = (s', es, ms) ->
  (forall v, In v (clist s') -> In v (clist s)) /\
  (to_new s' = to_new s \/ exists x r, ipc_ s = ITask ITHto x r /\ to_new s' = to_new s ++ [d_uid x]).
Proof.
  unfold istep. destruct (ipc_ s) as [|kept rest|x kept r|kept|[| | | | | |kk| | |] x rest] eqn:EI.
  8: { intros H; injection H as <- _ _; fields; split; auto. right. eexists; eexists; split; reflexivity. }
  10: { destruct (kstep (d_uid x) kk s) as [[[s1 k'] es1] ms1] eqn:EK. intros H; injection H as <- _ _.
        destruct (kstep_frame _ _ _ _ _ _ _ EK) as (C1 & C2 & _). fields. rewrite C1, C2. split; auto. }
  all: intros H; branches H; injection H as <- _ _; fields; split; auto.
  intros v HI. eapply mem_In, mem_remove1_sub, mem_In, HI.      (* the filter takes a uid off the cancel list *)
Qed.

Lemma ipending_filt_next s1 kept r : ipending (set_ipc s1 (filt_next kept r)) = (kept ++ r) ++ later s1.
Proof.
  unfold ipending, icur, later, filt_next. fields.
  destruct r; [destruct kept|]; fields; rewrite ?app_nil_r; reflexivity.
Qed.
Lemma ipending_next_task s1 rest : ipending (set_ipc s1 (next_task rest)) = rest ++ later s1.
Proof. unfold ipending, icur, later, next_task. fields. destruct rest; reflexivity. Qed.
Lemma ipending_task s1 pc x rest : ipending (set_ipc s1 (ITask pc x rest)) = (x :: rest) ++ later s1.
Proof. unfold ipending, icur, later. fields. reflexivity. Qed.
Lemma later_ext s s1 : i_rest s1 = i_rest s -> later s1 = later s.
Proof. unfold later. intros ->. reflexivity. Qed.

Lemma istep_pending s s' es ms : istep s = (s', es, ms) ->
  exists l, Permutation (ipending s) (l ++ ipending s').
Proof.
  intros H. unfold ipending at 1. unfold icur. destruct (ipc_ s) as [|kept rest|x kept r|kept|pc x rest] eqn:EI.
  5: { destruct (istep_task _ _ _ _ _ _ _ EI H) as (s1 & npc & -> & E & [->|(pc' & -> & _)]).
       - exists [x]. rewrite ipending_next_task, (later_ext s s1 E). apply Permutation_refl.
       - exists []. rewrite ipending_task, (later_ext s s1 E). apply Permutation_refl. }
  all: replace s' with (fst (fst (istep s))) by (rewrite H; reflexivity); unfold istep; rewrite EI.
  - destruct (i_rest s) as [|b bs] eqn:ER; cbn [fst].
    + exists []. unfold ipending, icur. rewrite EI. apply Permutation_refl.
    + exists []. destruct (negb _); rewrite ipending_filt_next; unfold later; fields; rewrite ER, ?app_nil_r; apply Permutation_refl.
  - destruct rest as [|x r]; [|destruct (mem (d_uid x) (clist s))]; cbn [fst].
    + exists []. rewrite ipending_filt_next. apply Permutation_refl.
    + exists []. cbn [app]. unfold ipending, icur, later. fields. apply Permutation_app_tail, Permutation_sym, Permutation_middle.
    + exists []. rewrite ipending_filt_next, <- (app_assoc kept [x] r). apply Permutation_refl.
  - exists [x]. cbn [fst]. rewrite ipending_filt_next. apply Permutation_refl.
  - exists []. cbn [fst]. rewrite ipending_next_task. apply Permutation_refl.
Qed.

(* a step of another thread than the intake *)
Lemma wf_other k u ch s s' es ms : wf k u s -> exec_step ch s = (s', es, ms) -> ch <> CI -> wf k u s'.
Proof.
  intros W H NI. destruct (step_frame _ _ _ _ _ H) as [F S].
  assert (A : keeps ThI s s') by (apply F; destruct ch; [destruct (NI eq_refl) | discriminate ..]).
  apply (wf_from k u s s' [] W).
  - rewrite (ipending_keeps s s' A). apply Permutation_refl.
  - destruct ch; cbn [shared_kept] in S; [destruct (NI eq_refl) | exact (cstep_pending u _ _ _ _ H) | | |];
      rewrite (cpending_keeps s s') by (first [apply F; discriminate | apply S]); auto.
  - destruct ch; cbn [shared_kept] in S; [destruct (NI eq_refl) | | | intros HI; left; exact (tstep_pending u _ _ _ _ H HI) |];
      rewrite (tpending_keeps s s') by (first [apply F; discriminate | apply S]); auto.
  - intros x r E. destruct A as [A _]. rewrite A in E. exact (wf_hto _ _ _ W _ _ E).
Qed.

Theorem wf_step k u ch s s' es ms : wf k u s -> exec_step ch s = (s', es, ms) -> wf k u s'.
Proof.
  intros W H. destruct ch.
  2-5: apply (wf_other k u _ s s' es ms W H); discriminate.
  destruct (step_frame _ _ _ _ _ H) as [F _]. cbn [exec_step thread_of] in *.
  destruct (F ThC) as [K1 K2]; [discriminate|]. pose proof (F ThT) as K3. cbn [keeps] in K3.
  destruct (istep_lists _ _ _ _ H) as (K4 & K5). destruct (istep_pending _ _ _ _ H) as [l P].
  apply (wf_from k u s s' l W P).
  - unfold cpending. rewrite K1, K2, !in_app_iff. intros [HI|[HI|HI]]; auto.
  - unfold tpending. rewrite K3 by discriminate. rewrite !in_app_iff. destruct K5 as [E|(x & r & E1 & E2)].
    + rewrite E. auto.
    + rewrite E2, in_app_iff. intros [HI|[HI|HI]]; auto. cbn in HI. destruct HI as [HI|[]].
      right. pose proof (wf_hto _ _ _ W _ _ E1) as Ht.
      assert (Hd : d_to x = k_to k).
      { apply (wf_desc _ _ _ W); [|exact HI]. unfold ipending, icur. rewrite E1. left. reflexivity. }
      congruence.
  - intros x r E. destruct (istep_enters _ _ _ _ H _ _ _ E) as [D|(pc0 & _ & F0)]; [discriminate D | exact (itflow_hto _ _ F0)].
Qed.
