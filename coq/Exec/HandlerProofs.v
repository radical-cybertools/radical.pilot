(* Exec.HandlerProofs -- the cancel handler examines every uid of every
   request (Oracle.ok_handler_covers): control_cb walks the uid list of the
   message as received -- not the component's shared cancel list, from which
   the intake filter removes uids concurrently -- so for every scenario and
   every schedule, at quiescence the control thread has looked every uid up in
   self._tasks exactly as often as requests name it. *)
From Coq Require Import ZArith List Lia.
From RP Require Import Exec.Model Exec.Step Exec.Oracle Exec.Proj Exec.ExamProofs.

(* lookups of u that the handler has still to perform *)
Definition todo (u : Z) (s : state) : nat := occ u (backlog s).

Lemma kstep_no_lookup u x k s s1 k' es ms : kstep x k s = (s1, k', es, ms) -> length (filter (lookup_ev u) es) = 0%nat.
Proof.
  destruct k; cbn [kstep]; intros H;
    branches H; inversion H; subst; reflexivity.
Qed.

Lemma step_lookups u ch s s1 es ms :
  exec_step ch s = (s1, es, ms) ->
  ((if thread_eqb (thread_of ch) ThC then length (filter (lookup_ev u) es) else 0%nat) + todo u s1 = todo u s)%nat.
Proof.
  intros H. destruct (step_frame _ _ _ _ _ H) as [F _]. destruct ch; cbn [exec_step thread_of thread_eqb] in *.
  2: { unfold cstep in H. unfold todo, backlog. destruct (cpc_ s) as [|us|kk x r] eqn:EC.
    + destruct (c_rest s) as [|m ms'] eqn:ER; inversion H; subst s1 es ms; clear H; fields.
      * rewrite EC, ER. reflexivity.
      * rewrite looplist_next. reflexivity.
    + destruct us as [|u0 r]; inversion H; subst s1 es ms; clear H; fields.
      * reflexivity.
      * rewrite looplist_lookup. cbn [looplist filter lookup_ev ev app]. unfold occ. cbn [filter].
        rewrite Z.eqb_refl, (Z.eqb_sym u u0). destruct (u0 =? u); reflexivity.
    + destruct (kstep x kk s) as [[[s2 k'] es1] ms1] eqn:EK. inversion H; subst s1 es ms; clear H.
      destruct (kstep_frame _ _ _ _ _ _ _ EK) as (_ & _ & _ & _ & _ & _ & C7 & _).
      rewrite (kstep_no_lookup u _ _ _ _ _ _ _ EK). fields. rewrite C7.
      rewrite looplist_k. reflexivity. }
  all: destruct (F ThC) as [K1 K2]; [discriminate|]; unfold todo, backlog; rewrite K1, K2; reflexivity.
Qed.

Lemma run_lookups u sched s s' tr : run s sched = (s', tr) -> (n_lookups u tr + todo u s' = todo u s)%nat.
Proof.
  revert sched s s' tr. refine (run_ind _ _ _).
  - reflexivity.
  - intros s ch r s1 es ms s2 tr ES _ IH. cbn [n_lookups]. pose proof (step_lookups u ch s s1 es ms ES). lia.
Qed.

(* For every scenario and every schedule, at quiescence: the control thread
   has looked u up in self._tasks once for every occurrence of u in the
   cancel requests. *)
Theorem handler_covers sc sched s tr u :
  run (init sc) sched = (s, tr) -> quiescent s = true -> n_lookups u tr = occ u (named sc).
Proof.
  intros HR Q. pose proof (run_lookups u sched (init sc) s tr HR) as A.
  assert (T1 : todo u s = 0%nat) by (destruct (quiescent_inv s Q) as (_ & EC & _ & _ & _ & ER & _); unfold todo, backlog; rewrite EC, ER; reflexivity).
  assert (T0 : todo u (init sc) = occ u (named sc)) by (unfold todo, backlog, init, named; fields; reflexivity).
  lia.
Qed.

Theorem model_handler_covers sc sched s tr :
  run (init sc) sched = (s, tr) -> ok_handler_covers sc tr (quiescent s) = true.
Proof.
  intros HR. unfold ok_handler_covers. destruct (quiescent s) eqn:Q; [|reflexivity]. cbn [negb orb].
  apply forallb_forall. intros u _. apply Nat.eqb_eq. exact (handler_covers sc sched s tr u HR Q).
Qed.
