(* Exec.CancelProofs -- the executor side of C08 (cancel stops the named tasks
   and nothing else), over the same model and by the same projection. *)
From Coq Require Import ZArith List Bool Lia.
From RP Require Import Exec.Model Exec.Step Exec.Oracle Exec.Local Exec.Proj Exec.ProjProofs Exec.Proofs.
Import ListNotations.

Definition fault_of (sc : scenario) (u : Z) : fault := k_fault (kof sc u).
Definition has_limit (sc : scenario) (u : Z) : bool := k_to (kof sc u).

Lemma quiescent_pcs k u s tr : quiescent s = true ->
  l_i (view k u s tr) = LiDone /\ l_c (view k u s tr) = LkOut /\ l_t (view k u s tr) = LkOut.
Proof.
  intros Q. destruct (lquiescent_inv _ (quiescent_local k u s tr Q)) as (Ei & Ec & Et & _).
  split; [exact Ei|]. split; [exact Ec | exact Et].
Qed.

Lemma lworld_running p : lrunning (lworld_of p) = is_running p.
Proof. exact (lrunning_of p). Qed.

(* the exception in the ownership clause of safe_cancel -- a cancel_task between its
   kill and the return of proc.wait() -- gives the same bound on the counts *)
Lemma kill_window_clause (c t : lk) (i : li) (X : bool) :
  match c, t, i with
  | LkAt KKill, _, _ | _, LkAt KKill, _ | _, _, LiAt (ITK KKill)
  | LkAt KWait, _, _ | _, LkAt KWait, _ | _, _, LiAt (ITK KWait) => X
  | _, _, _ => false end = true -> X = true.
Proof.
  (* thread by thread: one outside the window leaves the question to the next;
     below one inside it every leaf of the match is X *)
  assert (Gi : match i with LiAt (ITK KKill) | LiAt (ITK KWait) => X | _ => false end = true -> X = true).
  { destruct i as [| | | |[| | | | | |[]| | |]|]; intros H; first [exact H | discriminate H]. }
  assert (Gt : match t, i with
               | LkAt KKill, _ | _, LiAt (ITK KKill) | LkAt KWait, _ | _, LiAt (ITK KWait) => X
               | _, _ => false end = true -> X = true).
  { destruct t as [|[]]; first [exact Gi | intros H; destruct i as [| | | |[| | | | | |[]| | |]|]; exact H]. }
  destruct c as [|[]];
    first [exact Gt | exact (fun H => H) | intros H; destruct t as [|[]], i as [| | | |[| | | | | |[]| | |]|]; exact H].
Qed.

Section Counts.
Variables (v : lstate) (e c f st co cn un : nat).
Hypothesis Hn : l_n v = mkCn (sat e) (sat c) (sat f) (sat st) (sat co) (sat cn) (sat un).

Lemma intake_cancel_counts :
  safe_cancel v = true -> (0 < c)%nat -> h_world (l_sh v) = LNone /\ e = 0%nat.
Proof.
  intros S C. unfold safe_cancel in S. rewrite Hn in S. cbn [c_exec c_canc] in S.
  apply andb_prop in S as [S _]. apply andb_prop in S as [S _]. apply andb_prop in S as [_ S].
  apply orb_true_iff in S as [S|S]; [apply sat_eq0 in S; lia|]. apply andb_true_iff in S as [W S].
  split; [destruct (h_world (l_sh v)); try discriminate W; reflexivity | exact (sat_eq0 _ S)].
Qed.

Lemma owned_counts :
  safe_cancel v = true -> l_own v = true ->
  (co = 0 /\ f = 0)%nat /\
  (lquiescent v = true -> cn = 1%nat /\ st = 1%nat /\ lrunning (h_world (l_sh v)) = false).
Proof.
  intros S O. unfold safe_cancel in S. rewrite Hn, O in S. cbn [c_fail c_stage c_coll c_cncl negb orb andb] in S.
  apply andb_prop in S as [S S4]. apply andb_prop in S as [_ S3].
  assert (C : Nat.eqb (sat co) 0 && Nat.eqb (sat f) 0 = true).
  { apply orb_true_iff in S3 as [S3|S3]; [apply andb_true_iff in S3 as [S3 _]; exact S3 | exact (kill_window_clause _ _ _ _ S3)]. }
  apply andb_true_iff in C as [C1 C2]. split; [split; [exact (sat_eq0 _ C1) | exact (sat_eq0 _ C2)]|].
  intros Q. rewrite Q in S4. apply andb_true_iff in S4 as [A B].
  destruct (lquiescent_inv v Q) as (Ei & Ec & Et & _). rewrite Ei, Ec, Et in S3.
  apply orb_true_iff in S3 as [S3|S3]; [|discriminate S3]. apply andb_true_iff in S3 as [_ S3]. apply negb_true_iff in S3.
  repeat split; [exact (sat_eq1 _ A) | exact (sat_eq1 _ B) | exact S3].
Qed.

Lemma bystander_counts :
  k_named (l_k v) = false -> k_to (l_k v) = false -> safe_bystander v = true ->
  h_world (l_sh v) <> LKill /\ cn = 0%nat /\ l_own v = false /\
  (lquiescent v = true -> match k_fault (l_k v) with FNone => co = 1 /\ f = 0 | _ => f = 1 /\ st = 0 end%nat).
Proof.
  intros N T S. unfold safe_bystander in S. rewrite Hn, N, T in S. cbn [orb c_fail c_stage c_coll c_cncl] in S.
  apply andb_prop in S as [S S4]. apply andb_prop in S as [S S3]. apply andb_prop in S as [S1 S2].
  apply negb_true_iff in S1, S3.
  split; [intros W; rewrite W in S1; discriminate S1|]. split; [exact (sat_eq0 _ S2)|]. split; [exact S3|].
  intros Q. rewrite Q in S4.
  destruct (k_fault (l_k v)); apply andb_true_iff in S4 as [A B]; (split; [exact (sat_eq1 _ A) | exact (sat_eq0 _ B)]).
Qed.
End Counts.

(* cancel_named_running: once a cancel_task(u) -- called for a cancel request
   (or a run-time limit) -- has found the process running and taken u out of
   self._tasks [own_of], u is never collected and never failed; at quiescence
   it has been handed on exactly once, as CANCELED, its resources were
   released exactly once, and its process does not run any more (it was
   killed, or had exited by itself before the kill). *)
Theorem cancel_named_running sc sched s tr u :
  NoDup (delivered sc) -> In u (delivered sc) -> run (init sc) sched = (s, tr) -> own_of u tr = true ->
  let ems := emissions tr in
  n_collected u ems = 0%nat /\ n_adv SFailed u ems = 0%nat /\
  (quiescent s = true ->
   n_canceled u ems = 1%nat /\ n_adv SStaging u ems = 1%nat /\ n_hand u ems = 1%nat /\ n_uns u ems = 1%nat /\
   is_running (world s u) = false).
Proof.
  intros ND HI HR HO ems. destruct (safe_clauses _ (run_safe _ _ _ _ _ ND HI HR)) as (_ & _ & SC & _).
  destruct (owned_counts (view (kof sc u) u s tr) _ _ _ _ _ _ _ eq_refl SC HO) as [[C1 C2] CQ].
  split; [exact C1|]. split; [exact C2|]. intros Q.
  destruct (exactly_once _ _ _ _ _ ND HI HR Q) as (_ & E2 & E3 & _).
  destruct (CQ (quiescent_local _ _ _ _ Q)) as (Q1 & Q2 & Q3). cbn [view l_sh h_world] in Q3. rewrite lworld_running in Q3.
  repeat split; assumption.
Qed.

(* cancel_later_met, step level: the intake filter meets a task whose uid is
   on the cancel list: it is advanced CANCELED there, taken out of the batch
   (the next step publishes the unschedule message), and work() never sees it *)
Theorem cancel_later_met_step s kept x r :
  ipc_ s = IFilter kept (x :: r) -> mem (d_uid x) (clist s) = true ->
  exists s', istep s = (s', [ev K_LOCK L_CANCEL 0; ev K_CLIST_IN (d_uid x) 1; ev K_CLIST_REMOVE (d_uid x) 0],
                        [EAdv SCanceled [exec_item x] false])
             /\ ipc_ s' = IFilterPub x kept r /\ tasks s' = tasks s /\ world s' = world s.
Proof.
  intros EI EM. unfold istep. rewrite EI, EM. eexists. split; [reflexivity|]. fields. repeat split; reflexivity.
Qed.

(* cancel_later_met, run level: a task canceled at intake was never launched
   nor announced as executing *)
Theorem cancel_later_met sc sched s tr u :
  NoDup (delivered sc) -> In u (delivered sc) -> run (init sc) sched = (s, tr) ->
  (0 < n_adv SCanceled u (emissions tr))%nat ->
  world s u = PNone /\ n_adv SExecuting u (emissions tr) = 0%nat /\ n_adv SCanceled u (emissions tr) = 1%nat.
Proof.
  intros ND HI HR HC. destruct (safe_clauses _ (run_safe _ _ _ _ _ ND HI HR)) as (_ & _ & SC & _).
  destruct (intake_cancel_counts (view (kof sc u) u s tr) _ _ _ _ _ _ _ eq_refl SC HC) as [W E].
  destruct (at_most_once _ _ _ _ _ ND HI HR) as (_ & A2 & _). unfold n_hand in A2.
  cbn [view l_sh h_world] in W. repeat split; [destruct (world s u); try discriminate W; reflexivity | exact E | lia].
Qed.

(* bystanders_untouched_exec: a delivered task that no request names and that
   has no run-time limit is never killed and never canceled, whatever
   requests there are and whatever the schedule; at quiescence it has been
   handed on exactly once with its own outcome -- FAILED if it cannot be
   launched, else collected (staged with an exit code; that it is the code the
   process exited with is not proved here) *)
Theorem bystanders_untouched_exec sc sched s tr u :
  NoDup (delivered sc) -> In u (delivered sc) -> run (init sc) sched = (s, tr) ->
  mem u (named sc) = false -> has_limit sc u = false ->
  let ems := emissions tr in
  world s u <> PKilled /\ n_canceled u ems = 0%nat /\ own_of u tr = false /\
  (quiescent s = true ->
   n_adv SExecuting u ems = 1%nat /\ n_uns u ems = 1%nat /\
   match fault_of sc u with
   | FNone => n_collected u ems = 1%nat /\ n_adv SStaging u ems = 1%nat /\ n_adv SFailed u ems = 0%nat
   | _ => n_adv SFailed u ems = 1%nat /\ n_adv SStaging u ems = 0%nat /\ n_collected u ems = 0%nat
   end).
Proof.
  intros ND HI HR HN HT ems. destruct (safe_clauses _ (run_safe _ _ _ _ _ ND HI HR)) as (SA & _ & _ & SB).
  destruct (bystander_counts (view (kof sc u) u s tr) _ _ _ _ _ _ _ eq_refl (eq_trans (kof_named sc u) HN) HT SB)
    as (B1 & B2 & B3 & BQ).
  split; [intros W; apply B1; cbn [view l_sh h_world]; rewrite W; reflexivity|]. split; [exact B2|]. split; [exact B3|].
  intros Q. specialize (BQ (quiescent_local _ _ _ _ Q)). cbn [view l_k] in BQ. unfold fault_of.
  destruct (exactly_once _ _ _ _ _ ND HI HR Q) as (E1 & E2 & E3 & _). unfold n_hand in E2.
  destruct (always_counts (view (kof sc u) u s tr) _ _ _ _ _ _ _ eq_refl SA) as [_ CS].
  pose proof (n_adv_canceled_le u ems) as CL. fold ems in E1, E2, E3, B2, CS.
  destruct (k_fault (kof sc u)); destruct BQ as [X Y]; fold ems in X, Y; repeat split; lia.
Qed.

(* consequently two runs -- with whatever requests (none, or requests naming
   other tasks) and whatever schedules -- give a bystander the same outcome *)
Definition outcome (u : Z) (ems : list emission) : list nat :=
  [n_adv SExecuting u ems; n_adv SStaging u ems; n_adv SFailed u ems; n_adv SCanceled u ems;
   n_collected u ems; n_canceled u ems; n_uns u ems].

Lemma bystander_outcome sc sched s tr u :
  NoDup (delivered sc) -> In u (delivered sc) -> run (init sc) sched = (s, tr) -> quiescent s = true ->
  mem u (named sc) = false -> has_limit sc u = false ->
  outcome u (emissions tr) = match fault_of sc u with FNone => [1; 1; 0; 0; 1; 0; 1] | _ => [1; 0; 1; 0; 0; 0; 1] end%nat.
Proof.
  intros ND HI HR Q HN HT.
  destruct (bystanders_untouched_exec _ _ _ _ _ ND HI HR HN HT) as (_ & C & _ & B). destruct (B Q) as (B1 & B2 & B3).
  pose proof (n_adv_canceled_le u (emissions tr)) as CL. rewrite C in CL. apply Nat.le_0_r in CL.
  unfold outcome. rewrite B1, B2, C, CL.
  destruct (fault_of sc u); destruct B3 as (X & Y & Z); rewrite X, Y, Z; reflexivity.
Qed.

Theorem bystander_same_outcome sc1 sc2 sched1 sched2 s1 tr1 s2 tr2 u :
  sc_batches sc1 = sc_batches sc2 ->
  NoDup (delivered sc1) -> In u (delivered sc1) ->
  run (init sc1) sched1 = (s1, tr1) -> run (init sc2) sched2 = (s2, tr2) ->
  quiescent s1 = true -> quiescent s2 = true ->
  mem u (named sc1) = false -> mem u (named sc2) = false -> has_limit sc1 u = false ->
  outcome u (emissions tr1) = outcome u (emissions tr2).
Proof.
  intros EB ND HI R1 R2 Q1 Q2 N1 N2 HT.
  assert (ED : delivered sc2 = delivered sc1) by (unfold delivered; rewrite EB; reflexivity).
  assert (HT2 : has_limit sc2 u = false).
  { unfold has_limit in *. unfold kof in *. rewrite EB in HT. destruct (find _ _); exact HT. }
  assert (EF : fault_of sc2 u = fault_of sc1 u).
  { unfold fault_of, kof. rewrite EB. destruct (find _ _); reflexivity. }
  rewrite <- ED in ND, HI.
  rewrite (bystander_outcome _ _ _ _ _ ND HI R2 Q2 N2 HT2), EF. rewrite ED in ND, HI.
  exact (bystander_outcome _ _ _ _ _ ND HI R1 Q1 N1 HT).
Qed.

(* C05, executor side *)
Theorem one_truthful_handover sc sched s tr u :
  NoDup (delivered sc) -> In u (delivered sc) -> run (init sc) sched = (s, tr) -> quiescent s = true ->
  let ems := emissions tr in
  n_hand u ems = 1%nat /\
  ~ (0 < n_collected u ems /\ 0 < n_canceled u ems)%nat /\
  (mem u (named sc) = false -> has_limit sc u = false ->
   n_canceled u ems = 0%nat /\
   match fault_of sc u with
   | FNone => n_collected u ems = 1%nat /\ n_adv SFailed u ems = 0%nat
   | _ => n_adv SFailed u ems = 1%nat /\ n_collected u ems = 0%nat
   end).
Proof.
  intros Hnd Hin Hr Hq ems.
  pose proof (exactly_once sc sched s tr u Hnd Hin Hr Hq) as H1. cbv zeta in H1. fold ems in H1.
  pose proof (at_most_once sc sched s tr u Hnd Hin Hr) as H2. cbv zeta in H2. fold ems in H2.
  split; [tauto|]. split; [tauto|].
  intros Hn Hl.
  pose proof (bystanders_untouched_exec sc sched s tr u Hnd Hin Hr Hn Hl) as H3. cbv zeta in H3. fold ems in H3.
  destruct H3 as (_ & Hc & _ & Hqq). specialize (Hqq Hq). destruct Hqq as (_ & _ & Hm).
  split; [exact Hc|]. destruct (fault_of sc u); tauto.
Qed.
