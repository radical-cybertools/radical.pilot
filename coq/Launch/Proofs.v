(* C09: every launch method's command, read back through the launcher's own command line semantics
   (den), starts the task's ranks where the placement put them; the launcher keeps nothing from
   one task to the next, so selection, bulks and sequences of bulks reduce to the single task. *)
From Coq Require Import ZArith List Bool Lia Permutation.
From RP Require Import Common.Eqb Common.ListFacts Launch.Model Launch.Oracle.
Import ListNotations.
Open Scope Z_scope.

Lemma step_state : forall c st t, fst (get_launch_cmds c st t) = st.
Proof.
  intros c st t. unfold get_launch_cmds.
  destruct (c_lm c); try reflexivity.
  unfold cmd_mpirun.
  destruct (c_dpl_named c && (1 <? t_cpr t)); [reflexivity|].
  destruct (negb (forallb has_cores (t_slots t))); [reflexivity|].
  destruct ((MIN_NNODES_IN_LIST <? zlen (hosts_of t)) && t_wfail t); reflexivity.
Qed.

Lemma final_state_id : forall c ts st, final_state c st ts = st.
Proof.
  intros c ts; induction ts as [|t ts IH]; intro st; simpl; [reflexivity|].
  rewrite step_state. apply IH.
Qed.

Lemma run_app : forall c a b st, run c st (a ++ b) = run c st a ++ run c (final_state c st a) b.
Proof.
  intros c a; induction a as [|t a IH]; intros b st; simpl; [reflexivity|].
  destruct (get_launch_cmds c st t) as [st' o] eqn:E. simpl.
  replace (fst (get_launch_cmds c st t)) with st' by (rewrite E; reflexivity).
  rewrite IH. reflexivity.
Qed.

Lemma zlen_cons {A} (x : A) l : zlen (x :: l) = 1 + zlen l.
Proof. unfold zlen. simpl length. lia. Qed.
Lemma zlen_nonneg {A} (l : list A) : 0 <= zlen l.
Proof. unfold zlen. lia. Qed.
Lemma zlen_app {A} (a b : list A) : zlen (a ++ b) = zlen a + zlen b.
Proof. unfold zlen. rewrite app_length. lia. Qed.
Lemma zlen_map {A B} (f : A -> B) l : zlen (map f l) = zlen l.
Proof. unfold zlen. rewrite map_length. reflexivity. Qed.

Lemma rep_succ h n : 0 <= n -> rep h (n + 1) = h :: rep h n.
Proof.
  intro H. unfold rep. replace (Z.to_nat (n + 1)) with (S (Z.to_nat n)) by lia. reflexivity.
Qed.
Lemma zlen_rep h n : 0 <= n -> zlen (rep h n) = n.
Proof. intro H. unfold zlen, rep. rewrite repeat_length. lia. Qed.

Definition nonneg (acc : list (Z * Z)) : Prop := Forall (fun p => 0 <= snd p) acc.

Lemma bump_spec h acc : nonneg acc ->
  nonneg (bump h acc) /\ Permutation (expand (bump h acc)) (h :: expand acc).
Proof.
  induction acc as [|[k n] r IH]; intro H; simpl.
  - split; [repeat constructor; simpl; lia | apply Permutation_refl].
  - inversion H as [|? ? Hn Hr]; subst. simpl in Hn. destruct (IH Hr) as [IN IP].
    destruct (k =? h) eqn:E; simpl.
    + apply Z.eqb_eq in E; subst. split; [constructor; [simpl; lia | assumption]|].
      rewrite rep_succ by lia. apply Permutation_refl.
    + split; [constructor; assumption|].
      eapply Permutation_trans; [apply Permutation_app_head, IP | apply Permutation_sym, Permutation_middle].
Qed.

Lemma fold_bump_spec l : forall acc, nonneg acc ->
  nonneg (fold_left (fun a h => bump h a) l acc) /\
  Permutation (expand (fold_left (fun a h => bump h a) l acc)) (l ++ expand acc).
Proof.
  induction l as [|h l IH]; intros acc H; simpl; [split; [assumption | apply Permutation_refl]|].
  destruct (bump_spec h acc H) as [BN BP]. destruct (IH _ BN) as [IN IP]. split; [assumption|].
  eapply Permutation_trans; [exact IP|].
  eapply Permutation_trans; [apply Permutation_app_head, BP | apply Permutation_sym, Permutation_middle].
Qed.

Lemma host_counts_nonneg l : nonneg (host_counts l).
Proof. apply fold_bump_spec. constructor. Qed.

(* the per-host counts (defaultdict) expand back to the host list *)
Lemma host_counts_perm l : Permutation (expand (host_counts l)) l.
Proof.
  rewrite <- (app_nil_r l) at 2. apply (fold_bump_spec l []). constructor.
Qed.

Lemma zlen_expand acc : nonneg acc -> zlen (expand acc) = zsum (map snd acc).
Proof.
  induction acc as [|[k n] r IH]; intro H; simpl; [reflexivity|].
  inversion H as [|? ? Hn Hr]; subst. simpl in Hn.
  rewrite zlen_app, zlen_rep by lia. rewrite IH by assumption. reflexivity.
Qed.

Lemma perm_zlen {A} (a b : list A) : Permutation a b -> zlen a = zlen b.
Proof. intro H. unfold zlen. rewrite (Permutation_length H). reflexivity. Qed.

(* sum(host_slots.values()) is the number of slots *)
Lemma host_counts_sum l : zsum (map snd (host_counts l)) = zlen l.
Proof.
  rewrite <- zlen_expand by apply host_counts_nonneg. apply perm_zlen, host_counts_perm.
Qed.

Lemma mseteqb_count a b : mseteqb a b = true <-> forall x, count_occ Z.eq_dec a x = count_occ Z.eq_dec b x.
Proof.
  unfold mseteqb. rewrite forallb_forall. split.
  - intros H x. destruct (in_dec Z.eq_dec x (a ++ b)) as [Hi|Hn].
    + apply Nat.eqb_eq, H, Hi.
    + assert (~ In x a /\ ~ In x b) as [Ha Hb] by (split; intro; apply Hn, in_or_app; auto).
      apply (count_occ_not_In Z.eq_dec) in Ha. apply (count_occ_not_In Z.eq_dec) in Hb. congruence.
  - intros H x _. apply Nat.eqb_eq, H.
Qed.

Lemma mseteqb_perm a b : Permutation a b -> mseteqb a b = true.
Proof. intro H. apply mseteqb_count, (Permutation_count_occ Z.eq_dec), H. Qed.

Lemma subsetb_spec a b : subsetb a b = true <-> (forall x, In x a -> In x b).
Proof.
  unfold subsetb. rewrite forallb_forall. split; intros H x Hx; apply (existsb_eqb_In _ Z.eqb_eq), H, Hx.
Qed.
Lemma seteqb_spec a b : seteqb a b = true <-> (forall x, In x a <-> In x b).
Proof.
  unfold seteqb. rewrite andb_true_iff, !subsetb_spec. split.
  - intros [H1 H2] x. split; auto.
  - intro H. split; intros x; apply H.
Qed.

(* nodeset = sorted set(...); the order is not used below *)
Lemma insert_in x y l : In y (insert x l) <-> y = x \/ In y l.
Proof.
  induction l as [|z l IH]; simpl.
  - intuition.
  - destruct (x <? z) eqn:E1; simpl; [intuition|].
    destruct (x =? z) eqn:E2; simpl.
    + apply Z.eqb_eq in E2. subst. intuition.
    + rewrite IH. intuition.
Qed.
Lemma nodeset_in l y : In y (nodeset l) <-> In y l.
Proof.
  induction l as [|x l IH]; simpl; [reflexivity|]. rewrite insert_in, IH. intuition.
Qed.
Lemma insert_len x l : zlen (insert x l) <= 1 + zlen l.
Proof.
  induction l as [|z l IH]; cbn [insert].
  - rewrite zlen_cons. lia.
  - destruct (x <? z); [rewrite !zlen_cons; lia|].
    destruct (x =? z); rewrite !zlen_cons; pose proof (zlen_nonneg l); lia.
Qed.
Lemma nodeset_len l : zlen (nodeset l) <= zlen l.
Proof.
  induction l as [|x l IH]; cbn [nodeset fold_right]; [lia|]. rewrite zlen_cons.
  pose proof (insert_len x (nodeset l)) as H. unfold nodeset in *. lia.
Qed.

(* The getters of den for option o look only at arguments that carry a value under the name o.
   A stretch of the command line without one is passed over, whichever switches of the
   configuration put it there: the denotation proofs split on what shapes the command, not on
   wrappers and flags.  An OL list counts as carrying none: den has no getter for it. *)
Definition mentions (o : oname) (x : arg) : bool :=
  match x with
  | A _ | F _ | OL _ _ => false
  | OZ o' _ | OH o' _ | OHN o' _ | OF o' _ | OB o' _ => oname_beq o o'
  end.

Definition silent (o : oname) (a : list arg) : Prop := existsb (mentions o) a = false.

Lemma silent_cons o x a : silent o (x :: a) -> mentions o x = false /\ silent o a.
Proof. apply orb_false_iff. Qed.

Lemma getZ_skip o a r : silent o a -> getZ o (a ++ r) = getZ o r.
Proof.
  induction a as [|x a IH]; [reflexivity|]. intros [Hx Ha]%silent_cons.
  destruct x; simpl in *; rewrite ?Hx; auto.
Qed.
Lemma getH_skip o a r : silent o a -> getH o (a ++ r) = getH o r.
Proof.
  induction a as [|x a IH]; [reflexivity|]. intros [Hx Ha]%silent_cons.
  destruct x; simpl in *; rewrite ?Hx; auto.
Qed.
Lemma hasOF_skip o a r : silent o a -> hasOF o (a ++ r) = hasOF o r.
Proof.
  induction a as [|x a IH]; [reflexivity|]. intros [Hx Ha]%silent_cons.
  destruct x; simpl in *; rewrite ?Hx; auto.
Qed.

Lemma silent_app o a b : silent o a -> silent o b -> silent o (a ++ b).
Proof. unfold silent. intros Ha Hb. now rewrite existsb_app, Ha, Hb. Qed.
Lemma silent_if o (b : bool) x y : silent o x -> silent o y -> silent o (if b then x else y).
Proof. now destruct b. Qed.
Lemma silent_opt o b x : silent o x -> silent o (opt b x).
Proof. now destruct b. Qed.
Lemma silent_OL o o' l : silent o (map (OL o') l).
Proof. now induction l. Qed.
#[local] Hint Resolve silent_app silent_if silent_opt silent_OL : silent.
#[local] Hint Extern 0 (silent _ _) => reflexivity : silent.

(* evaluate the getters along a command line: pass over the silent stretches, compute on the
   arguments written out; the final check makes an unrecognised stretch fail here *)
Ltac getters :=
  repeat (rewrite ?getZ_skip, ?getH_skip, ?hasOF_skip by auto with silent;
          cbn [getZ getH hasOF oname_beq orb]);
  lazymatch goal with
  | |- context [getZ _ (_ ++ _)] => fail "not silent"
  | |- context [getH _ (_ ++ _)] => fail "not silent"
  | |- context [hasOF _ (_ ++ _)] => fail "not silent"
  | |- _ => idtac
  end.

Lemma flat_rep1 l : flat_map (fun h => rep h 1) l = l.
Proof. induction l as [|x l IH]; simpl; [reflexivity|]. rewrite IH. reflexivity. Qed.

Definition exact_placement (hosts : list Z) : placement :=
  {| p_count := zlen hosts; p_nodes := NList hosts; p_pins := None |}.

Definition pinned_placement (t : task) : placement :=
  {| p_count := zlen (hosts_of t); p_nodes := NList (hosts_of t); p_pins := Some (map s_cores (t_slots t)) |}.

Lemma fill_all l : fill (zlen l) l = Some (exact_placement l).
Proof.
  unfold fill. pose proof (zlen_nonneg l).
  replace (0 <=? zlen l) with true by (symmetry; apply Z.leb_le; lia).
  replace (zlen l <=? zlen l) with true by (symmetry; apply Z.leb_le; lia).
  simpl. unfold zlen. rewrite Nat2Z.id, firstn_all. reflexivity.
Qed.

Lemma want_nodes_slots c t : c_lm c <> JSRUN -> want_nodes c t = hosts_of t.
Proof. unfold want_nodes. destruct (c_lm c); congruence. Qed.
Lemma want_count_slots c t : c_lm c <> JSRUN -> t_slots t <> [] -> want_count c t = zlen (t_slots t).
Proof. unfold want_count. intros H1 H2. destruct (c_lm c); try congruence; destruct (t_slots t); congruence. Qed.
Lemma want_pins_slots c t : c_lm c <> JSRUN -> want_pins c t = map s_cores (t_slots t).
Proof. unfold want_pins. destruct (c_lm c); congruence. Qed.
Lemma zlen_hosts t : zlen (hosts_of t) = zlen (t_slots t).
Proof. apply zlen_map. Qed.

Lemma seteqb_refl l : seteqb l l = true.
Proof. apply seteqb_spec. intro; reflexivity. Qed.

(* a placement as the scheduler hands it over *)
Definition valid (t : task) : Prop :=
  t_slots t <> [] /\ t_ranks t = zlen (t_slots t) /\ forallb has_cores (t_slots t) = true.

(* the model's observation of t, in the oracle's format *)
Definition mobs (c : cfg) (st : lm_state) (t : task) : obs1 :=
  (can_launch c t, snd (get_launch_cmds c st t)).

(* p is the placement t was given, as far as the clauses look: one process per slot; the slots'
   nodes as a multiset (Fork's two names of its own node taken for one) or, where the command
   line cannot say more, as a set; the slots' cores, if the command pins at all *)
Definition agrees (c : cfg) (t : task) (p : placement) : Prop :=
  p_count p = zlen (t_slots t) /\
  match p_nodes p with
  | NList l => Permutation (map (canon c) l) (map (canon c) (hosts_of t))
  | NSet l => forall x, In x l <-> In x (hosts_of t)
  | NNone => False
  end /\
  (p_pins p = None \/ p_pins p = Some (map s_cores (t_slots t))).

(* whatever command comes out denotes p; `emits` adds that one does come out (the form of Props/C09) *)
Definition reads (c : cfg) (st : lm_state) (t : task) (p : placement) : Prop :=
  forall cmd, snd (get_launch_cmds c st t) = inr cmd -> den c cmd = Some p.

Definition emits (c : cfg) (st : lm_state) (t : task) (p : placement) : Prop :=
  exists cmd, snd (get_launch_cmds c st t) = inr cmd /\ den c cmd = Some p.

Lemma reads_emits c st t p :
  reads c st t p -> (forall e, snd (get_launch_cmds c st t) <> inl e) -> emits c st t p.
Proof.
  intros R N. destruct (snd (get_launch_cmds c st t)) as [e|cmd] eqn:E; [destruct (N e eq_refl)|].
  exists cmd. split; [exact E | apply R, E].
Qed.

Lemma err_ok : forall c t (o : obs1) e, snd o = inl e ->
  ok_count c t o = true /\ ok_nodes c t o = true /\ ok_pins c t o = true.
Proof.
  intros c t o e Ho. unfold ok_count, ok_nodes, ok_pins. rewrite Ho.
  destruct (accepted o); destruct (placed c t); auto.
Qed.

Lemma reads_ok c st t p : c_lm c <> JSRUN -> t_slots t <> [] -> reads c st t p -> agrees c t p ->
  ok_count c t (mobs c st t) = true /\ ok_nodes c t (mobs c st t) = true /\
  ok_pins c t (mobs c st t) = true.
Proof.
  intros Hj Hs R (Hn & Hl & Hp).
  destruct (snd (get_launch_cmds c st t)) as [e|cmd] eqn:Hcmd; [exact (err_ok c t (mobs c st t) e Hcmd)|].
  destruct p as [n ns pins]. cbn in Hn, Hl, Hp.
  unfold ok_count, ok_nodes, ok_pins, mobs. cbn [snd]. rewrite Hcmd, (R cmd Hcmd). cbn [p_count p_nodes p_pins].
  rewrite want_count_slots, want_nodes_slots, want_pins_slots by assumption.
  repeat split.
  - destruct (accepted _); [|reflexivity]. rewrite Hn, Z.eqb_refl.
    destruct ns as [l|l|]; [|reflexivity..].
    apply perm_zlen in Hl. rewrite !zlen_map in Hl. rewrite Hl, zlen_hosts. apply Z.eqb_refl.
  - destruct (accepted _ && placed c t); [|reflexivity].
    destruct ns as [l|l|]; [apply mseteqb_perm, Hl | apply seteqb_spec, Hl | destruct Hl].
  - destruct (accepted _ && placed c t); [|reflexivity].
    destruct Hp as [-> | ->]; [reflexivity | apply eqb_list_refl, seteqb_refl].
Qed.

Lemma agrees_exact c t l : Permutation l (hosts_of t) -> agrees c t (exact_placement l).
Proof.
  intro H. split; [|split]; cbn.
  - rewrite (perm_zlen _ _ H). apply zlen_hosts.
  - apply Permutation_map, H.
  - now left.
Qed.

Lemma agrees_pinned c t : agrees c t (pinned_placement t).
Proof. split; [apply zlen_hosts | split; [apply Permutation_refl | now right]]. Qed.

Lemma agrees_nodeset c t :
  agrees c t {| p_count := zlen (t_slots t); p_nodes := NSet (nodeset (hosts_of t)); p_pins := None |}.
Proof. split; [reflexivity | split; [intro x; apply nodeset_in | now left]]. Qed.

(* Fork: the slot names the launcher's node by its name or as localhost *)
Lemma agrees_own_node c t s0 : c_lm c = FORK -> t_slots t = [s0] -> s_node s0 = 0 \/ s_node s0 = c_local c ->
  agrees c t {| p_count := 1; p_nodes := NList [c_local c]; p_pins := None |}.
Proof.
  intros Hlm Es Hn. unfold agrees, hosts_of, canon. rewrite Hlm, Es. cbn. repeat split; [|now left].
  destruct Hn as [-> | ->]; [|apply Permutation_refl].
  rewrite Z.eqb_refl. destruct (c_local c =? 0); apply Permutation_refl.
Qed.

(* for NNone, which `agrees` excludes *)
Lemma reads_ok_nonode c st t : c_lm c <> JSRUN -> t_slots t <> [] ->
  reads c st t {| p_count := zlen (t_slots t); p_nodes := NNone; p_pins := None |} ->
  ok_count c t (mobs c st t) = true /\ ok_pins c t (mobs c st t) = true.
Proof.
  intros Hj Hs R.
  destruct (snd (get_launch_cmds c st t)) as [e|cmd] eqn:Hcmd; [split; eapply err_ok, Hcmd|].
  unfold ok_count, ok_pins, mobs. cbn [snd]. rewrite Hcmd, (R cmd Hcmd). cbn [p_count p_nodes p_pins].
  rewrite want_count_slots, Z.eqb_refl by assumption. destruct (accepted _), (placed c t); auto.
Qed.

Lemma not_accepted_ok : forall c t (o : obs1), accepted o = false ->
  ok_count c t o = true /\ ok_nodes c t o = true /\ ok_pins c t o = true.
Proof. intros c t o H. unfold ok_count, ok_nodes, ok_pins. rewrite H. auto. Qed.

Lemma accepted_can c st t : accepted (mobs c st t) = true -> can_launch c t = inr true.
Proof. unfold accepted, mobs. cbn [fst]. destruct (can_launch c t) as [e|[|]]; congruence. Qed.

(* only Fork.can_launch can raise (task['slots'][0]) *)
Lemma can_launch_answers c t : c_lm c <> FORK -> exists b, can_launch c t = inr b.
Proof.
  intro H. unfold can_launch.
  destruct (c_lm c); try congruence; eauto;
    destruct (1 <? zlen (t_slots t)), (t_mpi t), (t_exe t); cbn [negb]; eauto.
Qed.

(* MPIRUN, MPIRUN_MPT, MPIRUN_RSH, MPIRUN_CCMRUN, MPIRUN_DPLACE: one method, other switches *)
Lemma mpirun_reads c st t : c_lm c = MPIRUN -> reads c st t (exact_placement (hosts_of t)).
Proof.
  intros Hlm cmd H. unfold get_launch_cmds in H. rewrite Hlm in H. unfold cmd_mpirun in H.
  destruct (c_dpl_named c && (1 <? t_cpr t)); [discriminate H|].
  destruct (negb (forallb has_cores (t_slots t))); [discriminate H|].
  destruct (_ && t_wfail t); [discriminate H|]. injection H as <-.
  unfold den, EXEC. rewrite Hlm. cbn [argv file].
  destruct (c_mpt c); destruct (MIN_NNODES_IN_LIST <? zlen (hosts_of t)); cbn [negb andb opt app]; getters.
  1, 2: (* SGI MPT, -np 1: one process on each listed host *)
    cbn [Z.leb Z.compare]; rewrite flat_rep1, Z.mul_1_l; reflexivity.
  all: (* Open MPI / Hydra: as many processes as slots *) rewrite fill_all; reflexivity.
Qed.

Lemma mpirun_den : forall c st t,
  c_lm c = MPIRUN -> forallb has_cores (t_slots t) = true ->
  c_dpl_named c && (1 <? t_cpr t) = false ->
  (MIN_NNODES_IN_LIST <? zlen (hosts_of t)) && t_wfail t = false ->
  emits c st t (exact_placement (hosts_of t)).
Proof.
  intros c st t Hlm Hcores Hd Hw. apply reads_emits; [now apply mpirun_reads|].
  unfold get_launch_cmds. rewrite Hlm. unfold cmd_mpirun. rewrite Hd, Hcores, Hw. discriminate.
Qed.

Lemma mpirun_enacts : forall c st t, c_lm c = MPIRUN -> valid t ->
  ok_count c t (mobs c st t) = true /\ ok_nodes c t (mobs c st t) = true /\
  ok_pins c t (mobs c st t) = true.
Proof.
  intros c st t Hlm [Hs _]. apply (reads_ok c st t (exact_placement (hosts_of t)));
    [congruence | assumption | now apply mpirun_reads | apply agrees_exact, Permutation_refl].
Qed.

Lemma mpirun_refuses : forall c st t, c_lm c = MPIRUN ->
  ok_refuses c t (mobs c st t) = true /\ (forallb has_cores (t_slots t) = true -> ok_nocrash (mobs c st t) = true).
Proof.
  intros c st t Hlm. unfold ok_refuses, ok_nocrash, capable, mobs, can_launch, get_launch_cmds.
  rewrite Hlm. unfold cmd_mpirun. cbn [fst snd].
  split.
  - destruct (c_dpl_named c && (1 <? t_cpr t)); cbn [negb snd]; [|reflexivity].
    rewrite orb_true_r. reflexivity.
  - intro Hc. rewrite Hc. cbn [negb].
    destruct (c_dpl_named c && (1 <? t_cpr t)); [reflexivity|].
    destruct ((MIN_NNODES_IN_LIST <? zlen (hosts_of t)) && t_wfail t); reflexivity.
Qed.

(* the rank file of the slots l reads back as their nodes and cores *)
Lemma rank_lines (l : list slot) : forall i,
  let f := map (fun p => (fst p, s_node (snd p), s_cores (snd p))) (index_from i l) in
  ranks_consecutive i f = true /\ zlen f = zlen l /\
  map (fun e : Z * Z * list Z => snd (fst e)) f = map s_node l /\
  map snd f = map s_cores l.
Proof.
  induction l as [|s l IH]; intro i; simpl; [auto|].
  destruct (IH (i + 1)) as (R & L & N & C). rewrite Z.eqb_refl, !zlen_cons, R, L, N, C. auto.
Qed.

(* MPIEXEC, MPIEXEC_MPT: the rank file, or else a host file (h:n or h slots=n) *)
Lemma mpiexec_reads c st t : c_lm c = MPIEXEC -> (c_rf c = true \/ c_flavor c <> PALS) ->
  reads c st t (if c_rf c then pinned_placement t else exact_placement (expand (host_counts (hosts_of t)))).
Proof.
  intros Hlm Hv cmd H. unfold get_launch_cmds in H. rewrite Hlm in H. unfold cmd_mpiexec in H. cbn [snd] in H.
  destruct (t_slots t) as [|s0 rest] eqn:Es; [discriminate H|]. rewrite <- Es in *.
  destruct (t_wfail t); [discriminate H|].
  unfold den, EXEC. rewrite Hlm. destruct (c_rf c).
  - injection H as <-. unfold pinned_placement. cbn [argv file app getZ hasOF oname_beq orb].
    destruct (rank_lines (t_slots t) 0) as (R & L & N & C).
    rewrite R, L, N, C, host_counts_sum, zlen_hosts, Z.eqb_refl. reflexivity.
  - destruct Hv as [Hv|Hv]; [discriminate|].
    rewrite <- (zlen_expand _ (host_counts_nonneg (hosts_of t))) in H.
    destruct (c_flavor c); try congruence; destruct (c_hf c); injection H as <-; cbn [argv file app]; getters;
      rewrite fill_all; reflexivity.
Qed.

Lemma mpiexec_rf_den : forall c st t, c_lm c = MPIEXEC -> c_rf c = true -> t_slots t <> [] ->
  t_wfail t = false ->
  emits c st t {| p_count := zlen (hosts_of t); p_nodes := NList (hosts_of t);
                  p_pins := Some (map s_cores (t_slots t)) |}.
Proof.
  intros c st t Hlm Hrf Hs Hw. pose proof (mpiexec_reads c st t Hlm (or_introl Hrf)) as R. rewrite Hrf in R.
  apply reads_emits; [exact R|].
  unfold get_launch_cmds. rewrite Hlm. unfold cmd_mpiexec. rewrite Hrf, Hw. destruct (t_slots t); [congruence|discriminate].
Qed.

Lemma mpiexec_enacts : forall c st t, c_lm c = MPIEXEC -> valid t ->
  (c_rf c = true \/ c_flavor c <> PALS) ->
  ok_count c t (mobs c st t) = true /\ ok_nodes c t (mobs c st t) = true /\
  ok_pins c t (mobs c st t) = true.
Proof.
  intros c st t Hlm [Hs _] Hv. eapply reads_ok; [congruence | assumption | now apply mpiexec_reads |].
  destruct (c_rf c); [apply agrees_pinned | apply agrees_exact, host_counts_perm].
Qed.

Lemma prte_reads c st t : c_lm c = PRTE -> valid t ->
  reads c st t (exact_placement (expand (host_counts (hosts_of t)))).
Proof.
  intros Hlm [Hs [Hr _]] cmd H.
  assert (Hn : t_ranks t = zlen (expand (host_counts (hosts_of t)))).
  { rewrite Hr, <- zlen_hosts. symmetry. apply perm_zlen, host_counts_perm. }
  unfold get_launch_cmds in H. rewrite Hlm in H. unfold cmd_prte in H.
  destruct (negb (c_dvm c)); [discriminate H|]. destruct (t_slots t) as [|s0 rest]; [congruence|].
  injection H as <-. unfold den, EXEC. rewrite Hlm. cbn [argv app getZ getHN oname_beq].
  rewrite Hn, Z.eqb_refl. reflexivity.
Qed.

Lemma prte_enacts : forall c st t, c_lm c = PRTE -> valid t ->
  ok_count c t (mobs c st t) = true /\ ok_nodes c t (mobs c st t) = true /\
  ok_pins c t (mobs c st t) = true.
Proof.
  intros c st t Hlm Hv. eapply reads_ok;
    [congruence | apply Hv | now apply prte_reads | apply agrees_exact, host_counts_perm].
Qed.

(* SSH, RSH: exactly one process, on the slot's node *)
Lemma ssh_cmd c st t : c_lm c = SSH \/ c_lm c = RSH ->
  exists name, snd (get_launch_cmds c st t) = cmd_ssh name t.
Proof. unfold get_launch_cmds. intros [-> | ->]; eexists; reflexivity. Qed.

Lemma single_enacts : forall c st t, (c_lm c = SSH \/ c_lm c = RSH) -> valid t ->
  ok_count c t (mobs c st t) = true /\ ok_nodes c t (mobs c st t) = true /\
  ok_pins c t (mobs c st t) = true.
Proof.
  intros c st t Hlm [Hs _]. apply (reads_ok c st t (exact_placement (hosts_of t)));
    [destruct Hlm; congruence | assumption | | apply agrees_exact, Permutation_refl].
  intros cmd H. destruct (ssh_cmd c st t Hlm) as [name Hcmd]. rewrite Hcmd in H. unfold cmd_ssh in H.
  destruct (t_slots t) as [|s0 [|s1 rest]] eqn:Es; try discriminate H. injection H as <-.
  unfold den, hosts_of. rewrite Es. destruct Hlm as [-> | ->]; reflexivity.
Qed.

Lemma single_refuses : forall c st t, (c_lm c = SSH \/ c_lm c = RSH) ->
  ok_refuses c t (mobs c st t) = true /\ ok_nocrash (mobs c st t) = true.
Proof.
  intros c st t Hlm. destruct (ssh_cmd c st t Hlm) as [name Hcmd].
  destruct (can_launch_answers c t) as [b Hb]; [destruct Hlm; congruence|].
  unfold ok_refuses, ok_nocrash, capable, mobs. cbn [fst snd]. rewrite Hb, Hcmd. unfold cmd_ssh.
  destruct Hlm as [-> | ->]; destruct (t_slots t) as [|s0 [|s1 rest]]; auto using orb_true_r.
Qed.

Lemma fork_accepts : forall c t, c_lm c = FORK -> can_launch c t = inr true ->
  exists s0, t_slots t = [s0] /\ (s_node s0 = 0 \/ s_node s0 = c_local c).
Proof.
  intros c t Hlm. unfold can_launch. rewrite Hlm.
  destruct (t_slots t) as [|s0 [|s1 rest]].
  - cbn. discriminate.
  - cbn [zlen length Z.of_nat Z.ltb Z.compare].
    destruct (s_node s0 =? 0) eqn:E0; destruct (s_node s0 =? c_local c) eqn:E1; cbn [orb negb];
      try discriminate; intros _; exists s0; split; auto.
    + left. apply Z.eqb_eq, E0.
    + left. apply Z.eqb_eq, E0.
    + right. apply Z.eqb_eq, E1.
  - rewrite !zlen_cons. pose proof (zlen_nonneg rest).
    replace (1 <? 1 + (1 + zlen rest)) with true by (symmetry; apply Z.ltb_lt; lia). discriminate.
Qed.

Lemma fork_enacts : forall c st t, c_lm c = FORK ->
  ok_count c t (mobs c st t) = true /\ ok_nodes c t (mobs c st t) = true /\
  ok_pins c t (mobs c st t) = true.
Proof.
  intros c st t Hlm.
  destruct (accepted (mobs c st t)) eqn:Ha; [|apply not_accepted_ok, Ha].
  destruct (fork_accepts c t Hlm (accepted_can c st t Ha)) as [s0 [Es Hn]].
  apply (reads_ok c st t {| p_count := 1; p_nodes := NList [c_local c]; p_pins := None |}).
  - congruence.
  - congruence.
  - intros cmd _. unfold den. rewrite Hlm. reflexivity.
  - now apply (agrees_own_node c t s0).
Qed.

Lemma fork_refuses : forall c st t, c_lm c = FORK ->
  ok_refuses c t (mobs c st t) = true.
Proof.
  intros c st t Hlm. unfold ok_refuses.
  destruct (capable c t) eqn:Hcap; [reflexivity|].
  destruct (accepted (mobs c st t)) eqn:Ha; [|reflexivity].
  destruct (fork_accepts c t Hlm (accepted_can c st t Ha)) as [s0 [Es Hn]].
  unfold capable in Hcap. rewrite Hlm, Es in Hcap.
  destruct Hn as [Hn|Hn]; rewrite Hn in Hcap; rewrite Z.eqb_refl in Hcap;
    [discriminate | rewrite orb_true_r in Hcap; discriminate].
Qed.

(* the command says -n ranks and nothing of nodes or cores *)
Lemma count_reads c st t : c_lm c = APRUN \/ c_lm c = CCMRUN \/ c_lm c = IBRUN ->
  reads c st t {| p_count := t_ranks t; p_nodes := NNone; p_pins := None |}.
Proof.
  intros Hlm cmd H. unfold get_launch_cmds in H. unfold den.
  destruct Hlm as [E | [E | E]]; rewrite E in H |- *; cbn [snd] in H.
  - injection H as <-. reflexivity.
  - injection H as <-. reflexivity.
  - unfold cmd_ibrun in H. destruct (t_slots t); [discriminate H|]. destruct (_ && _); [discriminate H|].
    destruct (negb (forallb _ _)); [discriminate H|]. injection H as <-. reflexivity.
Qed.

Lemma nodeset_nonempty x l : nodeset (x :: l) <> [].
Proof.
  intro H. assert (Hi : In x (nodeset (x :: l))) by (apply nodeset_in; left; reflexivity).
  rewrite H in Hi. destruct Hi.
Qed.

Lemma srun_reads c st t : c_lm c = SRUN -> t_slots t <> [] ->
  reads c st t {| p_count := zlen (t_slots t); p_nodes := NSet (nodeset (hosts_of t)); p_pins := None |}.
Proof.
  intros Hlm Hs cmd H.
  assert (Hle : (zlen (nodeset (hosts_of t)) <=? zlen (t_slots t)) = true).
  { apply Z.leb_le. rewrite <- zlen_hosts. apply nodeset_len. }
  assert (Hne : nodeset (hosts_of t) <> []).
  { unfold hosts_of. destruct (t_slots t) as [|s0 rest]; [congruence|]. apply nodeset_nonempty. }
  unfold get_launch_cmds in H. rewrite Hlm in H. unfold cmd_srun in H.
  destruct (t_slots t) as [|s0 rest] eqn:Es; [congruence|]. clear Hs.
  destruct (nodeset (hosts_of t)) as [|n0 nl] eqn:En; [congruence|].
  cbn [snd] in H. destruct (_ && t_wfail t); [discriminate H|]. injection H as <-.
  unfold den, EXEC. rewrite Hlm. cbn [argv file].
  destruct ((MIN_VSLURM_IN_LIST <? c_vmajor c) && _); destruct (c_traverse c); cbn [app]; getters;
    rewrite ?Z.eqb_refl, Hle; reflexivity.
Qed.

Lemma srun_enacts : forall c st t, c_lm c = SRUN -> valid t ->
  ok_count c t (mobs c st t) = true /\ ok_nodes c t (mobs c st t) = true /\
  ok_pins c t (mobs c st t) = true.
Proof.
  intros c st t Hlm [Hs _]. eapply reads_ok;
    [congruence | assumption | now apply srun_reads | apply agrees_nodeset].
Qed.

(* refutations (jsrun: corpus/C09/jsrun-inhomogeneous.json).  cfg0: every switch off, slurm 20, 64 cores
   and 4 gpus a node, own node 7, a DVM; task0: n MPI ranks of one core, no gpu *)
Definition cfg0 (l : lm) (f : flavor) : cfg :=
  Build_cfg l false false false false false f false false false false 20 false false 1 false 64 4 7 0 [] false true.
Definition task0 (sl : list slot) (rs : list rset) (n : Z) : task :=
  Build_task sl rs n 1 0 true true 0 false false false false.
Definition sl (n c : Z) : slot := Build_slot n n [c] [].

Lemma valid_intro t : t_slots t <> [] -> t_ranks t = zlen (t_slots t) ->
  forallb has_cores (t_slots t) = true -> valid t.
Proof. intros; repeat split; assumption. Qed.

Lemma aprun_nodes_refuted : exists c t, c_lm c = APRUN /\ valid t /\ ok_nodes c t (mobs c [] t) = false.
Proof.
  exists (cfg0 APRUN OMPI), (task0 [sl 1 0] [] 1). repeat split; try discriminate; vm_compute; reflexivity.
Qed.
Lemma ccmrun_nodes_refuted : exists c t, c_lm c = CCMRUN /\ valid t /\ ok_nodes c t (mobs c [] t) = false.
Proof.
  exists (cfg0 CCMRUN OMPI), (task0 [sl 1 0] [] 1). repeat split; try discriminate; vm_compute; reflexivity.
Qed.
Lemma jsrun_plain_refuted : exists c t, c_lm c = JSRUN /\ c_erf c = false /\
  ok_count c t (mobs c [] t) = false /\ ok_nodes c t (mobs c [] t) = false.
Proof.
  exists (cfg0 JSRUN OMPI), (task0 [] [Build_rset 1 [[12]] []; Build_rset 44 [[60]; [50]] []] 3).
  repeat split; vm_compute; reflexivity.
Qed.

Lemma find_from_sound : forall cs t i j c, find_from i cs t = inr (Some (j, c)) ->
  can_launch c t = inr true /\ (i <= j)%nat /\ nth_error cs (j - i) = Some c.
Proof.
  intros cs t; induction cs as [|c0 r IH]; intros i j c H; simpl in H; [discriminate|].
  destruct (can_launch c0 t) as [e|[|]] eqn:E; [discriminate| |].
  - injection H as <- <-. rewrite Nat.sub_diag. auto.
  - apply IH in H as [Hc [Hle Hn]]. repeat split; [assumption|lia|].
    replace (j - i)%nat with (S (j - S i)) by lia. exact Hn.
Qed.

Lemma find_launcher_sound : forall cs t j c, find_launcher cs t = inr (Some (j, c)) ->
  can_launch c t = inr true /\ nth_error cs j = Some c.
Proof.
  intros cs t j c H. unfold find_launcher in H. apply find_from_sound in H as [Hc [_ Hn]].
  rewrite Nat.sub_0_r in Hn. auto.
Qed.

(* the launch methods (and flavours) for which count, nodes and pins are proved *)
Definition proven (c : cfg) : Prop :=
  c_lm c = FORK \/ c_lm c = SSH \/ c_lm c = RSH \/ c_lm c = MPIRUN \/ c_lm c = SRUN \/
  c_lm c = PRTE \/ (c_lm c = MPIEXEC /\ (c_rf c = true \/ c_flavor c <> PALS)).

Lemma proven_enacts : forall c st t, proven c -> valid t ->
  ok_count c t (mobs c st t) = true /\ ok_nodes c t (mobs c st t) = true /\
  ok_pins c t (mobs c st t) = true.
Proof.
  intros c st t Hp Hv. destruct Hp as [H|[H|[H|[H|[H|[H|[H Hf]]]]]]].
  - apply fork_enacts, H.
  - apply single_enacts; auto.
  - apply single_enacts; auto.
  - apply mpirun_enacts; auto.
  - apply srun_enacts; auto.
  - apply prte_enacts; auto.
  - apply mpiexec_enacts; auto.
Qed.

Lemma selected_enacts : forall cs t j c st,
  find_launcher cs t = inr (Some (j, c)) -> valid t -> proven c ->
  let o := (inr true, snd (get_launch_cmds c st t)) : obs1 in
  ok_count c t o = true /\ ok_nodes c t o = true /\ ok_pins c t o = true.
Proof.
  intros cs t j c st Hf Hv Hp. apply find_launcher_sound in Hf as [Hcan _].
  pose proof (proven_enacts c st t Hp Hv) as H. unfold mobs in H. rewrite Hcan in H. exact H.
Qed.

(* FORK is selected only for a task whose single slot is on the agent's own
   node: the node NAME equals the agent's node name, or is 'localhost' *)
Lemma fork_selected_own_node : forall cs t j c,
  find_launcher cs t = inr (Some (j, c)) -> c_lm c = FORK ->
  exists s, t_slots t = [s] /\ (s_node s = 0 \/ s_node s = c_local c).
Proof.
  intros cs t j c Hf Hlm. apply find_launcher_sound in Hf as [Hcan _]. apply fork_accepts; assumption.
Qed.

(* every method writes its file before it builds the command: a command that comes out names a
   file only where one is written, and then the write went through *)
Lemma emitted_file c st t cmd : snd (get_launch_cmds c st t) = inr cmd ->
  if writes_file c t then t_wfail t = false else file cmd = None.
Proof.
  intro H. unfold get_launch_cmds in H. unfold writes_file. destruct (c_lm c); cbn [snd] in H.
  - injection H as <-. reflexivity.
  - unfold cmd_ssh in H. destruct (t_slots t) as [|s [|]]; try discriminate H. injection H as <-. reflexivity.
  - unfold cmd_ssh in H. destruct (t_slots t) as [|s [|]]; try discriminate H. injection H as <-. reflexivity.
  - unfold cmd_mpirun in H.
    destruct (c_dpl_named c && (1 <? t_cpr t)); [discriminate H|].
    destruct (negb (forallb has_cores (t_slots t))); [discriminate H|].
    destruct (MIN_NNODES_IN_LIST <? zlen (hosts_of t)); cbn [andb] in H.
    + destruct (t_wfail t); [discriminate H|reflexivity].
    + injection H as <-. reflexivity.
  - unfold cmd_mpiexec in H. destruct (t_slots t); [discriminate H|]. destruct (t_wfail t); [discriminate H|reflexivity].
  - unfold cmd_srun in H. destruct (t_slots t) as [|s0 rest].
    + injection H as <-. reflexivity.
    + destruct (_ && (MIN_NNODES_IN_LIST <? _)); cbn [andb] in H.
      * destruct (t_wfail t); [discriminate H|reflexivity].
      * injection H as <-. reflexivity.
  - injection H as <-. reflexivity.
  - injection H as <-. reflexivity.
  - unfold cmd_ibrun in H. destruct (t_slots t); [discriminate H|].
    destruct (_ && _); [discriminate H|]. destruct (negb _); [discriminate H|]. injection H as <-. reflexivity.
  - (* only the ERF variant writes *)
    unfold cmd_jsrun in H. destruct (t_rs t) as [|r0 rs]; [discriminate H|]. destruct (c_erf c).
    + destruct (negb _); [discriminate H|]. destruct (t_wfail t); [discriminate H|reflexivity].
    + destruct (r_cores r0); [discriminate H|]. destruct (c_tpc c =? 0); [discriminate H|].
      destruct (r_gpus r0); [|destruct (negb _); [discriminate H|]]; injection H as <-; reflexivity.
  - unfold cmd_prte in H. destruct (negb (c_dvm c)); [discriminate H|]. injection H as <-. reflexivity.
Qed.

Lemma upd_nth_same {A} (d : A) : forall (l : list A) i, upd i (nth i l d) l = l.
Proof.
  induction l as [|y r IH]; intros [|k]; simpl; try reflexivity. rewrite IH. reflexivity.
Qed.

Lemma handle_st_state : forall cs sts t, fst (handle_st cs sts t) = sts.
Proof.
  intros cs sts t. unfold handle_st.
  destruct (find_launcher cs t) as [e|[[i c]|]]; try reflexivity.
  pose proof (step_state c (nth i sts []) t) as Hs.
  destruct (get_launch_cmds c (nth i sts []) t) as [st' o]. simpl in Hs. subst st'.
  simpl. apply upd_nth_same.
Qed.

Lemma work_st_map : forall cs bulk sts,
  work_st cs sts bulk = map (fun t => snd (handle_st cs sts t)) bulk.
Proof.
  intros cs bulk; induction bulk as [|t r IH]; intro sts; simpl; [reflexivity|].
  pose proof (handle_st_state cs sts t) as Hs.
  destruct (handle_st cs sts t) as [sts' h]. simpl in Hs. subst sts'. simpl. rewrite IH. reflexivity.
Qed.

Lemma work_map : forall cs bulk, work cs bulk = map (handle cs) bulk.
Proof. intros. unfold work, handle. apply work_st_map. Qed.

Lemma bulk_task_alone : forall cs a t b,
  nth_error (work cs (a ++ t :: b)) (length a) = Some (handle cs t).
Proof.
  intros. rewrite work_map, map_app. simpl.
  rewrite nth_error_app2 by (rewrite map_length; apply le_n).
  rewrite map_length, Nat.sub_diag. reflexivity.
Qed.

Lemma work_app : forall cs a b, work cs (a ++ b) = work cs a ++ work cs b.
Proof. intros. rewrite !work_map. apply map_app. Qed.

Lemma bulk_refused_neutral : forall cs a r b, handle cs r = HFailed ->
  work cs (a ++ r :: b) = work cs a ++ HFailed :: work cs b /\
  work cs (a ++ b) = work cs a ++ work cs b.
Proof.
  intros cs a r b Hr. split; [|apply work_app].
  rewrite work_app. f_equal. rewrite !work_map. simpl. rewrite Hr. reflexivity.
Qed.

Lemma nth_fresh : forall cs i, nth i (fresh cs) [] = [].
Proof. unfold fresh. induction cs as [|c r IH]; intros [|k]; simpl; auto. Qed.

(* a launched task was launched by the first launcher of the order that
   accepts it, with that launcher's command for this task *)
Lemma handle_launched : forall cs t i cmd, handle cs t = HLaunched i cmd ->
  exists c, find_launcher cs t = inr (Some (i, c)) /\ nth_error cs i = Some c /\
            can_launch c t = inr true /\ snd (get_launch_cmds c [] t) = inr cmd.
Proof.
  intros cs t i cmd H. unfold handle, handle_st in H.
  destruct (find_launcher cs t) as [e|[[j c]|]] eqn:Hf; try discriminate.
  rewrite nth_fresh in H.
  destruct (get_launch_cmds c [] t) as [st' o] eqn:Hg. simpl in H.
  destruct o as [e|cmd']; [discriminate|]. injection H as <- <-.
  exists c. destruct (find_launcher_sound cs t j c Hf) as [Hc Hn].
  repeat split; auto. rewrite Hg. reflexivity.
Qed.

Lemma bulk_own_refl : forall cs t, bulk_launcher_is_own cs t (handle cs t) = true.
Proof.
  intros. unfold bulk_launcher_is_own. destruct (handle cs t); [reflexivity|apply Nat.eqb_refl].
Qed.

Lemma bulk_task_enacts : forall cs t, valid t -> (forall c, In c cs -> proven c) ->
  bulk_cmd_matches_placement cs t (handle cs t) = true.
Proof.
  intros cs t Hv Hall. unfold bulk_cmd_matches_placement, bulk_clause.
  destruct (handle cs t) as [|i cmd] eqn:Hh; [reflexivity|].
  destruct (handle_launched cs t i cmd Hh) as [c [Hf [Hn [Hcan Hg]]]]. cbv beta iota. rewrite Hn.
  assert (Hp : proven c) by (apply Hall; eapply nth_error_In, Hn).
  pose proof (selected_enacts cs t i c [] Hf Hv Hp) as H. cbv zeta in H. rewrite Hg in H.
  destruct H as [H1 [H2 H3]]. apply andb_true_iff; split; [apply andb_true_iff; split|]; assumption.
Qed.

Lemma all2_map {A B} (f : A -> B -> bool) (g : A -> B) (l : list A) :
  (forall x, In x l -> f x (g x) = true) -> all2 f l (map g l) = true.
Proof.
  induction l as [|x l IH]; intro H; simpl; [reflexivity|].
  rewrite H by (left; reflexivity). apply IH. intros y Hy. apply H. right. exact Hy.
Qed.

Lemma bulk_rows_hold : forall cs bulk, (forall t, In t bulk -> valid t) -> (forall c, In c cs -> proven c) ->
  all2 (bulk_launcher_is_own cs) bulk (work cs bulk) = true /\
  all2 (bulk_cmd_matches_placement cs) bulk (work cs bulk) = true.
Proof.
  intros cs bulk Hv Hall. rewrite work_map. split; apply all2_map.
  - intros t _. apply bulk_own_refl.
  - intros t Ht. apply bulk_task_enacts; auto.
Qed.

Lemma after_bulk_id : forall cs bulk sts, after_bulk cs sts bulk = sts.
Proof.
  intros cs bulk; induction bulk as [|t r IH]; intro sts; simpl; [reflexivity|].
  rewrite handle_st_state. apply IH.
Qed.

Lemma work_seq_map : forall cs bulks sts,
  work_seq cs sts bulks = map (map (fun t => snd (handle_st cs sts t))) bulks.
Proof.
  intros cs bulks; induction bulks as [|b r IH]; intro sts; simpl; [reflexivity|].
  rewrite after_bulk_id, work_st_map, IH. reflexivity.
Qed.

Lemma work_seq_concat : forall cs bulks,
  concat (work_seq cs (fresh cs) bulks) = work cs (concat bulks).
Proof.
  intros. rewrite work_seq_map, work_map. unfold handle.
  induction bulks as [|b r IH]; simpl; [reflexivity|]. rewrite IH, map_app. reflexivity.
Qed.

(* find_launcher is free of history: whatever bulks were handled before (and
   whatever comes after), the launcher and the command of task t are those of
   t alone on a fresh resource manager *)
Lemma find_launcher_history_free : forall cs before a t b after,
  nth_error (concat (work_seq cs (fresh cs) (before ++ (a ++ t :: b) :: after)))
            (length (concat before ++ a)) = Some (handle cs t).
Proof.
  intros. rewrite work_seq_concat, concat_app. simpl.
  replace (concat before ++ (a ++ t :: b) ++ concat after)
    with ((concat before ++ a) ++ t :: (b ++ concat after))
    by (rewrite <- !app_assoc; reflexivity).
  apply bulk_task_alone.
Qed.
