(* Proofs about the life cycle of the forwarding fabric (Fwd.Life): transport
   while the session is registered at the proxy or not (Fwd.Proofs.net_settled
   with ch = kids up sides), then the induction over histories of connects,
   rounds and closes.  The counting lemmas of Fwd.Proofs hold over any
   duplicate-free list of live sides. *)
From Coq Require Import List Bool PeanoNat Lia.
From RP Require Import Common.ListFacts Fwd.Model Fwd.Oracle Fwd.Proofs Fwd.Life Fwd.LifeOracle.
Import ListNotations.

Lemma mem_In a l : mem a l = true <-> In a l.
Proof. apply (existsb_eqb_In _ Nat.eqb_eq). Qed.

Lemma mem_false a l : mem a l = false <-> ~ In a l.
Proof. apply (existsb_eqb_not_In _ Nat.eqb_eq). Qed.

Lemma run_up_iter up sides fuel : forall sched st,
  run_up up sides fuel sched st = iter (step_up up sides) fuel sched st.
Proof.
  induction fuel as [|f IH]; intros sched st; simpl; [reflexivity|].
  destruct (step_up up sides (hd 0 sched) st); [apply IH | reflexivity].
Qed.

Lemma step_up_hop up sides k st st' :
  step_up up sides k st = Some st' -> exists p, hop sides st p (kids up sides p) st'.
Proof.
  unfold step_up. destruct (pick k (pending st)) as [[p rest]|] eqn:E; [|discriminate].
  intros H. injection H as <-. exists p. exact (pick_hop sides k st p rest _ E).
Qed.

Lemma step_up_none up sides k st : step_up up sides k st = None -> pending st = [].
Proof.
  unfold step_up. destruct (pick k (pending st)) as [[p rest]|] eqn:E; [discriminate|].
  intros _. exact (pick_none _ _ E).
Qed.

Lemma in_kids up sides p q : In q (kids up sides p) -> In q (children sides p).
Proof. unfold kids. destruct up; [auto|]. intros H. apply filter_In in H as [H _]. exact H. Qed.

Lemma kids_sum_le up sides (G : pub -> nat) p :
  sum_map G (kids up sides p) <= sum_map G (children sides p).
Proof.
  unfold kids. destruct up; [apply Nat.le_refl|]. rewrite sum_map_filter.
  apply sum_map_mono. intros q _. destruct (negb (on_proxy q)); lia.
Qed.

(* not registered: what a local publication would send to the proxy is lost *)
Lemma kids_down_local sides p : on_proxy p = false -> kids false sides p = [].
Proof.
  intros Hp. unfold kids. destruct p as [[s c|c] t m]; [|discriminate].
  destruct (filter _ _) as [|q l] eqn:E; [reflexivity|].
  assert (Hq : In q (filter (fun q => negb (on_proxy q)) (children sides (mkpub (Local s c) t m))))
    by (rewrite E; left; reflexivity).
  apply filter_In in Hq as [Hq Hl]. apply child_of_local in Hq as (-> & _). discriminate.
Qed.

Lemma pot_down_local sides d p : on_proxy p = false -> pot (kids false sides) d p = d p.
Proof. intros Hp. unfold pot. rewrite (kids_down_local sides p Hp). simpl. lia. Qed.

Lemma pot_up sides d p : pot (kids true sides) d p = tot2 sides d p.
Proof. rewrite tot2_pot. reflexivity. Qed.

(* less is caused, so fewer publications are to come *)
Lemma pot_kids_le up sides p : pot (kids up sides) (fun _ => 1) p <= weight sides p.
Proof.
  unfold weight. rewrite tot2_pot. unfold pot. apply Nat.add_le_mono_l.
  etransitivity; [apply kids_sum_le|]. apply sum_map_mono. intros q _. apply Nat.add_le_mono_l, kids_sum_le.
Qed.

Lemma run_up_settled up sides fuel sched st :
  sum_map (pot (kids up sides) (fun _ => 1)) (pending st) <= fuel ->
  let y := run_up up sides fuel sched st in
  pending y = [] /\
  npub y = npub st + sum_map (pot (kids up sides) (fun _ => 1)) (pending st) /\
  forall s c i, count_at s c i (log y)
                = count_at s c i (log st) + sum_map (pot (kids up sides) (cnt sides s c i)) (pending st).
Proof.
  rewrite run_up_iter.
  exact (lossless_settled sides (kids up sides) (step_up up sides) (in_kids up sides)
           (step_up_hop up sides) (step_up_none up sides) fuel sched st).
Qed.

(* Holds between events: every round runs to silence.  The last clause makes
   the counts of a round exact: they start from 0. *)
Definition inv (w : world) : Prop :=
  NoDup (w_live w) /\ w_reg w = mem 0 (w_live w) /\ pending (w_net w) = [] /\
  (forall s c i, w_next w <= i -> count_at s c i (log (w_net w)) = 0).

Lemma inv0 : inv world0.
Proof. repeat split; simpl; constructor. Qed.

Lemma mem_app a l x : mem a (l ++ [x]) = mem a l || Nat.eqb a x.
Proof. unfold mem. rewrite existsb_app. simpl. rewrite orb_false_r. reflexivity. Qed.

Lemma NoDup_snoc (l : list nat) x : NoDup l -> ~ In x l -> NoDup (l ++ [x]).
Proof.
  intros Hnd Hx. apply NoDup_app_iff. repeat split; [exact Hnd | repeat constructor; intros [] |].
  intros y Hy [<-|[]]. exact (Hx Hy).
Qed.

Lemma mem_remove a s l : mem a (remove_side s l) = mem a l && negb (Nat.eqb a s).
Proof.
  destruct (mem a (remove_side s l)) eqn:E; symmetry.
  - apply mem_In, filter_In in E as [E1 E2]. apply mem_In in E1. rewrite E1. exact E2.
  - apply andb_false_iff. destruct (mem a l) eqn:E1; [right | left; reflexivity].
    destruct (negb (Nat.eqb a s)) eqn:E2; [|reflexivity].
    apply mem_false in E. contradiction E. apply filter_In. split; [apply mem_In; exact E1 | exact E2].
Qed.

Lemma drop_pending_nil f n : pending n = [] -> pending (drop_pending f n) = [].
Proof. intros H. unfold drop_pending. simpl. rewrite H. reflexivity. Qed.

Lemma connect_keeps w s :
  log (w_net (do_connect w s)) = log (w_net w) /\ npub (w_net (do_connect w s)) = npub (w_net w) /\
  w_next (do_connect w s) = w_next w.
Proof.
  unfold do_connect, failed. destruct (mem s (w_live w)); [auto|].
  destruct (Nat.eqb s 0); [destruct (w_done w || w_reg w) | destruct (w_reg w)]; auto.
Qed.

Lemma close_keeps w s :
  log (w_net (do_close w s)) = log (w_net w) /\ npub (w_net (do_close w s)) = npub (w_net w) /\
  w_next (do_close w s) = w_next w.
Proof. unfold do_close. destruct (negb (mem s (w_live w))); [auto|]. destruct (Nat.eqb s 0); auto. Qed.

Lemma inv_connect w s : inv w -> inv (do_connect w s).
Proof.
  intros (Hnd & Hreg & Hp & Hl). destruct (connect_keeps w s) as (Hlog & _ & Hnext).
  unfold inv. rewrite Hlog, Hnext. rewrite <- !and_assoc. split; [|exact Hl].
  unfold do_connect, failed. destruct (mem s (w_live w)) eqn:Em; [auto|]. apply mem_false in Em.
  destruct (Nat.eqb_spec s 0) as [->|E0].
  - destruct (w_done w || w_reg w); [auto|]. simpl. rewrite mem_app, Hp, orb_true_r.
    repeat split. apply NoDup_snoc; assumption.
  - destruct (w_reg w); [|auto]. simpl. rewrite mem_app, <- Hreg, Hp.
    repeat split. apply NoDup_snoc; assumption.
Qed.

Lemma inv_close w s : inv w -> inv (do_close w s).
Proof.
  intros (Hnd & Hreg & Hp & Hl). destruct (close_keeps w s) as (Hlog & _ & Hnext).
  unfold inv. rewrite Hlog, Hnext. rewrite <- !and_assoc. split; [|exact Hl].
  unfold do_close. destruct (negb (mem s (w_live w))); [auto|].
  destruct (Nat.eqb s 0) eqn:E0; simpl; rewrite mem_remove, Hp.
  - rewrite andb_false_r. repeat split. apply NoDup_filter. exact Hnd.
  - rewrite <- Hreg, (Nat.eqb_sym 0 s), E0, andb_true_r. repeat split. apply NoDup_filter. exact Hnd.
Qed.

Definition new_pubs (w : world) (posts : list post) : list pub :=
  filter (live_pub (w_live w)) (posts_from (w_next w) posts).

Lemma new_pubs_in w posts p : In p (new_pubs w posts) -> In p (posts_from (w_next w) posts).
Proof. unfold new_pubs. intros H. apply filter_In in H as [H _]. exact H. Qed.

Lemma do_round_net w posts sched : pending (w_net w) = [] ->
  w_net (do_round w posts sched)
  = run_up (w_reg w) (w_live w) (round_bound (w_live w) (length posts)) sched
      (mknet (new_pubs w posts) (log (w_net w)) (npub (w_net w))).
Proof. intros Hp. unfold do_round. rewrite Hp. reflexivity. Qed.

Lemma round_fuel w posts : NoDup (w_live w) ->
  sum_map (pot (kids (w_reg w) (w_live w)) (fun _ => 1)) (new_pubs w posts)
  <= length posts * (length (w_live w) + 1) /\
  length posts * (length (w_live w) + 1) <= round_bound (w_live w) (length posts).
Proof.
  intros Hnd. split; [|apply Nat.mul_le_mono_l; lia].
  unfold new_pubs. rewrite sum_map_filter, <- (posts_from_length posts (w_next w)).
  apply sum_map_le. intros p _. pose proof (pot_kids_le (w_reg w) (w_live w) p).
  pose proof (weight_le (w_live w) p Hnd).
  destruct (live_pub (w_live w) p); lia.
Qed.

Lemma sum_new_pubs (F : pub -> nat) w posts j s0 c0 src :
  nth_error posts j = Some (s0, c0, src) -> mem s0 (w_live w) = true ->
  (forall p, m_id (p_msg p) <> w_next w + j -> F p = 0) ->
  sum_map F (new_pubs w posts) = F (post_pub (w_next w + j) (s0, c0, src)).
Proof.
  intros Hn Hs0 HF. unfold new_pubs. rewrite sum_map_filter, (sum_posts _ posts (w_next w) j _ Hn).
  - unfold live_pub, post_pub. cbn [p_bus]. rewrite Hs0. reflexivity.
  - intros p Hp. rewrite (HF p Hp). destruct (live_pub (w_live w) p); reflexivity.
Qed.

Lemma round_settled w posts sched : inv w ->
  let st := w_net (do_round w posts sched) in
  pending st = [] /\
  npub st <= npub (w_net w) + length posts * (length (w_live w) + 1) /\
  forall s c i, count_at s c i (log st)
    = count_at s c i (log (w_net w))
      + sum_map (pot (kids (w_reg w) (w_live w)) (cnt (w_live w) s c i)) (new_pubs w posts).
Proof.
  intros (Hnd & _ & Hp & _). rewrite (do_round_net w posts sched Hp).
  destruct (round_fuel w posts Hnd) as [H1 H2].
  destruct (run_up_settled (w_reg w) (w_live w) (round_bound (w_live w) (length posts)) sched
              (mknet (new_pubs w posts) (log (w_net w)) (npub (w_net w)))) as (Hq & Hn & H); simpl in *; [lia|].
  split; [exact Hq|]. split; [lia | exact H].
Qed.

Lemma round_other_id w posts sched s c i : inv w -> i < w_next w \/ w_next w + length posts <= i ->
  count_at s c i (log (w_net (do_round w posts sched))) = count_at s c i (log (w_net w)).
Proof.
  intros Hinv Hi. rewrite (proj2 (proj2 (round_settled w posts sched Hinv))).
  rewrite sum_map_zero; [lia|]. intros p Hin.
  apply (pot_other_id (w_live w) _ (in_kids (w_reg w) (w_live w))).
  apply new_pubs_in, posts_from_ids in Hin. lia.
Qed.

Lemma inv_round w posts sched : inv w -> inv (do_round w posts sched).
Proof.
  intros Hi. pose proof (round_settled w posts sched Hi) as (Hq & _).
  pose proof Hi as (Hnd & Hreg & Hp & Hl). repeat split; try assumption.
  intros s c i Hle. change (w_next (do_round w posts sched)) with (w_next w + length posts) in Hle.
  rewrite (round_other_id w posts sched s c i Hi) by (right; exact Hle). apply Hl. lia.
Qed.

Lemma inv_step w o : inv w -> inv (life_step w o).
Proof. destruct o; simpl; [apply inv_connect | apply inv_close | apply inv_round]. Qed.

Lemma inv_run ops : forall w, inv w -> inv (life_run ops w).
Proof. apply fold_left_inv. intros w o _. apply inv_step. Qed.

Lemma step_log_stable w o s c i : inv w -> i < w_next w ->
  count_at s c i (log (w_net (life_step w o))) = count_at s c i (log (w_net w)) /\
  w_next w <= w_next (life_step w o).
Proof.
  intros Hinv Hi. destruct o as [x|x|posts sched]; simpl.
  - destruct (connect_keeps w x) as (-> & _ & ->). auto.
  - destruct (close_keeps w x) as (-> & _ & ->). auto.
  - split; [apply round_other_id; auto | lia].
Qed.

Lemma run_log_stable ops s c i : forall w, inv w -> i < w_next w ->
  count_at s c i (log (w_net (life_run ops w))) = count_at s c i (log (w_net w)).
Proof.
  induction ops as [|o ops IH]; intros w Hinv Hi; simpl; [reflexivity|].
  destruct (step_log_stable w o s c i Hinv Hi) as [H1 H2].
  rewrite IH; [exact H1 | apply inv_step; exact Hinv | lia].
Qed.

(* a round played while the client session is up *)
Lemma round_counts w posts sched j s0 c0 src s c :
  inv w -> mem 0 (w_live w) = true ->
  nth_error posts j = Some (s0, c0, src) -> mem s0 (w_live w) = true -> mem s (w_live w) = true ->
  count_at s c (w_next w + j) (log (w_net (do_round w posts sched))) = expected (w_next w + j) (s0, c0, src) s c.
Proof.
  intros Hinv H0 Hnth Hs0 Hs. rewrite (proj2 (proj2 (round_settled w posts sched Hinv))).
  destruct Hinv as (Hnd & Hreg & _ & Hl). rewrite Hl, Hreg, H0 by lia.
  rewrite (sum_new_pubs _ w posts j s0 c0 src Hnth Hs0)
    by (apply (pot_other_id (w_live w) _ (in_kids true (w_live w)))).
  rewrite pot_up. apply (tot2_post (w_live w) s c _ s0 c0 src Hnd); apply mem_In; assumption.
Qed.

(* a round played without the client session (before it connects there is no
   live side; after it closed the remaining pilots only talk to themselves) *)
Lemma round_counts_down w posts sched j s0 c0 src s c :
  inv w -> mem 0 (w_live w) = false ->
  nth_error posts j = Some (s0, c0, src) -> mem s0 (w_live w) = true ->
  count_at s c (w_next w + j) (log (w_net (do_round w posts sched)))
  = if Nat.eqb s0 s && chan_eqb c0 c then 1 else 0.
Proof.
  intros Hinv H0 Hnth Hs0. rewrite (proj2 (proj2 (round_settled w posts sched Hinv))).
  destruct Hinv as (Hnd & Hreg & _ & Hl). rewrite Hl, Hreg, H0 by lia.
  rewrite (sum_new_pubs _ w posts j s0 c0 src Hnth Hs0)
    by (apply (pot_other_id (w_live w) _ (in_kids false (w_live w)))).
  rewrite pot_down_local by reflexivity.
  unfold post_pub. rewrite (cnt_local (w_live w) s c _ s0 c0 _ Hnd) by (apply mem_In; exact Hs0).
  rewrite source_msg_id, Nat.eqb_refl, andb_true_r. reflexivity.
Qed.

(* every round of a history was played from a state that satisfies the
   invariant, and the counts of its messages are final when it ends *)
Lemma life_round ops : forall w, inv w ->
  forall live reg k posts, In (live, reg, k, posts) (rounds_from w ops) ->
  exists w1 sched, inv w1 /\ w_live w1 = live /\ w_next w1 = k /\
    forall s c j, j < length posts ->
      count_at s c (k + j) (log (w_net (life_run ops w)))
      = count_at s c (k + j) (log (w_net (do_round w1 posts sched))).
Proof.
  induction ops as [|o ops IH]; intros w Hinv live reg k posts Hin; simpl in Hin; [contradiction|].
  apply in_app_or in Hin as [Hin|Hin].
  - destruct o as [x|x|posts' sched]; try contradiction.
    destruct Hin as [Hin|[]]. injection Hin as <- <- <- <-. exists w, sched. split; [exact Hinv|]. split; [reflexivity|]. split; [reflexivity|].
    intros s c j Hj. simpl. apply run_log_stable; [apply inv_round; exact Hinv|].
    change (w_next (do_round w posts' sched)) with (w_next w + length posts'). lia.
  - exact (IH (life_step w o) (inv_step w o Hinv) live reg k posts Hin).
Qed.

(* THE life-cycle theorem: in whatever order sides have connected and closed,
   a message published in a round played while the client session is up has
   the prescribed delivery count on every side that is live in that round --
   in the final log of the whole history *)
Lemma life_counts ops : forall w, inv w ->
  forall live reg k posts, In (live, reg, k, posts) (rounds_from w ops) ->
  forall j s0 c0 src, nth_error posts j = Some (s0, c0, src) ->
  mem 0 live = true -> mem s0 live = true ->
  forall s c, mem s live = true ->
  count_at s c (k + j) (log (w_net (life_run ops w))) = expected (k + j) (s0, c0, src) s c.
Proof.
  intros w Hinv live reg k posts Hin j s0 c0 src Hnth H0 Hs0 s c Hs.
  destruct (life_round ops w Hinv live reg k posts Hin) as (w1 & sched & Hinv1 & <- & <- & ->).
  - apply round_counts; assumption.
  - apply nth_error_Some. congruence.
Qed.

Lemma life_counts_down ops : forall w, inv w ->
  forall live reg k posts, In (live, reg, k, posts) (rounds_from w ops) ->
  forall j s0 c0 src, nth_error posts j = Some (s0, c0, src) ->
  mem 0 live = false -> mem s0 live = true ->
  forall s c,
  count_at s c (k + j) (log (w_net (life_run ops w))) = if Nat.eqb s0 s && chan_eqb c0 c then 1 else 0.
Proof.
  intros w Hinv live reg k posts Hin j s0 c0 src Hnth H0 Hs0 s c.
  destruct (life_round ops w Hinv live reg k posts Hin) as (w1 & sched & Hinv1 & <- & <- & ->).
  - apply (round_counts_down w1 posts sched j s0 c0 src s c); assumption.
  - apply nth_error_Some. congruence.
Qed.

Lemma life_quiet ops : forall w, inv w ->
  pending (w_net (life_run ops w)) = [] /\
  npub (w_net (life_run ops w)) <= npub (w_net w) + pub_budget (rounds_from w ops).
Proof.
  induction ops as [|o ops IH]; intros w Hinv.
  - simpl. destruct Hinv as (_ & _ & Hp & _). split; [exact Hp | lia].
  - change (life_run (o :: ops) w) with (life_run ops (life_step w o)).
    destruct (IH (life_step w o) (inv_step w o Hinv)) as [H1 H2]. split; [exact H1|].
    destruct o as [x|x|posts sched]; cbn [rounds_from life_step app pub_budget] in *.
    + destruct (connect_keeps w x) as (_ & Hn & _). lia.
    + destruct (close_keeps w x) as (_ & Hn & _). lia.
    + pose proof (round_settled w posts sched Hinv) as (_ & Hb & _). lia.
Qed.

(* who talks to the proxy: only the client ever unregisters the session id *)
Lemma step_unregister w o :
  ok_only_owner_unregisters (w_reqs w) = true -> ok_only_owner_unregisters (w_reqs (life_step w o)) = true.
Proof.
  unfold ok_only_owner_unregisters. intros H. destruct o as [x|x|posts sched]; simpl.
  - unfold do_connect, failed. destruct (mem x (w_live w)); simpl; [rewrite app_nil_r; exact H|].
    destruct (Nat.eqb x 0); [destruct (w_done w || w_reg w)|destruct (w_reg w)]; simpl;
      rewrite ?app_nil_r, ?forallb_app, ?H; reflexivity.
  - unfold do_close. destruct (negb (mem x (w_live w))); [exact H|].
    destruct (Nat.eqb x 0); simpl; rewrite ?forallb_app, ?H; reflexivity.
  - exact H.
Qed.

Lemma life_unregister ops : forall w,
  ok_only_owner_unregisters (w_reqs w) = true -> ok_only_owner_unregisters (w_reqs (life_run ops w)) = true.
Proof. apply (fold_left_inv life_step (fun w => ok_only_owner_unregisters (w_reqs w) = true)). intros w o _. apply step_unregister. Qed.

Lemma life_run_app a b w : life_run (a ++ b) w = life_run b (life_run a w).
Proof. unfold life_run. apply fold_left_app. Qed.

Lemma close_live w s x : mem x (w_live (do_close w s)) = mem x (w_live w) && negb (Nat.eqb x s).
Proof.
  unfold do_close. destruct (mem s (w_live w)) eqn:E; simpl.
  - destruct (Nat.eqb_spec s 0) as [->|_]; apply mem_remove.
  - destruct (Nat.eqb_spec x s) as [->|_]; [rewrite E; reflexivity | rewrite andb_true_r; reflexivity].
Qed.

Lemma pilot_close_changes_nothing pre k posts sched rest j s0 c0 src s c :
  k <> 0 ->
  let w := life_run pre world0 in
  nth_error posts j = Some (s0, c0, src) ->
  mem 0 (w_live w) = true -> mem s0 (w_live w) = true -> s0 <> k ->
  mem s (w_live w) = true -> s <> k ->
  count_at s c (w_next w + j)
    (log (w_net (life_run (pre ++ Close k :: Round posts sched :: rest) world0)))
  = expected (w_next w + j) (s0, c0, src) s c.
Proof.
  intros Hk w Hnth H0 Hs0 Hs0k Hs Hsk. rewrite life_run_app. fold w.
  assert (Hinv : inv w) by (apply inv_run, inv0).
  assert (Hm : forall x, mem x (w_live w) = true -> x <> k -> mem x (w_live (do_close w k)) = true).
  { intros x Hx Hne. apply Nat.eqb_neq in Hne. rewrite close_live, Hx, Hne. reflexivity. }
  destruct (close_keeps w k) as (_ & _ & Hn). rewrite <- Hn.
  apply (life_counts (Close k :: Round posts sched :: rest) w Hinv
           (w_live (do_close w k)) (w_reg (do_close w k)) (w_next (do_close w k)) posts).
  - simpl. left. reflexivity.
  - exact Hnth.
  - apply Hm; [exact H0 | intros E; apply Hk; symmetry; exact E].
  - apply Hm; assumption.
  - apply Hm; assumption.
Qed.

Lemma forallb_others_of live s0 (g : nat -> bool) :
  forallb g (others_of live s0) = true <-> forall s, mem s live = true -> s <> s0 -> g s = true.
Proof.
  unfold others_of. rewrite forallb_but. split; intros H s Hs; apply H, mem_In, Hs.
Qed.

Lemma life_count_live ops live reg k posts j s0 c0 src s :
  In (live, reg, k, posts) (rounds_from world0 ops) -> nth_error posts j = Some (s0, c0, src) ->
  mem s0 live = true -> mem s live = true ->
  count_at s c0 (k + j) (log (w_net (life_run ops world0)))
  = if Nat.eqb s s0 then 1 else if mem 0 live && post_crosses (k + j) (s0, c0, src) then 1 else 0.
Proof.
  intros Hin Hnth Hs0 Hs. destruct (mem 0 live) eqn:E0.
  - rewrite (life_counts ops world0 inv0 live reg k posts Hin j s0 c0 src Hnth E0 Hs0 s c0 Hs).
    unfold expected. rewrite chan_eqb_refl. reflexivity.
  - rewrite (life_counts_down ops world0 inv0 live reg k posts Hin j s0 c0 src Hnth E0 Hs0 s c0).
    rewrite chan_eqb_refl, andb_true_r, (Nat.eqb_sym s0 s). destruct (Nat.eqb s s0); reflexivity.
Qed.

Lemma model_life_exactly_once ops :
  ok_life_exactly_once ops (log (w_net (life_run ops world0))) = true.
Proof.
  unfold ok_life_exactly_once, all_rounds. apply forallb_forall. intros [[[live reg] k] posts] Hin.
  apply all_posts_spec. intros j [[s0 c0] src] Hnth.
  rewrite <- !orb_assoc, !orb_imp, !negb_false_iff, forallb_others_of. intros E1 E2 E3 s Hs Hne.
  rewrite (life_count_live ops live reg k posts j s0 c0 src s Hin Hnth E1 Hs), E2, E3.
  apply Nat.eqb_neq in Hne. rewrite Hne. reflexivity.
Qed.

Lemma model_life_not_back ops :
  ok_life_not_back ops (log (w_net (life_run ops world0))) = true.
Proof.
  unfold ok_life_not_back, all_rounds. apply forallb_forall. intros [[[live reg] k] posts] Hin.
  apply all_posts_spec. intros j [[s0 c0] src] Hnth. rewrite orb_imp, negb_false_iff. intros E1.
  rewrite (life_count_live ops live reg k posts j s0 c0 src s0 Hin Hnth E1 E1), Nat.eqb_refl. reflexivity.
Qed.

Lemma model_life_stays_local ops :
  ok_life_stays_local ops (log (w_net (life_run ops world0))) = true.
Proof.
  unfold ok_life_stays_local, all_rounds. apply forallb_forall. intros [[[live reg] k] posts] Hin.
  apply all_posts_spec. intros j [[s0 c0] src] Hnth.
  rewrite <- orb_assoc, !orb_imp, negb_false_iff, forallb_others_of. intros E1 E3 s Hs Hne.
  rewrite (life_count_live ops live reg k posts j s0 c0 src s Hin Hnth E1 Hs), E3, andb_false_r.
  apply Nat.eqb_neq in Hne. rewrite Hne. reflexivity.
Qed.

Lemma model_life_no_circulation ops :
  let w := life_run ops world0 in
  ok_life_no_circulation ops (npub (w_net w)) (quiescent (w_net w)) = true.
Proof.
  destruct (life_quiet ops world0 inv0) as [Hq Hn]. unfold ok_life_no_circulation, quiescent.
  cbv zeta. rewrite Hq. simpl in Hn. apply Nat.leb_le in Hn. rewrite Hn. reflexivity.
Qed.

Lemma model_only_owner_unregisters ops :
  ok_only_owner_unregisters (w_reqs (life_run ops world0)) = true.
Proof. apply life_unregister. reflexivity. Qed.

