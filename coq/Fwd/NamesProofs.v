(* The ids of the sides do not matter (C16).  The forwarders compare origin
   markers for EQUALITY of side ids (Nat.eqb in pubsub_fwd); nothing else is
   ever done with an id.  Hence the delivery counts hold over ANY
   duplicate-free list of side ids, and are invariant under every injective
   renaming of the sides (that keeps the client the client: the only place
   where a particular id matters is the fwd default of advance(), which
   distinguishes the client from the pilots). *)
From Coq Require Import List PeanoNat Lia FinFun.
From RP Require Import Fwd.Model Fwd.Oracle Fwd.Proofs.
Import ListNotations.

Definition network_on (sides : list nat) (posts : list post) (sched : list nat) : net :=
  run sides (length posts * (length sides + 2)) sched (mknet (posts_from 0 posts) [] 0).

Lemma any_ids_counts sides posts sched i s0 c0 src s c :
  NoDup sides -> nth_error posts i = Some (s0, c0, src) -> In s0 sides -> In s sides ->
  count_at s c i (log (network_on sides posts sched)) = expected i (s0, c0, src) s c.
Proof.
  intros Hnd Hnth Hs0 Hs. unfold network_on. rewrite run_iter.
  destruct (run_settled sides (length posts * (length sides + 2)) sched (mknet (posts_from 0 posts) [] 0))
    as (_ & _ & H).
  - pose proof (pending_weight_le sides (posts_from 0 posts) Hnd) as H. rewrite posts_from_length in H.
    etransitivity; [exact H | apply Nat.mul_le_mono_l; lia].
  - rewrite H. simpl. exact (posted_potential sides s c 0 posts i s0 c0 src Hnd Hnth Hs0 Hs).
Qed.

Definition rename_src (f : nat -> nat) (s : source) : source :=
  match s with Raw o fl => Raw (option_map f o) fl | x => x end.

Definition rename_post (f : nat -> nat) (x : post) : post :=
  let '(s, c, src) := x in (f s, c, rename_src f src).

Lemma eqb_inj (f : nat -> nat) a b : Injective f -> Nat.eqb (f a) (f b) = Nat.eqb a b.
Proof.
  intros Hf. destruct (Nat.eqb a b) eqn:E.
  - apply Nat.eqb_eq in E. subst b. apply Nat.eqb_refl.
  - apply Nat.eqb_neq. intros H. apply Hf in H. apply Nat.eqb_neq in E. contradiction.
Qed.

Lemma expected_rename f i s0 c0 src s c : Injective f -> f 0 = 0 ->
  expected i (rename_post f (s0, c0, src)) (f s) c = expected i (s0, c0, src) s c.
Proof.
  intros Hf H0. unfold rename_post, expected, post_crosses. rewrite (eqb_inj f s s0 Hf).
  replace (crosses (f s0) (source_msg (f s0) i (rename_src f src))) with (crosses s0 (source_msg s0 i src));
    [reflexivity|].
  destruct src as [o fl|e|t e]; unfold crosses, source_msg, rename_src; simpl.
  - destruct o as [o|]; simpl; [rewrite (eqb_inj f o s0 Hf)|]; reflexivity.
  - unfold advance_default.
    replace (Nat.eqb (f s0) 0) with (Nat.eqb s0 0) by (rewrite <- (eqb_inj f s0 0 Hf), H0; reflexivity).
    reflexivity.
  - reflexivity.
Qed.

(* delivery counts are invariant under every injective renaming of the sides
   (and do not depend on the transport schedule either) *)
Lemma renaming_invariant f sides posts sched sched' i s0 c0 src s c :
  Injective f -> f 0 = 0 -> NoDup sides ->
  nth_error posts i = Some (s0, c0, src) -> In s0 sides -> In s sides ->
  count_at (f s) c i (log (network_on (map f sides) (map (rename_post f) posts) sched'))
  = count_at s c i (log (network_on sides posts sched)).
Proof.
  intros Hf H0 Hnd Hnth Hs0 Hs.
  rewrite (any_ids_counts sides posts sched i s0 c0 src s c Hnd Hnth Hs0 Hs).
  rewrite <- (expected_rename f i s0 c0 src s c Hf H0).
  apply (any_ids_counts (map f sides) (map (rename_post f) posts) sched' i (f s0) c0 (rename_src f src) (f s) c).
  - apply Injective_map_NoDup; assumption.
  - apply (map_nth_error (rename_post f) i posts Hnth).
  - apply in_map. exact Hs0.
  - apply in_map. exact Hs.
Qed.
