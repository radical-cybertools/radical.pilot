(* Proofs about the forwarding network under failing hand-overs (Fwd.Fault).
   The potential of Fwd.Proofs is conserved if the potential of what was lost
   is kept on the books (net_settled with f_lost as the dropped list): deliveries so far + potential in flight + potential
   lost = what the property prescribes.  Hence: never more than prescribed
   (at most once), and exactly as prescribed for every message none of whose
   hand-overs failed -- for EVERY fault schedule, batch of posts and transport
   schedule. *)
From Coq Require Import List Bool PeanoNat Lia Permutation.
From RP Require Import Fwd.Model Fwd.Oracle Fwd.Proofs Fwd.Fault Fwd.FaultOracle.
Import ListNotations.

Lemma wire_fire_le1 w p : wire_fire w p = [] \/ exists q, wire_fire w p = [q].
Proof.
  unfold wire_fire. destruct (hears (w_side w) (w_src w) p); [|left; reflexivity].
  destruct (pubsub_fwd (w_side w) (w_fp w) (p_msg p)); [right; eexists; reflexivity | left; reflexivity].
Qed.

Lemma flat_map_flat_map {A B C} (f : B -> list C) (g : A -> list B) (l : list A) :
  flat_map f (flat_map g l) = flat_map (fun x => flat_map f (g x)) l.
Proof. induction l as [|x l IH]; simpl; [reflexivity|]. rewrite flat_map_app, IH. reflexivity. Qed.

Lemma children_wires sides p : children sides p = flat_map (fun w => wire_fire w p) (all_wires sides).
Proof. unfold children, all_wires. symmetry. apply flat_map_flat_map. Qed.

Lemma fire_all_split F p : forall ws a ok lost a',
  fire_all F ws p a = (ok, lost, a') ->
  Permutation (ok ++ lost) (flat_map (fun w => wire_fire w p) ws).
Proof.
  induction ws as [|w ws IH]; intros a ok lost a' H; simpl in H.
  - injection H as <- <- _. constructor.
  - simpl. destruct (wire_fire_le1 w p) as [E|[q E]]; rewrite E in *.
    + exact (IH _ _ _ _ H).
    + destruct (fire_all F ws p (set_att a (wire_key w) (S (get_att a (wire_key w))))) as [[ok1 lost1] a1] eqn:E1.
      pose proof (IH _ _ _ _ E1) as H1.
      destruct (fails F (wire_key w) (S (get_att a (wire_key w)))); injection H as <- <- _; simpl.
      * symmetry. apply Permutation_cons_app. symmetry. exact H1.
      * constructor. exact H1.
Qed.

Lemma fire_all_nofault p : forall ws a ok lost a',
  fire_all [] ws p a = (ok, lost, a') -> lost = [].
Proof.
  induction ws as [|w ws IH]; intros a ok lost a' H; simpl in H.
  - injection H as _ <- _. reflexivity.
  - destruct (wire_fire w p) as [|q l]; [exact (IH _ _ _ _ H)|].
    destruct (fire_all [] ws p (set_att a (wire_key w) (S (get_att a (wire_key w))))) as [[ok1 lost1] a1] eqn:E1.
    injection H as _ <- _. exact (IH _ _ _ _ E1).
Qed.

Lemma step_f_moves F sides k st st' :
  step_f F sides k st = Some st' ->
  exists p kept lost, hop sides (f_net st) p kept (f_net st') /\
    Permutation (kept ++ lost) (children sides p) /\ f_lost st' = f_lost st ++ lost.
Proof.
  unfold step_f. destruct (pick k (pending (f_net st))) as [[p rest]|] eqn:E; [|discriminate].
  destruct (fire_all F (all_wires sides) p (f_att st)) as [[ok lost] a'] eqn:Ef.
  intros H. injection H as <-. exists p, ok, lost.
  split; [exact (pick_hop sides k (f_net st) p rest ok E)|].
  split; [rewrite children_wires; exact (fire_all_split F p _ _ _ _ _ Ef) | reflexivity].
Qed.

Lemma step_f_none F sides k st : step_f F sides k st = None -> pending (f_net st) = [].
Proof.
  unfold step_f. destruct (pick k (pending (f_net st))) as [[p rest]|] eqn:E; [|intros _; exact (pick_none _ _ E)].
  destruct (fire_all F (all_wires sides) p (f_att st)) as [[ok lost] a']. discriminate.
Qed.

Lemma run_f_iter F sides fuel : forall sched st,
  run_f F sides fuel sched st = iter (step_f F sides) fuel sched st.
Proof.
  induction fuel as [|f IH]; intros sched st; simpl; [reflexivity|].
  destruct (step_f F sides (hd 0 sched) st); [apply IH | reflexivity].
Qed.

Lemma network_f_settled F n posts sched :
  let y := network_f F n posts sched in
  pending (f_net y) = [] /\ npub (f_net y) <= length posts * (n + 2) /\
  forall s c i,
    count_at s c i (log (f_net y)) + sum_map (tot2 (sides_of n) (cnt (sides_of n) s c i)) (f_lost y)
    = sum_map (tot2 (sides_of n) (cnt (sides_of n) s c i)) (posts_from 0 posts).
Proof.
  destruct (network_fuel n posts) as [H1 H2]. unfold weight in H1. rewrite tot2_pot in H1.
  unfold network_f. rewrite run_f_iter.
  destruct (net_settled (sides_of n) (children (sides_of n)) (fun _ _ H => H)
              f_net f_lost (step_f F (sides_of n)) (step_f_moves F (sides_of n)) (step_f_none F (sides_of n))
              (bound n (length posts)) sched (mkfnet (mknet (posts_from 0 posts) [] 0) [] []))
    as (Hq & Hn & H); simpl in *; [lia|].
  split; [exact Hq|]. split; [lia|]. intros s c i. specialize (H s c i). rewrite !Nat.add_0_r in H. exact H.
Qed.

Lemma fault_no_circulation F n posts sched :
  pending (f_net (network_f F n posts sched)) = [] /\
  npub (f_net (network_f F n posts sched)) <= length posts * (n + 2).
Proof. destruct (network_f_settled F n posts sched) as (Hq & Hn & _). split; assumption. Qed.

Lemma fault_conservation F n posts sched i s0 c0 src s c :
  nth_error posts i = Some (s0, c0, src) -> s0 <= n -> s <= n ->
  count_at s c i (log (f_net (network_f F n posts sched)))
  + sum_map (tot2 (sides_of n) (cnt (sides_of n) s c i)) (f_lost (network_f F n posts sched))
  = expected i (s0, c0, src) s c.
Proof.
  intros Hnth Hs0 Hs. rewrite (proj2 (proj2 (network_f_settled F n posts sched))).
  apply (posted_potential (sides_of n) s c 0 posts i s0 c0 src (sides_nodup n) Hnth); apply in_sides; assumption.
Qed.

(* AT MOST ONCE, whatever fails *)
Lemma fault_at_most F n posts sched i s0 c0 src s c :
  nth_error posts i = Some (s0, c0, src) -> s0 <= n -> s <= n ->
  count_at s c i (log (f_net (network_f F n posts sched))) <= expected i (s0, c0, src) s c.
Proof. intros H1 H2 H3. pose proof (fault_conservation F n posts sched i s0 c0 src s c H1 H2 H3). lia. Qed.

Lemma fault_never_twice F n posts sched i s0 c0 src s c :
  nth_error posts i = Some (s0, c0, src) -> s0 <= n -> s <= n ->
  count_at s c i (log (f_net (network_f F n posts sched))) <= 1.
Proof.
  intros H1 H2 H3. pose proof (fault_at_most F n posts sched i s0 c0 src s c H1 H2 H3).
  pose proof (expected_le1 i (s0, c0, src) s c). lia.
Qed.

(* EXACTLY as prescribed for a message none of whose hand-overs failed *)
Lemma fault_exact_if_handed_over F n posts sched i s0 c0 src s c :
  nth_error posts i = Some (s0, c0, src) -> s0 <= n -> s <= n ->
  (forall q, In q (f_lost (network_f F n posts sched)) -> m_id (p_msg q) <> i) ->
  count_at s c i (log (f_net (network_f F n posts sched))) = expected i (s0, c0, src) s c.
Proof.
  intros H1 H2 H3 Hl. pose proof (fault_conservation F n posts sched i s0 c0 src s c H1 H2 H3) as H.
  rewrite sum_map_zero in H; [lia|]. intros q Hq. apply tot2_other_id. exact (Hl q Hq).
Qed.

(* only forwarded copies get lost, never a publication of a component *)
Lemma lost_not_initial F sides fuel : forall sched st,
  (forall q, In q (f_lost st) -> exists p, In q (children sides p)) ->
  forall q, In q (f_lost (run_f F sides fuel sched st)) -> exists p, In q (children sides p).
Proof.
  intros sched st. rewrite run_f_iter.
  apply (iter_inv _ (fun x => forall q, In q (f_lost x) -> exists p, In q (children sides p))). intros k x x' Hx E.
  apply step_f_moves in E as (p & ok & lost & _ & Hperm & ->). intros q Hq.
  apply in_app_or in Hq as [Hq|Hq]; [exact (Hx q Hq)|].
  exists p. apply (Permutation_in q Hperm). apply in_or_app. right. exact Hq.
Qed.

Lemma run_f_nofault sides fuel sched st : f_lost st = [] -> f_lost (run_f [] sides fuel sched st) = [].
Proof.
  rewrite run_f_iter. apply (iter_inv _ (fun x => f_lost x = [])). intros k x x' Hx E.
  unfold step_f in E. destruct (pick k (pending (f_net x))) as [[p rest]|]; [|discriminate].
  destruct (fire_all [] (all_wires sides) p (f_att x)) as [[ok lost] a'] eqn:Ef.
  injection E as <-. simpl. rewrite Hx, (fire_all_nofault p _ _ _ _ _ Ef). reflexivity.
Qed.

Definition fnet_ok (posts : list post) (st : fnet) : Prop :=
  net_ok posts (f_net st) /\ Forall (fwd_ok posts) (f_lost st).

Lemma run_f_ok F sides posts fuel sched st : fnet_ok posts st -> fnet_ok posts (run_f F sides fuel sched st).
Proof.
  rewrite run_f_iter. apply (iter_inv _ (fnet_ok posts)). intros k x x' [Hx Hl] E.
  apply step_f_moves in E as (p & ok & lost & Hh & Hperm & Hlost).
  assert (Hin : forall q, In q ok \/ In q lost -> In q (children sides p))
    by (intros q Hq; apply (Permutation_in q Hperm), in_or_app; exact Hq).
  destruct (hop_ok sides posts _ p ok _ Hx Hh (fun q Hq => Hin q (or_introl Hq))) as [Hx' Hp].
  split; [exact Hx'|]. rewrite Hlost. apply Forall_app. split; [exact Hl|].
  apply Forall_forall. intros q Hq. exact (pub_ok_children sides posts p q Hp (Hin q (or_intror Hq))).
Qed.

Lemma network_f_lost_ok F n posts sched : Forall (fwd_ok posts) (f_lost (network_f F n posts sched)).
Proof.
  apply (run_f_ok F (sides_of n) posts). repeat split; simpl; try constructor.
  apply posts_from_ok. intros j x Hj. exact Hj.
Qed.

Lemma wkey_eqb_refl k : wkey_eqb k k = true.
Proof. destruct k as [[s f] c]. simpl. rewrite Nat.eqb_refl, chan_eqb_refl. destruct f; reflexivity. Qed.

Lemma failed_at_in (lost : list pub) q k i :
  In q lost -> lost_failure tt q = (k, i) -> failed_at (map (lost_failure tt) lost) k i = true.
Proof.
  intros Hin Hq. unfold failed_at. apply existsb_exists. exists (k, i). split.
  - rewrite <- Hq. apply in_map. exact Hin.
  - simpl. rewrite wkey_eqb_refl, Nat.eqb_refl. reflexivity.
Qed.

(* a flagged message is received exactly once by every other side for which the
   hand-over out of the publishing side and the hand-over into that side succeeded *)
Lemma fault_exact_receiver F n posts sched i s0 c0 src s :
  nth_error posts i = Some (s0, c0, src) -> s0 <= n -> s <= n -> s <> s0 ->
  post_crosses i (s0, c0, src) = true ->
  let fl := map (lost_failure tt) (f_lost (network_f F n posts sched)) in
  failed_at fl (s0, false, c0) i = false -> failed_at fl (s, true, c0) i = false ->
  count_at s c0 i (log (f_net (network_f F n posts sched))) = 1.
Proof.
  intros Hn Hs0 Hs Hne Hc fl F1 F2. subst fl.
  pose proof (fault_conservation F n posts sched i s0 c0 src s c0 Hn Hs0 Hs) as H.
  rewrite (expected_other _ _ _ _ _ Hne), Hc in H.
  rewrite sum_map_zero in H; [lia|]. intros q Hq.
  pose proof (network_f_lost_ok F n posts sched) as Hok. rewrite Forall_forall in Hok.
  destruct (Hok q Hq) as (i' & s0' & c0' & src' & Hn' & Hcase).
  destruct (Nat.eq_dec i' i) as [->|Hi].
  - pose proof (eq_trans (eq_sym Hn') Hn) as Heq. injection Heq as -> -> ->.
    destruct Hcase as [-> | (s' & Hs' & ->)].
    + (* lost on the way to the proxy *)
      exfalso. pose proof (failed_at_in _ _ (s0, false, c0) i Hq eq_refl) as Hf. congruence.
    + destruct (Nat.eq_dec s' s) as [->|Hss].
      * exfalso. pose proof (failed_at_in _ _ (s, true, c0) i Hq eq_refl) as Hf. congruence.
      * (* lost on the way into ANOTHER side: irrelevant for s *)
        unfold tot2.
        rewrite (foreign_local_childless (sides_of n) s' c0 (Lcl c0) (mkmsg i (Some s0) (Some false)) s0 eq_refl)
          by (intros E; apply Hs'; symmetry; exact E).
        rewrite (cnt_other_side _ s c0 i s' c0 _ _ Hss). reflexivity.
  - apply tot2_other_id. destruct Hcase as [-> | (s' & _ & ->)]; simpl; exact Hi.
Qed.

Lemma model_at_most F n posts sched : ok_at_most n posts (log (f_net (network_f F n posts sched))) = true.
Proof.
  unfold ok_at_most. apply all_posts_spec. intros j [[s0 c0] src] Hn. cbn [Nat.add].
  rewrite orb_imp, negb_false_iff, forallb_sides, Nat.leb_le. intros Hs0 s Hs.
  rewrite andb_true_iff, Nat.leb_le, Nat.eqb_eq. split.
  - exact (fault_at_most F n posts sched j s0 c0 src s c0 Hn Hs0 Hs).
  - pose proof (fault_at_most F n posts sched j s0 c0 src s (other_chan c0) Hn Hs0 Hs) as H.
    rewrite expected_stray in H. lia.
Qed.

Lemma model_exactly_once_f F n posts sched :
  let st := network_f F n posts sched in
  ok_exactly_once_f n posts (map (lost_failure tt) (f_lost st)) (log (f_net st)) = true.
Proof.
  cbv zeta. unfold ok_exactly_once_f. apply all_posts_spec. intros j [[s0 c0] src] Hn. cbn [Nat.add].
  rewrite <- orb_assoc, !orb_imp, !negb_false_iff, forallb_others, Nat.leb_le. intros Hs0 Hc s Hs Hne.
  rewrite <- orb_assoc, !orb_imp, Nat.eqb_eq.
  exact (fault_exact_receiver F n posts sched j s0 c0 src s Hn Hs0 Hs Hne Hc).
Qed.
