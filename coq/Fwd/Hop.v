(* How the forwarding network moves (C16), before anything is counted: what
   the forwarder of a side lets through, which publications a publication
   causes (at most two generations), where it is delivered, the transport
   step and the run over a schedule in a form (`hop`, `iter`) that the
   networks of Fwd.Model, Fwd.Life and Fwd.Fault share, and the ids of a batch
   of posts. *)
From Coq Require Import List Bool PeanoNat Lia.
From RP Require Import Fwd.Model Fwd.Oracle.
Import ListNotations.

Local Arguments pubsub_fwd : simpl never.

Definition side_children (s : nat) (p : pub) : list pub :=
  flat_map (fun w => wire_fire w p) (crosswire_proxy s).

Definition side_deliv (s : nat) (p : pub) : list event :=
  listen s Control p ++ listen s State p.

Lemma children_sides sides p : children sides p = flat_map (fun s => side_children s p) sides.
Proof. reflexivity. Qed.

Lemma deliveries_sides sides p : deliveries sides p = flat_map (fun s => side_deliv s p) sides.
Proof. reflexivity. Qed.

(* The two forwarders of a side in closed form.  Towards the proxy: the copy
   stamped with the side's name, flag cleared, iff the message crosses.  From
   the proxy: the message as it is, iff it carries another side's name. *)
Lemma fwd_out_eq me m :
  pubsub_fwd me false m = if crosses me m then Some (mkmsg (m_id m) (Some me) (Some false)) else None.
Proof.
  unfold pubsub_fwd, crosses, origin_is. destruct m as [i [o|] f]; simpl.
  - destruct (truthy f); simpl; [|reflexivity]. destruct (Nat.eqb_spec o me) as [->|_]; reflexivity.
  - destruct (truthy f); simpl; [|reflexivity]. rewrite Nat.eqb_refl. reflexivity.
Qed.

Lemma fwd_in_eq me m :
  pubsub_fwd me true m
  = match m_origin m with Some o => if Nat.eqb o me then None else Some m | None => None end.
Proof.
  unfold pubsub_fwd, origin_is. destruct m as [i [o|] f]; simpl.
  - destruct (Nat.eqb o me); reflexivity.
  - rewrite Nat.eqb_refl. reflexivity.
Qed.

Lemma fwd_out_spec me m m' :
  pubsub_fwd me false m = Some m' ->
  m_origin m' = Some me /\ m_fwd m' = Some false /\ m_id m' = m_id m /\ crosses me m = true.
Proof.
  rewrite fwd_out_eq. destruct (crosses me m); [|discriminate]. intros H; injection H as <-. auto.
Qed.

Lemma fwd_in_spec me m m' :
  pubsub_fwd me true m = Some m' ->
  exists o, m_origin m = Some o /\ o <> me /\ m' = m.
Proof.
  rewrite fwd_in_eq. destruct (m_origin m) as [o|]; [|discriminate].
  destruct (Nat.eqb_spec o me) as [|Hne]; [discriminate|]. intros H; injection H as <-. exists o. auto.
Qed.

Lemma side_children_local s' s c t m :
  side_children s' (mkpub (Local s c) t m) =
  if Nat.eqb s s' && cname_eqb t (Lcl c) && crosses s' m
  then [mkpub (Proxy c) (Prx c) (mkmsg (m_id m) (Some s') (Some false))] else [].
Proof.
  unfold side_children, crosswire_proxy, wire_fire, hears; simpl. rewrite fwd_out_eq.
  destruct (Nat.eqb s s'); destruct c; destruct t as [[]|[]]; simpl; destruct (crosses s' m); reflexivity.
Qed.

Lemma side_children_proxy s' c t m :
  side_children s' (mkpub (Proxy c) t m) =
  if cname_eqb t (Prx c)
  then match m_origin m with
       | Some o => if Nat.eqb o s' then [] else [mkpub (Local s' c) (Lcl c) m]
       | None => []
       end
  else [].
Proof.
  unfold side_children, crosswire_proxy, wire_fire, hears; simpl. rewrite fwd_in_eq.
  destruct c; destruct t as [[]|[]]; simpl; destruct (m_origin m) as [o|]; try reflexivity;
    destruct (Nat.eqb o s'); reflexivity.
Qed.

Lemma side_deliv_local s' s c t m :
  side_deliv s' (mkpub (Local s c) t m) =
  if Nat.eqb s s' && cname_eqb t (Lcl c)
  then [mkev s' c (m_id m) (m_origin m) (m_fwd m)] else [].
Proof.
  unfold side_deliv, listen, hears; simpl.
  destruct (Nat.eqb s s'); destruct c; destruct t as [[]|[]]; reflexivity.
Qed.

Lemma side_deliv_proxy s' c t m : side_deliv s' (mkpub (Proxy c) t m) = [].
Proof. unfold side_deliv, listen, hears; simpl. reflexivity. Qed.

Lemma in_children sides p q :
  In q (children sides p) -> exists s, In s sides /\ In q (side_children s p).
Proof. rewrite children_sides. intros H. apply in_flat_map in H. exact H. Qed.

Lemma child_of_local sides s c t m q :
  In q (children sides (mkpub (Local s c) t m)) ->
  q = mkpub (Proxy c) (Prx c) (mkmsg (m_id m) (Some s) (Some false)) /\ crosses s m = true /\ In s sides.
Proof.
  intros H. apply in_children in H as (s' & Hs' & H). rewrite side_children_local in H.
  destruct (Nat.eqb_spec s s') as [<-|_]; simpl in H; [|contradiction].
  destruct (cname_eqb t (Lcl c)); simpl in H; [|contradiction].
  destruct (crosses s m); [|contradiction]. destruct H as [<-|[]]. auto.
Qed.

(* what a side takes from the proxy carries a foreign name: it is childless (next lemma) *)
Lemma child_of_proxy sides c t m q :
  In q (children sides (mkpub (Proxy c) t m)) ->
  exists s o, q = mkpub (Local s c) (Lcl c) m /\ In s sides /\ m_origin m = Some o /\ o <> s.
Proof.
  intros H. apply in_children in H as (s' & Hs' & H). rewrite side_children_proxy in H.
  destruct (cname_eqb t (Prx c)); [|contradiction]. destruct (m_origin m) as [o|]; [|contradiction].
  destruct (Nat.eqb_spec o s') as [|Hne]; [contradiction|]. destruct H as [<-|[]]. exists s', o. auto.
Qed.

Lemma foreign_local_childless sides s c t m o :
  m_origin m = Some o -> o <> s -> children sides (mkpub (Local s c) t m) = [].
Proof.
  intros Ho Hne. destruct (children sides (mkpub (Local s c) t m)) as [|q l] eqn:E; [reflexivity|].
  destruct (child_of_local sides s c t m q) as (_ & Hc & _); [rewrite E; left; reflexivity|].
  unfold crosses in Hc. apply Nat.eqb_neq in Hne. rewrite Ho, Hne, andb_false_r in Hc. discriminate.
Qed.

Lemma grandchildren_childless sides p q r :
  In q (children sides p) -> In r (children sides q) -> children sides r = [].
Proof.
  intros Hq Hr. destruct p as [[s c|c] t m].
  - apply child_of_local in Hq as (-> & _). apply child_of_proxy in Hr as (s' & o & -> & _ & Ho & Hne).
    exact (foreign_local_childless sides s' c (Lcl c) _ o Ho Hne).
  - apply child_of_proxy in Hq as (s' & o & -> & _ & Ho & Hne).
    rewrite (foreign_local_childless sides s' c (Lcl c) m o Ho Hne) in Hr. contradiction.
Qed.

Lemma children_id sides p q : In q (children sides p) -> m_id (p_msg q) = m_id (p_msg p).
Proof.
  destruct p as [[s c|c] t m]; intros H.
  - apply child_of_local in H as (-> & _). reflexivity.
  - apply child_of_proxy in H as (s' & o & -> & _). reflexivity.
Qed.

Lemma deliveries_where sides p e :
  In e (deliveries sides p) ->
  exists s c, p_bus p = Local s c /\ e = mkev s c (m_id (p_msg p)) (m_origin (p_msg p)) (m_fwd (p_msg p)).
Proof.
  rewrite deliveries_sides. intros H. apply in_flat_map in H as (s & _ & H). destruct p as [[s' c|c] t m].
  - rewrite side_deliv_local in H. destruct (Nat.eqb s' s) eqn:E; simpl in H; [|contradiction].
    apply Nat.eqb_eq in E. subst s'. destruct (cname_eqb t (Lcl c)); [|contradiction].
    destruct H as [<-|[]]. exists s, c. auto.
  - rewrite side_deliv_proxy in H. contradiction.
Qed.

Lemma pick_split k l p rest :
  pick k l = Some (p, rest) -> exists a b, l = a ++ p :: b /\ rest = a ++ b.
Proof.
  unfold pick. destruct l as [|x l']; [discriminate|].
  remember (x :: l') as l eqn:El. clear El x l'.
  set (i := Nat.modulo k (length l)). clearbody i.
  destruct (nth_error l i) as [p0|] eqn:E; [|discriminate].
  intros H. injection H as <- <-.
  apply nth_error_split in E as (a & b & -> & <-). exists a, b. split; [reflexivity|]. f_equal.
  - rewrite firstn_app, firstn_all, Nat.sub_diag, firstn_O, app_nil_r. reflexivity.
  - change (skipn (S (length a)) (a ++ p0 :: b) = b). rewrite skipn_app, skipn_all2 by lia.
    replace (S (length a) - length a) with 1 by lia. reflexivity.
Qed.

Lemma pick_none k l : pick k l = None -> l = [].
Proof.
  destruct l as [|x l']; [reflexivity|]. unfold pick.
  destruct (nth_error (x :: l') (Nat.modulo k (length (x :: l')))) eqn:E; [discriminate|].
  apply nth_error_None in E.
  pose proof (Nat.mod_upper_bound k (length (x :: l'))) as Hm. simpl in *. lia.
Qed.

(* One publication p leaves the pending ones and is transported; `kept` takes
   its place.  The networks of Fwd.Model, Fwd.Life and Fwd.Fault all move in
   such hops and differ in which of p's children are kept: all of them, those
   whose bridge exists, those whose hand-over did not fail. *)
Definition hop (sides : list nat) (st : net) (p : pub) (kept : list pub) (st' : net) : Prop :=
  exists a b, pending st = a ++ p :: b /\
    st' = mknet ((a ++ b) ++ kept) (log st ++ deliveries sides p) (S (npub st)).

Lemma pick_hop sides k st p rest kept :
  pick k (pending st) = Some (p, rest) ->
  hop sides st p kept (mknet (rest ++ kept) (log st ++ deliveries sides p) (S (npub st))).
Proof. intros E. apply pick_split in E as (a & b & Hab & ->). exists a, b. auto. Qed.

Lemma step_hop sides k st st' :
  step sides k st = Some st' -> exists p, hop sides st p (children sides p) st'.
Proof.
  unfold step. destruct (pick k (pending st)) as [[p rest]|] eqn:E; [|discriminate].
  intros H. injection H as <-. exists p. exact (pick_hop sides k st p rest _ E).
Qed.

Lemma step_none sides k st : step sides k st = None -> pending st = [].
Proof.
  unfold step. destruct (pick k (pending st)) as [[p rest]|] eqn:E; [discriminate|].
  intros _. exact (pick_none _ _ E).
Qed.

Lemma hop_pending sides st p kept st' :
  hop sides st p kept st' ->
  In p (pending st) /\
  forall q, In q (pending st') -> In q (pending st) \/ In q kept.
Proof.
  intros (a & b & Hab & ->). rewrite Hab. split; [apply in_elt|]. simpl. intros q Hq.
  apply in_app_or in Hq as [Hq|Hq]; [left | right; exact Hq].
  apply in_app_or in Hq as [Hq|Hq]; apply in_or_app; [left | right; right]; exact Hq.
Qed.

Section Iter.
  Context {X : Type} (stp : nat -> X -> option X).

  Fixpoint iter (fuel : nat) (sched : list nat) (x : X) : X :=
    match fuel with
    | 0 => x
    | S f => match stp (hd 0 sched) x with None => x | Some x' => iter f (tl sched) x' end
    end.

  Lemma iter_inv (P : X -> Prop) :
    (forall k x x', P x -> stp k x = Some x' -> P x') ->
    forall fuel sched x, P x -> P (iter fuel sched x).
  Proof.
    intros Hs. induction fuel as [|f IH]; intros sched x Hx; simpl; [exact Hx|].
    destruct (stp (hd 0 sched) x) as [x'|] eqn:E; [|exact Hx]. exact (IH _ _ (Hs _ _ _ Hx E)).
  Qed.

  (* a measure that every step lowers bounds the number of steps: with that
     much fuel the run ends where no step is possible or the measure is 0 *)
  Lemma iter_halts (mu : X -> nat) (Q : X -> Prop) :
    (forall k x x', stp k x = Some x' -> mu x' < mu x) ->
    (forall k x, stp k x = None -> Q x) -> (forall x, mu x = 0 -> Q x) ->
    forall fuel sched x, mu x <= fuel -> Q (iter fuel sched x).
  Proof.
    intros Hdec Hnone H0. induction fuel as [|f IH]; intros sched x Hf; simpl.
    - apply H0. lia.
    - destruct (stp (hd 0 sched) x) as [x'|] eqn:E; [|exact (Hnone _ _ E)].
      apply IH. specialize (Hdec _ _ _ E). lia.
  Qed.
End Iter.

Lemma run_iter sides fuel : forall sched st, run sides fuel sched st = iter (step sides) fuel sched st.
Proof.
  induction fuel as [|f IH]; intros sched st; simpl; [reflexivity|].
  destruct (step sides (hd 0 sched) st); [apply IH | reflexivity].
Qed.

Lemma source_msg_id s i src : m_id (source_msg s i src) = i.
Proof. destruct src; reflexivity. Qed.

Lemma post_pub_id i x : m_id (p_msg (post_pub i x)) = i.
Proof. destruct x as [[s c] src]. simpl. apply source_msg_id. Qed.

Lemma posts_from_ids posts : forall k p, In p (posts_from k posts) -> k <= m_id (p_msg p) < k + length posts.
Proof.
  induction posts as [|x l IH]; intros k p H; simpl in H; [contradiction|].
  destruct H as [<-|H]; [rewrite post_pub_id; simpl; lia|]. apply IH in H. simpl. lia.
Qed.

Lemma posts_from_length posts : forall k, length (posts_from k posts) = length posts.
Proof. induction posts as [|x l IH]; intros k; simpl; [reflexivity | rewrite IH; reflexivity]. Qed.
