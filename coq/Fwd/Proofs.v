(* Proofs about the forwarding network (C16): a potential argument that is
   independent of the transport schedule.  Every publication p stands for a
   potential `pot ch d p` = what p and its (at most two generations of)
   descendants contribute, ch p being what p causes in the network at hand;
   transporting p turns its potential into its own contribution `d p` plus
   the potential of what it causes.  With d = "deliveries of message i at
   side s" this gives the exact delivery counts, with d = 1 the number of
   publications (no circulation).  The argument is made once, in Section
   Network, for Fwd.Model, Fwd.Fault and Fwd.Life.

   Nothing depends on the sides being numbered 0..n: the counting lemmas hold
   over any duplicate-free list of side ids, and `sides_of n` enters only in
   the statements about `network`. *)
From Coq Require Import List Bool PeanoNat Lia Permutation.
From RP Require Import Fwd.Model Fwd.Oracle.
From RP Require Export Fwd.Hop.
Import ListNotations.

Fixpoint sum_map {A} (f : A -> nat) (l : list A) : nat :=
  match l with [] => 0 | x :: l' => f x + sum_map f l' end.

Lemma sum_map_app {A} (f : A -> nat) (a b : list A) :
  sum_map f (a ++ b) = sum_map f a + sum_map f b.
Proof. induction a as [|x a IH]; simpl; [reflexivity | rewrite IH; lia]. Qed.

Lemma sum_map_flat_map {A B} (f : B -> nat) (g : A -> list B) (l : list A) :
  sum_map f (flat_map g l) = sum_map (fun x => sum_map f (g x)) l.
Proof. induction l as [|x l IH]; simpl; [reflexivity | rewrite sum_map_app, IH; reflexivity]. Qed.

Lemma sum_map_mono {A} (f g : A -> nat) (l : list A) :
  (forall x, In x l -> f x <= g x) -> sum_map f l <= sum_map g l.
Proof.
  induction l as [|x l IH]; simpl; intros H; [lia|].
  pose proof (H x (or_introl eq_refl)). pose proof (IH (fun y Hy => H y (or_intror Hy))). lia.
Qed.

Lemma sum_map_ext {A} (f g : A -> nat) (l : list A) :
  (forall x, In x l -> f x = g x) -> sum_map f l = sum_map g l.
Proof. intros H. apply Nat.le_antisymm; apply sum_map_mono; intros x Hx; rewrite (H x Hx); apply Nat.le_refl. Qed.

Lemma sum_map_const {A} (b : nat) (l : list A) : sum_map (fun _ => b) l = length l * b.
Proof. induction l as [|x l IH]; simpl; [reflexivity | rewrite IH; reflexivity]. Qed.

Lemma sum_map_const1 {A} (l : list A) : sum_map (fun _ => 1) l = length l.
Proof. rewrite sum_map_const. apply Nat.mul_1_r. Qed.

Lemma sum_map_zero {A} (f : A -> nat) (l : list A) :
  (forall x, In x l -> f x = 0) -> sum_map f l = 0.
Proof. intros H. rewrite (sum_map_ext f (fun _ => 0) l H), sum_map_const. apply Nat.mul_0_r. Qed.

Lemma sum_map_le {A} (f : A -> nat) (b : nat) (l : list A) :
  (forall x, In x l -> f x <= b) -> sum_map f l <= length l * b.
Proof. intros H. rewrite <- sum_map_const. apply sum_map_mono. exact H. Qed.

Lemma sum_map_filter {A} (F : A -> nat) (f : A -> bool) (l : list A) :
  sum_map F (filter f l) = sum_map (fun x => if f x then F x else 0) l.
Proof. induction l as [|x l IH]; simpl; [reflexivity|]. destruct (f x); simpl; rewrite IH; reflexivity. Qed.

Lemma sum_map_perm {A} (f : A -> nat) (a b : list A) : Permutation a b -> sum_map f a = sum_map f b.
Proof. induction 1; simpl; lia. Qed.

Lemma sum_point {A} (F : A -> nat) (a : A) (l : list A) :
  NoDup l -> In a l -> (forall x, In x l -> x <> a -> F x = 0) -> sum_map F l = F a.
Proof.
  induction 1 as [|x l Hx _ IH]; simpl; [intros []|]. intros [->|Ha] H0.
  - rewrite sum_map_zero; [lia|]. intros y Hy. apply H0; [right; exact Hy | intros ->; contradiction].
  - rewrite (H0 x (or_introl eq_refl)) by (intros ->; contradiction).
    apply IH; [exact Ha | intros y Hy; apply H0; right; exact Hy].
Qed.

Lemma sum_others (a : nat) (l : list nat) : NoDup l -> In a l ->
  S (sum_map (fun x => if Nat.eqb x a then 0 else 1) l) = length l.
Proof.
  intros Hnd Hin.
  assert (H : sum_map (fun x => if Nat.eqb x a then 0 else 1) l
              + sum_map (fun x => if Nat.eqb x a then 1 else 0) l = length l).
  { clear. induction l as [|x l IH]; simpl; [reflexivity|]. destruct (Nat.eqb x a); lia. }
  rewrite (sum_point (fun x => if Nat.eqb x a then 1 else 0) a l Hnd Hin) in H.
  - rewrite Nat.eqb_refl in H. lia.
  - intros x _ Hne. apply Nat.eqb_neq in Hne. rewrite Hne. reflexivity.
Qed.

Lemma count_ev_app (f : event -> bool) (a b : list event) :
  count_ev f (a ++ b) = count_ev f a + count_ev f b.
Proof. induction a as [|x a IH]; simpl; [reflexivity | rewrite IH; lia]. Qed.

Lemma count_ev_flat_map {A} (f : event -> bool) (g : A -> list event) (l : list A) :
  count_ev f (flat_map g l) = sum_map (fun x => count_ev f (g x)) l.
Proof. induction l as [|x l IH]; simpl; [reflexivity | rewrite count_ev_app, IH; reflexivity]. Qed.

Lemma count_ev_none (f : event -> bool) (l : list event) :
  (forall e, In e l -> f e = false) -> count_ev f l = 0.
Proof.
  induction l as [|e l IH]; simpl; intros H; [reflexivity|].
  rewrite (H e (or_introl eq_refl)). exact (IH (fun e' He' => H e' (or_intror He'))).
Qed.

Lemma in_sides n s : In s (sides_of n) <-> s <= n.
Proof. unfold sides_of. rewrite in_seq. lia. Qed.

Lemma sides_nodup n : NoDup (sides_of n).
Proof. apply seq_NoDup. Qed.

Lemma sides_length n : length (sides_of n) = S n.
Proof. apply seq_length. Qed.

Lemma chan_eqb_refl c : chan_eqb c c = true.
Proof. destruct c; reflexivity. Qed.

Lemma chan_eqb_sym a b : chan_eqb a b = chan_eqb b a.
Proof. destruct a, b; reflexivity. Qed.

Lemma chan_eqb_eq a b : chan_eqb a b = true <-> a = b.
Proof. destruct a, b; simpl; split; intro H; try reflexivity; try discriminate. Qed.

Section Potential.
  Variable sides : list nat.
  Variable d : pub -> nat.                 (* own contribution of a publication *)

  Definition tot0 (p : pub) : nat := d p.
  Definition tot1 (p : pub) : nat := d p + sum_map tot0 (children sides p).
  Definition tot2 (p : pub) : nat := d p + sum_map tot1 (children sides p).
End Potential.

Section Pot.
  Variable ch : pub -> list pub.
  Variable d : pub -> nat.

  Definition pot (p : pub) : nat := d p + sum_map (fun q => d q + sum_map d (ch q)) (ch p).

  Hypothesis ch_depth : forall p q r, In q (ch p) -> In r (ch q) -> ch r = [].

  Lemma pot_dec p : pot p = d p + sum_map pot (ch p).
  Proof.
    unfold pot at 1. f_equal. apply sum_map_ext. intros q Hq.
    unfold pot. f_equal. apply sum_map_ext. intros r Hr.
    rewrite (ch_depth p q r Hq Hr). simpl. lia.
  Qed.
End Pot.

(* The two convert: run_settled and FaultProofs.network_f_settled are stated
   with tot2 and proved by what Section Network says of pot. *)
Lemma tot2_pot sides d : tot2 sides d = pot (children sides) d.
Proof. reflexivity. Qed.

Lemma tot2_dec sides d p : tot2 sides d p = d p + sum_map (tot2 sides d) (children sides p).
Proof. exact (pot_dec (children sides) d (grandchildren_childless sides) p). Qed.

(* acc: what was accumulated so far, read off the log and the counter *)
Definition potential (acc : list event -> nat -> nat) (T : pub -> nat) (st : net) : nat :=
  acc (log st) (npub st) + sum_map T (pending st).

Lemma hop_potential sides d acc (acc_step : forall l n p, acc (l ++ deliveries sides p) (S n) = acc l n + d p)
    T st p kept st' :
  hop sides st p kept st' -> potential acc T st' + T p = potential acc T st + d p + sum_map T kept.
Proof.
  intros (a & b & Hab & ->). unfold potential; simpl.
  rewrite acc_step, Hab, !sum_map_app. simpl. lia.
Qed.

(* the publications p stands for, itself and all it causes: pot (children sides) at d = 1 *)
Definition weight (sides : list nat) : pub -> nat := tot2 sides (fun _ => 1).

(* how many sides take a proxy publication: all, or all but the one named in it *)
Lemma proxy_children_length sides c t m :
  length (children sides (mkpub (Proxy c) t m)) <= length sides.
Proof.
  rewrite children_sides, <- sum_map_const1, sum_map_flat_map, <- (Nat.mul_1_r (length sides)).
  apply sum_map_le. intros s _. rewrite side_children_proxy, sum_map_const1.
  destruct (cname_eqb t (Prx c)); [|simpl; lia]. destruct (m_origin m) as [o|]; [|simpl; lia].
  destruct (Nat.eqb o s); simpl; lia.
Qed.

Lemma proxy_children_length_own sides c t m s :
  NoDup sides -> m_origin m = Some s -> In s sides ->
  S (length (children sides (mkpub (Proxy c) t m))) <= length sides.
Proof.
  intros Hnd Ho Hs. rewrite children_sides, <- sum_map_const1, sum_map_flat_map.
  rewrite <- (sum_others s sides Hnd Hs). apply le_n_S.
  apply sum_map_mono. intros x _.
  rewrite side_children_proxy, sum_map_const1, Ho, (Nat.eqb_sym s x).
  destruct (cname_eqb t (Prx c)); destruct (Nat.eqb x s); simpl; lia.
Qed.

(* only side s0 hears a publication on its local bridge *)
Lemma sum_children_local (F : pub -> nat) sides s0 c0 t m : NoDup sides -> In s0 sides ->
  sum_map F (children sides (mkpub (Local s0 c0) t m))
  = if cname_eqb t (Lcl c0) && crosses s0 m
    then F (mkpub (Proxy c0) (Prx c0) (mkmsg (m_id m) (Some s0) (Some false))) else 0.
Proof.
  intros Hnd Hs. rewrite children_sides, sum_map_flat_map, (sum_point _ s0 sides Hnd Hs).
  - rewrite side_children_local, Nat.eqb_refl. simpl.
    destruct (cname_eqb t (Lcl c0) && crosses s0 m); simpl; lia.
  - intros x _ Hne. rewrite side_children_local. apply Nat.eqb_neq in Hne.
    rewrite (Nat.eqb_sym s0 x), Hne. reflexivity.
Qed.

(* a publication and all it causes: the local one, one on the proxy, and one
   on every other side *)
Lemma weight_le sides p : NoDup sides -> weight sides p <= length sides + 1.
Proof.
  intros Hnd. unfold weight, tot2. destruct p as [[s c|c] t m].
  - destruct (in_dec Nat.eq_dec s sides) as [Hs|Hs].
    + (* what s sends to the proxy carries s's name *)
      rewrite (sum_children_local _ sides s c t m Hnd Hs).
      destruct (cname_eqb t (Lcl c) && crosses s m); [|lia]. unfold tot1, tot0. rewrite sum_map_const1.
      pose proof (proxy_children_length_own sides c (Prx c) (mkmsg (m_id m) (Some s) (Some false)) s Hnd eq_refl Hs). lia.
    + rewrite children_sides, sum_map_flat_map, sum_map_zero; [lia|]. intros x Hx.
      rewrite side_children_local. destruct (Nat.eqb_spec s x) as [->|_]; [contradiction | reflexivity].
  - rewrite (sum_map_ext _ (fun _ => 1)).
    + rewrite sum_map_const1. pose proof (proxy_children_length sides c t m). lia.
    + intros q Hq. apply child_of_proxy in Hq as (s' & o & -> & _ & Ho & Hne). unfold tot1, tot0.
      rewrite (foreign_local_childless sides s' c (Lcl c) m o Ho Hne). reflexivity.
Qed.

Lemma pending_weight_le sides (l : list pub) :
  NoDup sides -> sum_map (weight sides) l <= length l * (length sides + 1).
Proof. intros Hnd. apply sum_map_le. intros p _. apply weight_le. exact Hnd. Qed.

Definition cnt (sides : list nat) (s : nat) (c : chan) (i : nat) (p : pub) : nat :=
  count_at s c i (deliveries sides p).

Lemma cnt_proxy sides s c i c0 t m : cnt sides s c i (mkpub (Proxy c0) t m) = 0.
Proof. apply count_ev_none. intros e He. apply deliveries_where in He as (s' & c' & He & _). discriminate. Qed.

Lemma cnt_other_id sides s c i p : m_id (p_msg p) <> i -> cnt sides s c i p = 0.
Proof.
  intros Hne. apply count_ev_none. intros e He. apply deliveries_where in He as (s' & c' & _ & ->).
  unfold ev_is. simpl. apply Nat.eqb_neq in Hne. rewrite Hne. apply andb_false_r.
Qed.

Lemma cnt_other_side sides s c i s' c0 t m : s' <> s -> cnt sides s c i (mkpub (Local s' c0) t m) = 0.
Proof.
  intros Hne. apply count_ev_none. intros e He. apply deliveries_where in He as (s1 & c1 & He & ->).
  injection He as <- _. unfold ev_is. simpl. apply Nat.eqb_neq in Hne. rewrite Hne. reflexivity.
Qed.

Lemma cnt_local sides s c i s' c0 m : NoDup sides -> In s' sides ->
  cnt sides s c i (mkpub (Local s' c0) (Lcl c0) m)
  = if Nat.eqb s' s && chan_eqb c0 c && Nat.eqb (m_id m) i then 1 else 0.
Proof.
  intros Hnd Hs. unfold cnt, count_at. rewrite deliveries_sides, count_ev_flat_map.
  rewrite (sum_point _ s' sides Hnd Hs).
  - rewrite side_deliv_local, Nat.eqb_refl. simpl. rewrite chan_eqb_refl. unfold ev_is; simpl.
    destruct (Nat.eqb s' s && chan_eqb c0 c && Nat.eqb (m_id m) i); reflexivity.
  - intros x _ Hne. rewrite side_deliv_local. apply Nat.eqb_neq in Hne.
    rewrite (Nat.eqb_sym s' x), Hne. reflexivity.
Qed.

(* A network in transport: every step is a hop that keeps or drops each
   publication caused.  Two independent generalities, and no instance needs
   both:
     Fwd.Model  ch = children sides,  nothing dropped   (run_settled)
     Fwd.Life   ch = kids up sides,   nothing dropped   (LifeProofs.run_up_settled)
     Fwd.Fault  ch = children sides,  lostof = f_lost   (FaultProofs.network_f_settled)
   The first two go through lossless_settled. *)
Section Network.
  Variable sides : list nat.
  Variable ch : pub -> list pub.
  Hypothesis ch_in : forall p q, In q (ch p) -> In q (children sides p).

  Lemma ch_depth p q r : In q (ch p) -> In r (ch q) -> ch r = [].
  Proof.
    intros Hq Hr. pose proof (grandchildren_childless sides p q r (ch_in p q Hq) (ch_in q r Hr)) as H.
    destruct (ch r) as [|x l] eqn:E; [reflexivity|]. pose proof (ch_in r x) as Hx. rewrite E, H in Hx.
    destruct (Hx (or_introl eq_refl)).
  Qed.

  Lemma pot_other_id s c i p : m_id (p_msg p) <> i -> pot ch (cnt sides s c i) p = 0.
  Proof.
    intros Hne. unfold pot. rewrite (cnt_other_id sides s c i p Hne).
    rewrite sum_map_zero; [reflexivity|]. intros q Hq.
    assert (Hq' : m_id (p_msg q) <> i) by (rewrite (children_id sides p q (ch_in p q Hq)); exact Hne).
    rewrite (cnt_other_id sides s c i q Hq'). rewrite sum_map_zero; [reflexivity|]. intros r Hr.
    apply cnt_other_id. rewrite (children_id sides q r (ch_in q r Hr)). exact Hq'.
  Qed.

  Context {X : Type} (netof : X -> net) (lostof : X -> list pub) (stp : nat -> X -> option X).

  Hypothesis stp_moves : forall k x x', stp k x = Some x' ->
    exists p kept lost, hop sides (netof x) p kept (netof x') /\
      Permutation (kept ++ lost) (ch p) /\ lostof x' = lostof x ++ lost.
  Hypothesis stp_none : forall k x, stp k x = None -> pending (netof x) = [].

  (* the books: accumulated so far + in flight + dropped *)
  Definition books d (acc : list event -> nat -> nat) (x : X) : nat :=
    potential acc (pot ch d) (netof x) + sum_map (pot ch d) (lostof x).

  Lemma step_books d acc k x x' :
    (forall l n p, acc (l ++ deliveries sides p) (S n) = acc l n + d p) ->
    stp k x = Some x' -> books d acc x' = books d acc x.
  Proof.
    intros acc_step E. apply stp_moves in E as (p & kept & lost & Hh & Hperm & Hl).
    pose proof (hop_potential sides d acc acc_step (pot ch d) _ p kept _ Hh) as H.
    apply (sum_map_perm (pot ch d)) in Hperm. rewrite sum_map_app in Hperm.
    unfold books. rewrite Hl, sum_map_app. rewrite (pot_dec ch d ch_depth p) in H. lia.
  Qed.

  (* the publications still to come; the books at d = 1 say that every step lowers it *)
  Let mu (x : X) : nat := sum_map (pot ch (fun _ => 1)) (pending (netof x)).

  Lemma step_mu k x x' : stp k x = Some x' -> mu x' < mu x.
  Proof.
    intros E.
    pose proof (step_books (fun _ => 1) (fun _ n => n) k x x' (fun _ n _ => eq_sym (Nat.add_1_r n)) E) as H.
    apply stp_moves in E as (p & kept & lost & (a & b & _ & Hn) & _ & Hl).
    unfold books, potential in H. rewrite Hl, sum_map_app, Hn in H. unfold mu. rewrite Hn. simpl in *. lia.
  Qed.

  (* Every quantity that is added up along the log and the counter is conserved;
     the two that are used: publications (d = 1) and deliveries of i at (s, c). *)
  Theorem net_settled fuel sched x :
    mu x <= fuel ->
    let y := iter stp fuel sched x in
    pending (netof y) = [] /\
    npub (netof y) + sum_map (pot ch (fun _ => 1)) (lostof y)
    = npub (netof x) + mu x + sum_map (pot ch (fun _ => 1)) (lostof x) /\
    forall s c i,
      count_at s c i (log (netof y)) + sum_map (pot ch (cnt sides s c i)) (lostof y)
      = count_at s c i (log (netof x)) + sum_map (pot ch (cnt sides s c i)) (pending (netof x))
        + sum_map (pot ch (cnt sides s c i)) (lostof x).
  Proof.
    intros Hf y.
    assert (Hq : pending (netof y) = []).
    { apply (iter_halts stp mu (fun z => pending (netof z) = [])); [exact step_mu | exact stp_none | | exact Hf].
      unfold mu. intros z Hz. destruct (pending (netof z)) as [|p l]; [reflexivity|].
      simpl in Hz. unfold pot in Hz. lia. }
    assert (Hb : forall d acc, (forall l n p, acc (l ++ deliveries sides p) (S n) = acc l n + d p) ->
                 books d acc y = books d acc x).
    { intros d acc Ha. apply (iter_inv stp (fun z => books d acc z = books d acc x)); [|reflexivity].
      intros k z z' Hz E. rewrite <- Hz. exact (step_books d acc k z z' Ha E). }
    split; [exact Hq|]. unfold books, potential in Hb. rewrite Hq in Hb. split.
    - specialize (Hb (fun _ => 1) (fun _ n => n) (fun _ n _ => eq_sym (Nat.add_1_r n))). simpl in Hb. unfold mu. lia.
    - intros s c i. specialize (Hb (cnt sides s c i) (fun l _ => count_at s c i l)
                                  (fun l _ p => count_ev_app _ l (deliveries sides p))). simpl in Hb. lia.
  Qed.
End Network.

Lemma tot2_other_id sides s c i p :
  m_id (p_msg p) <> i -> tot2 sides (cnt sides s c i) p = 0.
Proof. exact (pot_other_id sides (children sides) (fun _ _ H => H) s c i p). Qed.

(* stp_moves at netof = identity, lostof = fun _ => []: the last conjunct
   reads "the empty list of what was dropped grows by lost" *)
Lemma lossless_moves sides ch (stp : nat -> net -> option net) :
  (forall k st st', stp k st = Some st' -> exists p, hop sides st p (ch p) st') ->
  forall k st st', stp k st = Some st' ->
  exists p kept lost, hop sides st p kept st' /\ Permutation (kept ++ lost) (ch p) /\ @nil pub = [] ++ lost.
Proof.
  intros stp_hop k st st' E. apply stp_hop in E as (p & Hh). exists p, (ch p), [].
  rewrite app_nil_r. auto.
Qed.

Lemma lossless_settled sides ch (stp : nat -> net -> option net) :
  (forall p q, In q (ch p) -> In q (children sides p)) ->
  (forall k st st', stp k st = Some st' -> exists p, hop sides st p (ch p) st') ->
  (forall k st, stp k st = None -> pending st = []) ->
  forall fuel sched st, sum_map (pot ch (fun _ => 1)) (pending st) <= fuel ->
  let y := iter stp fuel sched st in
  pending y = [] /\
  npub y = npub st + sum_map (pot ch (fun _ => 1)) (pending st) /\
  forall s c i, count_at s c i (log y)
                = count_at s c i (log st) + sum_map (pot ch (cnt sides s c i)) (pending st).
Proof.
  intros ch_in stp_hop stp_none fuel sched st Hf.
  destruct (net_settled sides ch ch_in (fun st => st) (fun _ => []) stp
              (lossless_moves sides ch stp stp_hop) stp_none fuel sched st Hf) as (Hq & Hn & Hc).
  split; [exact Hq|]. simpl in Hn. split; [lia|]. intros s c i. specialize (Hc s c i). simpl in Hc. lia.
Qed.

(* over iter: run_iter leads there *)
Lemma run_settled sides fuel sched st :
  sum_map (weight sides) (pending st) <= fuel ->
  let y := iter (step sides) fuel sched st in
  pending y = [] /\
  npub y = npub st + sum_map (weight sides) (pending st) /\
  forall s c i, count_at s c i (log y)
                = count_at s c i (log st) + sum_map (tot2 sides (cnt sides s c i)) (pending st).
Proof.
  exact (lossless_settled sides (children sides) (step sides) (fun _ _ H => H)
           (step_hop sides) (step_none sides) fuel sched st).
Qed.

Lemma sum_children_proxy (F : pub -> nat) sides c0 i o f :
  sum_map F (children sides (mkpub (Proxy c0) (Prx c0) (mkmsg i (Some o) f)))
  = sum_map (fun x => if Nat.eqb x o then 0
                      else F (mkpub (Local x c0) (Lcl c0) (mkmsg i (Some o) f))) sides.
Proof.
  rewrite children_sides, sum_map_flat_map. apply sum_map_ext. intros x _.
  rewrite side_children_proxy. simpl. rewrite chan_eqb_refl, (Nat.eqb_sym o x).
  destruct (Nat.eqb x o); simpl; lia.
Qed.

(* the potential of a posted message is exactly what the property prescribes *)
Lemma tot2_post sides s c i s0 c0 src :
  NoDup sides -> In s0 sides -> In s sides ->
  tot2 sides (cnt sides s c i) (post_pub i (s0, c0, src)) = expected i (s0, c0, src) s c.
Proof.
  intros Hnd Hs0 Hs. unfold post_pub, expected, post_crosses. set (m := source_msg s0 i src).
  assert (Hid : m_id m = i) by apply source_msg_id.
  unfold tot2. rewrite (cnt_local sides s c i s0 c0 m Hnd Hs0), Hid, Nat.eqb_refl, andb_true_r.
  rewrite (sum_children_local _ sides s0 c0 (Lcl c0) m Hnd Hs0), (Nat.eqb_sym s0 s), (chan_eqb_sym c c0).
  simpl. rewrite chan_eqb_refl.
  destruct (crosses s0 m).
  - rewrite Hid. unfold tot1, tot0. rewrite cnt_proxy, sum_children_proxy, Nat.add_0_l.
    (* of the copies the sides take from the proxy, only the one s takes counts *)
    rewrite (sum_point _ s sides Hnd Hs).
    + destruct (Nat.eqb s s0); [destruct (chan_eqb c0 c); reflexivity|].
      rewrite (cnt_local sides s c i s c0 _ Hnd Hs). simpl. rewrite !Nat.eqb_refl.
      destruct (chan_eqb c0 c); reflexivity.
    + intros x _ Hne. destruct (Nat.eqb x s0); [reflexivity|]. apply cnt_other_side. exact Hne.
  - destruct (Nat.eqb s s0); destruct (chan_eqb c0 c); reflexivity.
Qed.

Lemma sum_posts (F : pub -> nat) posts : forall k j x,
  nth_error posts j = Some x -> (forall p, m_id (p_msg p) <> k + j -> F p = 0) ->
  sum_map F (posts_from k posts) = F (post_pub (k + j) x).
Proof.
  induction posts as [|y l IH]; intros k [|j] x Hn HF; try discriminate; simpl in *.
  - injection Hn as ->. rewrite Nat.add_0_r in *. rewrite sum_map_zero; [lia|].
    intros p Hp. apply HF. apply posts_from_ids in Hp. lia.
  - rewrite (HF (post_pub k y)) by (rewrite post_pub_id; lia).
    rewrite <- Nat.add_succ_comm in *. exact (IH (S k) j x Hn HF).
Qed.

Lemma posted_potential sides s c k posts j s0 c0 src :
  NoDup sides -> nth_error posts j = Some (s0, c0, src) -> In s0 sides -> In s sides ->
  sum_map (tot2 sides (cnt sides s c (k + j))) (posts_from k posts) = expected (k + j) (s0, c0, src) s c.
Proof.
  intros Hnd Hn Hs0 Hs. rewrite (sum_posts _ posts k j _ Hn (tot2_other_id sides s c (k + j))).
  apply tot2_post; assumption.
Qed.

Lemma sides_weight_le n (l : list pub) : sum_map (weight (sides_of n)) l <= length l * (n + 2).
Proof.
  pose proof (pending_weight_le (sides_of n) l (sides_nodup n)) as H. rewrite sides_length in H. lia.
Qed.

Lemma network_fuel n posts :
  sum_map (weight (sides_of n)) (posts_from 0 posts) <= length posts * (n + 2) /\
  length posts * (n + 2) <= bound n (length posts).
Proof.
  pose proof (sides_weight_le n (posts_from 0 posts)) as H. rewrite posts_from_length in H.
  split; [exact H | apply Nat.mul_le_mono_l; lia].
Qed.

Lemma network_settled n posts sched :
  let y := network n posts sched in
  pending y = [] /\ npub y <= length posts * (n + 2) /\
  forall s c i, count_at s c i (log y)
                = sum_map (tot2 (sides_of n) (cnt (sides_of n) s c i)) (posts_from 0 posts).
Proof.
  destruct (network_fuel n posts) as [H1 H2]. unfold network. rewrite run_iter.
  destruct (run_settled (sides_of n) (bound n (length posts)) sched (mknet (posts_from 0 posts) [] 0))
    as (Hq & Hn & H); simpl in *; [lia|].
  split; [exact Hq|]. split; [lia | exact H].
Qed.

Lemma no_circulation n posts sched :
  pending (network n posts sched) = [] /\ npub (network n posts sched) <= length posts * (n + 2).
Proof. destruct (network_settled n posts sched) as (Hq & Hn & _). split; assumption. Qed.

Lemma network_counts n posts sched i s0 c0 src s c :
  nth_error posts i = Some (s0, c0, src) -> s0 <= n -> s <= n ->
  count_at s c i (log (network n posts sched)) = expected i (s0, c0, src) s c.
Proof.
  intros Hnth Hs0 Hs. rewrite (proj2 (proj2 (network_settled n posts sched))).
  apply (posted_potential (sides_of n) s c 0 posts i s0 c0 src (sides_nodup n) Hnth); apply in_sides; assumption.
Qed.

Lemma all_posts_spec (f : nat -> post -> bool) : forall l k,
  all_posts f k l = true <-> (forall j x, nth_error l j = Some x -> f (k + j) x = true).
Proof.
  induction l as [|y l IH]; intros k; simpl.
  - split; [intros _ j x H; destruct j; discriminate | reflexivity].
  - rewrite andb_true_iff, IH. split.
    + intros [Hy Hl] j x H. destruct j as [|j]; simpl in H.
      * injection H as <-. rewrite Nat.add_0_r. exact Hy.
      * rewrite Nat.add_succ_r. exact (Hl j x H).
    + intros H. split.
      * rewrite <- (Nat.add_0_r k). apply H. reflexivity.
      * intros j x Hj. replace (S k + j) with (k + S j) by lia. apply H. exact Hj.
Qed.

Lemma orb_imp a b : a || b = true <-> (a = false -> b = true).
Proof. destruct a, b; simpl; split; auto; intros H; discriminate (H eq_refl). Qed.

(* `others n s0` and LifeOracle.others_of live s0 are such filters *)
Lemma forallb_but (l : list nat) s0 (g : nat -> bool) :
  forallb g (filter (fun s => negb (Nat.eqb s s0)) l) = true <-> forall s, In s l -> s <> s0 -> g s = true.
Proof.
  rewrite forallb_forall. split; intros H s.
  - intros Hs Hne. apply H, filter_In. split; [exact Hs | apply negb_true_iff, Nat.eqb_neq, Hne].
  - intros Hs. apply filter_In in Hs as [Hs Hne]. apply negb_true_iff, Nat.eqb_neq in Hne. auto.
Qed.

Lemma forallb_others n s0 (g : nat -> bool) :
  forallb g (others n s0) = true <-> forall s, s <= n -> s <> s0 -> g s = true.
Proof. unfold others. rewrite forallb_but. split; intros H s Hs; apply H, in_sides, Hs. Qed.

Lemma forallb_sides n (g : nat -> bool) : forallb g (sides_of n) = true <-> forall s, s <= n -> g s = true.
Proof. rewrite forallb_forall. split; intros H s Hs; apply H, in_sides, Hs. Qed.

Lemma ok_exactly_once_spec n posts l :
  ok_exactly_once n posts l = true <->
  (forall i s0 c0 src s, nth_error posts i = Some (s0, c0, src) -> s0 <= n ->
     post_crosses i (s0, c0, src) = true -> s <= n -> s <> s0 -> count_at s c0 i l = 1).
Proof.
  unfold ok_exactly_once. rewrite all_posts_spec. split.
  - intros H i s0 c0 src s Hn Hs0 Hc Hs Hne. specialize (H i _ Hn). simpl in H.
    rewrite <- orb_assoc, !orb_imp, !negb_false_iff, forallb_others, Nat.leb_le in H. apply Nat.eqb_eq. auto.
  - intros H j [[s0 c0] src] Hn. simpl.
    rewrite <- orb_assoc, !orb_imp, !negb_false_iff, forallb_others, Nat.leb_le.
    intros Hs0 Hc s Hs Hne. apply Nat.eqb_eq. eauto.
Qed.

Lemma ok_not_back_spec n posts l :
  ok_not_back n posts l = true <->
  (forall i s0 c0 src, nth_error posts i = Some (s0, c0, src) -> s0 <= n -> count_at s0 c0 i l = 1).
Proof.
  unfold ok_not_back. rewrite all_posts_spec. split.
  - intros H i s0 c0 src Hn Hs0. specialize (H i _ Hn). simpl in H.
    rewrite orb_imp, negb_false_iff, Nat.leb_le, Nat.eqb_eq in H. auto.
  - intros H j [[s0 c0] src] Hn. simpl. rewrite orb_imp, negb_false_iff, Nat.leb_le, Nat.eqb_eq. eauto.
Qed.

Lemma ok_stays_local_spec n posts l :
  ok_stays_local n posts l = true <->
  (forall i s0 c0 src s, nth_error posts i = Some (s0, c0, src) -> s0 <= n ->
     post_crosses i (s0, c0, src) = false -> s <= n -> s <> s0 -> count_at s c0 i l = 0).
Proof.
  unfold ok_stays_local. rewrite all_posts_spec. split.
  - intros H i s0 c0 src s Hn Hs0 Hc Hs Hne. specialize (H i _ Hn). simpl in H.
    rewrite <- orb_assoc, !orb_imp, negb_false_iff, forallb_others, Nat.leb_le in H. apply Nat.eqb_eq. auto.
  - intros H j [[s0 c0] src] Hn. simpl.
    rewrite <- orb_assoc, !orb_imp, negb_false_iff, forallb_others, Nat.leb_le.
    intros Hs0 Hc s Hs Hne. apply Nat.eqb_eq. eauto.
Qed.

Lemma ok_no_stray_spec n posts l :
  ok_no_stray n posts l = true <->
  (forall i s0 c0 src s, nth_error posts i = Some (s0, c0, src) -> s0 <= n -> s <= n ->
     count_at s (other_chan c0) i l = 0).
Proof.
  unfold ok_no_stray. rewrite all_posts_spec. split.
  - intros H i s0 c0 src s Hn Hs0 Hs. specialize (H i _ Hn). cbn [Nat.add] in H.
    rewrite orb_imp, negb_false_iff, forallb_sides, Nat.leb_le in H. apply Nat.eqb_eq. auto.
  - intros H j [[s0 c0] src] Hn. cbn [Nat.add]. rewrite orb_imp, negb_false_iff, forallb_sides, Nat.leb_le.
    intros Hs0 s Hs. apply Nat.eqb_eq. eauto.
Qed.

Lemma expected_own i s0 c0 src : expected i (s0, c0, src) s0 c0 = 1.
Proof. unfold expected. rewrite chan_eqb_refl, Nat.eqb_refl. reflexivity. Qed.

Lemma expected_other i s0 c0 src s : s <> s0 ->
  expected i (s0, c0, src) s c0 = if post_crosses i (s0, c0, src) then 1 else 0.
Proof.
  intros Hne. unfold expected. rewrite chan_eqb_refl. apply Nat.eqb_neq in Hne. rewrite Hne. reflexivity.
Qed.

Lemma expected_stray i s0 c0 src s : expected i (s0, c0, src) s (other_chan c0) = 0.
Proof. unfold expected. destruct c0; reflexivity. Qed.

Lemma expected_le1 i x s c : expected i x s c <= 1.
Proof.
  destruct x as [[s0 c0] src]. unfold expected.
  destruct (chan_eqb c c0); [|lia]. destruct (Nat.eqb s s0); [lia|]. destruct (post_crosses i (s0, c0, src)); lia.
Qed.

(* the model satisfies every clause, for every network size, batch of posts
   and transport schedule *)
Lemma model_exactly_once n posts sched : ok_exactly_once n posts (log (network n posts sched)) = true.
Proof.
  apply ok_exactly_once_spec. intros i s0 c0 src s Hn Hs0 Hc Hs Hne.
  rewrite (network_counts n posts sched i s0 c0 src s c0 Hn Hs0 Hs), (expected_other _ _ _ _ _ Hne), Hc.
  reflexivity.
Qed.

Lemma model_not_back n posts sched : ok_not_back n posts (log (network n posts sched)) = true.
Proof.
  apply ok_not_back_spec. intros i s0 c0 src Hn Hs0.
  rewrite (network_counts n posts sched i s0 c0 src s0 c0 Hn Hs0 Hs0). apply expected_own.
Qed.

Lemma model_stays_local n posts sched : ok_stays_local n posts (log (network n posts sched)) = true.
Proof.
  apply ok_stays_local_spec. intros i s0 c0 src s Hn Hs0 Hc Hs Hne.
  rewrite (network_counts n posts sched i s0 c0 src s c0 Hn Hs0 Hs), (expected_other _ _ _ _ _ Hne), Hc.
  reflexivity.
Qed.

Lemma model_no_stray n posts sched : ok_no_stray n posts (log (network n posts sched)) = true.
Proof.
  apply ok_no_stray_spec. intros i s0 c0 src s Hn Hs0 Hs.
  rewrite (network_counts n posts sched i s0 c0 src s (other_chan c0) Hn Hs0 Hs). apply expected_stray.
Qed.

Lemma model_no_circulation n posts sched :
  ok_no_circulation n (length posts) (npub (network n posts sched)) (quiescent (network n posts sched)) = true.
Proof.
  destruct (no_circulation n posts sched) as [Hq Hn].
  unfold ok_no_circulation, quiescent. rewrite Hq. apply Nat.leb_le. exact Hn.
Qed.

Lemma advance_crosses i s0 c e :
  post_crosses i (s0, c, Advance e)
  = match e with Some b => b | None => negb (Nat.eqb s0 0) end.
Proof. unfold post_crosses, crosses, source_msg, advance_default; simpl. destruct e as [[]|]; simpl; try reflexivity. destruct (Nat.eqb s0 0); reflexivity. Qed.

Lemma typed_crosses i s0 c t e :
  post_crosses i (s0, c, Typed t e) = match e with Some b => b | None => mtype_fwd t end.
Proof. unfold post_crosses, crosses, source_msg; simpl. destruct e as [[]|]; simpl; try reflexivity. destruct (mtype_fwd t); reflexivity. Qed.

Lemma forwarded_exactly_once n posts sched i s0 c0 src :
  nth_error posts i = Some (s0, c0, src) -> s0 <= n ->
  post_crosses i (s0, c0, src) = true ->
  forall s, s <= n -> count_at s c0 i (log (network n posts sched)) = 1.
Proof.
  intros Hn Hs0 Hc s Hs. rewrite (network_counts n posts sched i s0 c0 src s c0 Hn Hs0 Hs).
  unfold expected. rewrite chan_eqb_refl, Hc. destruct (Nat.eqb s s0); reflexivity.
Qed.

Lemma unforwarded_stays_local n posts sched i s0 c0 src :
  nth_error posts i = Some (s0, c0, src) -> s0 <= n ->
  post_crosses i (s0, c0, src) = false ->
  forall s, s <= n -> count_at s c0 i (log (network n posts sched)) = if Nat.eqb s s0 then 1 else 0.
Proof.
  intros Hn Hs0 Hc s Hs. rewrite (network_counts n posts sched i s0 c0 src s c0 Hn Hs0 Hs).
  unfold expected. rewrite chan_eqb_refl, Hc. reflexivity.
Qed.

(* agent-side state advances reach the client and every other pilot exactly
   once; client-side ones stay on the client *)
Lemma agent_advance_forwarded n posts sched i s0 :
  nth_error posts i = Some (s0, State, Advance None) -> 1 <= s0 <= n ->
  forall s, s <= n -> count_at s State i (log (network n posts sched)) = 1.
Proof.
  intros Hn [H1 Hs0]. apply (forwarded_exactly_once n posts sched i s0 State (Advance None) Hn Hs0).
  rewrite advance_crosses. destruct s0; [lia | reflexivity].
Qed.

Lemma client_advance_local n posts sched i :
  nth_error posts i = Some (0, State, Advance None) ->
  forall s, s <= n -> count_at s State i (log (network n posts sched)) = if Nat.eqb s 0 then 1 else 0.
Proof.
  intros Hn. apply (unforwarded_stays_local n posts sched i 0 State (Advance None) Hn (Nat.le_0_l n)).
  rewrite advance_crosses. reflexivity.
Qed.

(* a delivery is either the local one on the publishing side (message as
   posted) or a remote copy stamped with the publisher's name, flag cleared *)
Definition marked (posts : list post) (e : event) : Prop :=
  exists s0 c0 src, nth_error posts (e_id e) = Some (s0, c0, src) /\ e_chan e = c0 /\
    ((e_side e = s0 /\ e_origin e = m_origin (source_msg s0 (e_id e) src)
                    /\ e_fwd e = m_fwd (source_msg s0 (e_id e) src))
     \/ (e_side e <> s0 /\ e_origin e = Some s0 /\ e_fwd e = Some false)).

(* the only publications ever in flight *)
Definition pub_ok (posts : list post) (p : pub) : Prop :=
  exists i s0 c0 src, nth_error posts i = Some (s0, c0, src) /\
    (p = post_pub i (s0, c0, src)
     \/ p = mkpub (Proxy c0) (Prx c0) (mkmsg i (Some s0) (Some false))
     \/ exists s', s' <> s0 /\ p = mkpub (Local s' c0) (Lcl c0) (mkmsg i (Some s0) (Some false))).

Lemma pub_ok_deliveries sides posts p e :
  pub_ok posts p -> In e (deliveries sides p) -> marked posts e.
Proof.
  intros (i & s0 & c0 & src & Hn & [-> | [-> | (s' & Hne & ->)]]) He;
    apply deliveries_where in He as (s & c & Hb & ->).
  - injection Hb as <- <-. exists s0, c0, src. simpl. rewrite source_msg_id. auto 6.
  - discriminate.
  - injection Hb as <- <-. exists s0, c0, src. simpl. auto 6.
Qed.

(* what the forwarders publish: a copy on its way to the proxy, or a copy on
   its way from the proxy to some other side *)
Definition fwd_ok (posts : list post) (q : pub) : Prop :=
  exists i s0 c0 src, nth_error posts i = Some (s0, c0, src) /\
    (q = mkpub (Proxy c0) (Prx c0) (mkmsg i (Some s0) (Some false))
     \/ exists s', s' <> s0 /\ q = mkpub (Local s' c0) (Lcl c0) (mkmsg i (Some s0) (Some false))).

Lemma fwd_ok_pub_ok posts q : fwd_ok posts q -> pub_ok posts q.
Proof. intros (i & s0 & c0 & src & Hn & H). exists i, s0, c0, src. split; [exact Hn | right; exact H]. Qed.

Lemma pub_ok_children sides posts p q : pub_ok posts p -> In q (children sides p) -> fwd_ok posts q.
Proof.
  intros (i & s0 & c0 & src & Hn & [-> | [-> | (s' & Hne & ->)]]) Hq.
  - apply child_of_local in Hq as (-> & _). simpl. rewrite source_msg_id. exists i, s0, c0, src. auto.
  - apply child_of_proxy in Hq as (s & o & -> & _ & Ho & Hne). simpl in Ho. injection Ho as <-.
    exists i, s0, c0, src. split; [exact Hn|]. right. exists s. auto.
  - rewrite (foreign_local_childless sides s' c0 (Lcl c0) (mkmsg i (Some s0) (Some false)) s0 eq_refl) in Hq;
      [contradiction|]. intros Heq. apply Hne. symmetry. exact Heq.
Qed.

Definition net_ok (posts : list post) (st : net) : Prop :=
  Forall (pub_ok posts) (pending st) /\ Forall (marked posts) (log st).

Lemma hop_ok sides posts st p kept st' :
  net_ok posts st -> hop sides st p kept st' -> (forall q, In q kept -> In q (children sides p)) ->
  net_ok posts st' /\ pub_ok posts p.
Proof.
  intros [Hp Hl] Hh Hk. rewrite Forall_forall in Hp, Hl.
  destruct (hop_pending sides st p kept st' Hh) as [Hin Hpend].
  assert (Hpk : pub_ok posts p) by exact (Hp p Hin). split; [|exact Hpk].
  split; apply Forall_forall.
  - intros q Hq. apply Hpend in Hq as [Hq|Hq]; [exact (Hp q Hq)|].
    exact (fwd_ok_pub_ok posts q (pub_ok_children sides posts p q Hpk (Hk q Hq))).
  - destruct Hh as (a & b & _ & ->). simpl. intros e He.
    apply in_app_or in He as [He|He]; [exact (Hl e He) | exact (pub_ok_deliveries sides posts p e Hpk He)].
Qed.

Lemma run_ok sides posts fuel : forall sched st, net_ok posts st -> net_ok posts (run sides fuel sched st).
Proof.
  intros sched st. rewrite run_iter. apply iter_inv. intros k x x' Hx E.
  apply step_hop in E as (p & Hh). exact (proj1 (hop_ok sides posts x p _ x' Hx Hh (fun q Hq => Hq))).
Qed.

Lemma posts_from_ok posts : forall l k,
  (forall j x, nth_error l j = Some x -> nth_error posts (k + j) = Some x) ->
  Forall (pub_ok posts) (posts_from k l).
Proof.
  induction l as [|[[s0 c0] src] l IH]; intros k H; simpl; [constructor|]. constructor.
  - exists k, s0, c0, src. split; [|left; reflexivity].
    rewrite <- (Nat.add_0_r k). apply H. reflexivity.
  - apply IH. intros j x Hj. replace (S k + j) with (k + S j) by lia. apply H. exact Hj.
Qed.

Lemma delivered_copies_marked n posts sched e :
  In e (log (network n posts sched)) -> marked posts e.
Proof.
  assert (H : net_ok posts (network n posts sched)).
  { unfold network. apply run_ok. split; simpl; [|constructor].
    apply posts_from_ok. intros j x Hj. exact Hj. }
  destruct H as [_ H]. rewrite Forall_forall in H. apply H.
Qed.
