(* C05 -- proofs about the pipeline model.  What a station lets the outside see
   about task u is a function of u's own token, of whether u is on the station's
   cancel list, and of whether a bulk-level exception escaped the worker
   (work_cb_proj), and so is what a step of the network does to u (step_view);
   so it is enough to follow one canonical token per task (single_step_any,
   inv_run), and the client ends in its one truthful final state
   under every delivery order of the notifications (client_any_order).  Progress
   is not proved: that a task is eventually queued nowhere is a hypothesis. *)
From Coq Require Import ZArith List Bool Lia.
From RP Require Import Gen.StatesTables Pipeline.Model Pipeline.Oracle.
Import ListNotations.

Definition proj (u : Z) (es : list emi) : list emi := filter (fun e => emi_uid e =? u) es.
Definition only (u : Z) (B : list task) : list task := filter (fun t => t_uid t =? u) B.
Definition local (ph : phase) : Prop := forall t e, In e (ph t) -> emi_uid e = t_uid t.

Lemma zmem_remove_other u v cl : u <> v -> zmem u (zremove1 v cl) = zmem u cl.
Proof.
  intro H. induction cl as [|x r IH]; simpl; [reflexivity|].
  destruct (x =? v) eqn:E.
  - apply Z.eqb_eq in E. subst x. replace (v =? u) with false by (symmetry; apply Z.eqb_neq; congruence).
    reflexivity.
  - simpl. rewrite IH. reflexivity.
Qed.

Lemma zmem_remove_sub u v cl : zmem u (zremove1 v cl) = true -> zmem u cl = true.
Proof.
  induction cl as [|x r IH]; simpl; [auto|].
  destruct (x =? v) eqn:E; simpl.
  - intro H. rewrite H. apply orb_true_r.
  - intro H. apply orb_true_iff in H as [H|H]; [rewrite H; reflexivity|].
    rewrite (IH H). apply orb_true_r.
Qed.

Lemma zmem_app u a b : zmem u (a ++ b) = zmem u a || zmem u b.
Proof. induction a as [|x r IH]; simpl; [reflexivity|]. rewrite IH. apply orb_assoc. Qed.

Lemma only_In u B t : In t (only u B) <-> In t B /\ t_uid t = u.
Proof. unfold only. rewrite filter_In, Z.eqb_eq. reflexivity. Qed.

Lemma only_nil_notin u B : ~ In u (map t_uid B) -> only u B = [].
Proof.
  intro H. destruct (only u B) as [|t r] eqn:E; [reflexivity|]. exfalso. apply H.
  destruct (proj1 (only_In u B t)) as [Ht <-]; [rewrite E; left; reflexivity|]. apply in_map. exact Ht.
Qed.

Lemma only_single B t : NoDup (map t_uid B) -> In t B -> only (t_uid t) B = [t].
Proof.
  induction B as [|a r IH]; intros Hnd Hin; [contradiction|].
  inversion Hnd as [|? ? Hna Hnr]; subst. simpl. destruct Hin as [->|Hin].
  - rewrite Z.eqb_refl. f_equal. apply only_nil_notin. exact Hna.
  - destruct (t_uid a =? t_uid t) eqn:E.
    + apply Z.eqb_eq in E. exfalso. apply Hna. rewrite E. apply in_map. exact Hin.
    + apply IH; assumption.
Qed.

Lemma only_filter_uid u (g : Z -> bool) B :
  only u (filter (fun t => g (t_uid t)) B) = if g u then only u B else [].
Proof.
  induction B as [|a r IH]; simpl; [destruct (g u); reflexivity|].
  destruct (t_uid a =? u) eqn:E.
  - apply Z.eqb_eq in E. rewrite E. destruct (g u); simpl; rewrite IH, ?E, ?Z.eqb_refl; reflexivity.
  - destruct (g (t_uid a)); simpl; rewrite ?E; exact IH.
Qed.

Lemma NoDup_only B : (forall u, (length (only u B) <= 1)%nat) -> NoDup (map t_uid B).
Proof.
  induction B as [|a r IH]; intro H; simpl; constructor.
  - intro Hin. specialize (H (t_uid a)). simpl in H. rewrite Z.eqb_refl in H. simpl in H.
    apply in_map_iff in Hin as (x & Hx & Hin).
    assert (In x (only (t_uid a) r)) by (apply only_In; split; assumption).
    destruct (only (t_uid a) r); [contradiction|simpl in H; lia].
  - apply IH. intro u. specialize (H u). simpl in H. destruct (t_uid a =? u); simpl in H; lia.
Qed.

Lemma proj_app u a b : proj u (a ++ b) = proj u a ++ proj u b.
Proof. apply filter_app. Qed.

Lemma proj_const u v es : (forall e, In e es -> emi_uid e = v) -> proj u es = if v =? u then es else [].
Proof.
  induction es as [|e r IH]; intro H; simpl; [destruct (v =? u); reflexivity|].
  rewrite (H e (or_introl eq_refl)), IH by (intros; apply H; right; assumption).
  destruct (v =? u); reflexivity.
Qed.

Lemma proj_flat_map u (g : phase) B : local g -> proj u (flat_map g B) = flat_map g (only u B).
Proof.
  intro Hl. induction B as [|a r IH]; simpl; [reflexivity|].
  rewrite proj_app, IH, (proj_const u (t_uid a)) by apply Hl. destruct (t_uid a =? u); reflexivity.
Qed.

Lemma proj_run_phases u ps B :
  (forall ph, In ph ps -> local ph) -> proj u (run_phases ps B) = run_phases ps (only u B).
Proof.
  unfold run_phases. induction ps as [|ph r IH]; intro H; simpl; [reflexivity|].
  rewrite proj_app, proj_flat_map by (apply H; left; reflexivity).
  rewrite IH by (intros; apply H; right; assumption). reflexivity.
Qed.

Lemma proj_map_local u (g : task -> emi) B :
  (forall t, emi_uid (g t) = t_uid t) -> proj u (map g B) = map g (only u B).
Proof.
  intro H. induction B as [|a r IH]; simpl; [reflexivity|].
  rewrite H. destruct (t_uid a =? u); simpl; rewrite IH; reflexivity.
Qed.

Lemma proj_rel_em u rel e0 : proj u (rel_em rel e0) = rel_em rel (proj u e0).
Proof.
  unfold rel_em. induction e0 as [|e r IH]; simpl; [reflexivity|].
  destruct (emi_uid e =? u) eqn:E; simpl.
  - rewrite <- IH. destruct rel; simpl; [rewrite E|]; reflexivity.
  - destruct rel; simpl; [rewrite E|]; exact IH.
Qed.

Lemma run_phases_app a b B : run_phases (a ++ b) B = run_phases a B ++ run_phases b B.
Proof. unfold run_phases. apply flat_map_app. Qed.

Lemma run_phases_nil ps : run_phases ps [] = [].
Proof. unfold run_phases. induction ps; simpl; auto. Qed.

Lemma phases_local c P ph : In ph (pre_ph c P ++ post_ph c P) -> local ph.
Proof.
  destruct c; cbn; intro H;
    repeat (destruct H as [H|H];
      [subst ph; unfold local, fwd, bind_is, tgt_is; intros t e He; cbn in He;
       repeat match type of He with
              | context [match ?x with _ => _ end] => destruct x; cbn in He
              end;
       repeat (destruct He as [He|He]; [subst e; reflexivity|]); try contradiction|]);
    try contradiction.
Qed.

Lemma intake_cl B : forall cl u, zmem u (fst (fst (intake cl B))) = true -> zmem u cl = true.
Proof.
  induction B as [|a r IH]; intros cl u; simpl; [auto|]. destruct (zmem (t_uid a) cl).
  - specialize (IH (zremove1 (t_uid a) cl) u). destruct (intake _ r) as [[c1 k1] e1].
    intro H. exact (zmem_remove_sub _ _ _ (IH H)).
  - specialize (IH cl u). destruct (intake cl r) as [[c1 k1] e1]. exact IH.
Qed.

Lemma work_cb_cl c P cl B bf u : zmem u (fst (work_cb c P cl B bf)) = true -> zmem u cl = true.
Proof.
  unfold work_cb. pose proof (intake_cl B cl u) as H. destruct (intake cl B) as [[cl' K] e0].
  destruct (worker c P bf K). exact H.
Qed.

Definition kept (cl : list Z) (B : list task) : list task := snd (fst (intake cl B)).

Lemma intake_filter B : forall cl, NoDup (map t_uid B) ->
  kept cl B = filter (fun t => negb (zmem (t_uid t) cl)) B /\
  snd (intake cl B) = map (fun t => pubf (cancel t)) (filter (fun t => zmem (t_uid t) cl) B).
Proof.
  unfold kept. induction B as [|a r IH]; intros cl Hnd; simpl; [split; reflexivity|].
  inversion Hnd as [|? ? Hna Hnr]; subst. destruct (zmem (t_uid a) cl); simpl.
  - destruct (IH (zremove1 (t_uid a) cl) Hnr) as [A Bq]. destruct (intake _ r) as [[c1 k1] e1].
    simpl in *. subst k1 e1.
    assert (E : forall t, In t r -> zmem (t_uid t) (zremove1 (t_uid a) cl) = zmem (t_uid t) cl).
    { intros t Ht. apply zmem_remove_other. intro Q. apply Hna. rewrite <- Q. apply in_map. exact Ht. }
    split; [|f_equal; f_equal]; apply filter_ext_in; intros t Ht; rewrite (E t Ht); reflexivity.
  - destruct (IH cl Hnr) as [A Bq]. destruct (intake cl r) as [[c1 k1] e1]. simpl in *. subst k1 e1.
    split; reflexivity.
Qed.

(* what station c lets the outside see about task u *)
Definition seen (c : comp) (P : params) (canceled raised : bool) (L : list task) : list emi :=
  if canceled then rel_em (releases c) (map (fun t => pubf (cancel t)) L)
  else run_phases (pre_ph c P) L
       ++ (if raised then map (fun t => pubf (fail t)) L else run_phases (post_ph c P) L).

Lemma seen_nil c P canceled raised : seen c P canceled raised [] = [].
Proof. unfold seen. rewrite !run_phases_nil. destruct canceled, raised; reflexivity. Qed.

Theorem work_cb_proj c P cl B bf u :
  NoDup (map t_uid B) ->
  proj u (snd (work_cb c P cl B bf))
  = seen c P (zmem u cl) (raises c P bf (kept cl B)) (only u B).
Proof.
  (* what is kept and what is canceled are filters of B; proj u goes through every part of the
     emissions by locality; a filter by uid, read at u, is all or nothing *)
  intro Hnd. destruct (intake_filter B cl Hnd) as [A Bq]. unfold work_cb, seen, worker. rewrite A. unfold kept in A.
  destruct (intake cl B) as [[cl' K] e0]. simpl in *. subst K e0.
  assert (Hpre : forall ph, In ph (pre_ph c P) -> local ph)
    by (intros; apply (phases_local c P); apply in_or_app; left; assumption).
  assert (Hpost : forall ph, In ph (post_ph c P) -> local ph)
    by (intros; apply (phases_local c P); apply in_or_app; right; assumption).
  destruct (raises c P bf _); simpl;
    rewrite !proj_app, proj_rel_em, !proj_map_local, ?proj_run_phases by (assumption || reflexivity);
    rewrite (only_filter_uid u (fun v => zmem v cl)), (only_filter_uid u (fun v => negb (zmem v cl)));
    destruct (zmem u cl); simpl; rewrite ?run_phases_nil, ?app_nil_r; reflexivity.
Qed.

Definition next (c : comp) : comp :=
  match c with
  | CTSched => CTIn | CTIn => CA0In | CA0In => CAIn | CAIn => CASched | CASched => CAExec
  | CAExec => CAOut | CAOut => CA0Out | CA0Out => CTOut | CTOut => COther | COther => COther
  end.

(* the token as the executor hands it on *)
Definition exec_tok (t0 : task) : task :=
  match f_exec (t_f t0) with XExit k => exited t0 k | _ => xcanceled t0 end.

(* the token of t0 as it arrives at station c *)
Definition canon (c : comp) (t0 : task) : task :=
  match c with
  | CTSched | COther => t0
  | CTIn => set_st t0 T_TMGR_STAGING_INPUT_PENDING
  | CA0In | CAIn => set_st t0 T_AGENT_STAGING_INPUT_PENDING
  | CASched => set_st t0 T_AGENT_SCHEDULING_PENDING
  | CAExec => set_st t0 T_AGENT_EXECUTING_PENDING
  | CAOut => exec_tok t0
  | CA0Out | CTOut => set_st (exec_tok t0) T_TMGR_STAGING_OUTPUT_PENDING
  end.

(* no fault of t0 fires before station c *)
Definition reach (c : comp) (t0 : task) : bool :=
  let d := t_d t0 in let f := t_f t0 in
  let r0 := negb (bind_is PUnknown t0) in
  let r1 := r0 && negb (f_assign f) in
  let r2 := r1 && negb (d_tin d && f_tin f) in
  let r3 := r2 && negb (d_ain d && f_ain f) in
  let r4 := r3 && match f_sched f with SStart => true | _ => false end in
  let r5 := r4 && match f_exec f with XExit _ | XCancel | XTimeout => true | _ => false end in
  let r6 := r5 && match ao_cls (exec_tok t0) with
                  | AOFail => false | AOPass => true | AOStage => negb (f_aout f) end in
  match c with
  | CTSched => r0 | CTIn => r1 | CA0In | CAIn => r2 | CASched => r3 | CAExec => r4
  | CAOut => r5 | CA0Out | CTOut => r6 | COther => false
  end.

Lemma exec_tok_f t0 : t_f (exec_tok t0) = t_f t0.
Proof. unfold exec_tok. destruct (f_exec (t_f t0)); reflexivity. Qed.
Lemma exec_tok_d t0 : t_d (exec_tok t0) = t_d t0.
Proof. unfold exec_tok. destruct (f_exec (t_f t0)); reflexivity. Qed.
Lemma exec_tok_uid t0 : t_uid (exec_tok t0) = t_uid t0.
Proof. unfold exec_tok. destruct (f_exec (t_f t0)); reflexivity. Qed.
Lemma exec_tok_tgt t0 : t_tgt (exec_tok t0) <> None.
Proof. unfold exec_tok. destruct (f_exec (t_f t0)); discriminate. Qed.
Lemma canon_uid c t0 : t_uid (canon c t0) = t_uid t0.
Proof. destruct c; try reflexivity; apply exec_tok_uid. Qed.

(* agent stage-out fails a task that has a target state only for a fault of the task's own *)
Lemma ao_cls_fail t : ao_cls t = AOFail -> f_stdio (t_f t) = true \/ t_tgt t = None.
Proof.
  unfold ao_cls. destruct (f_stdio (t_f t)); [left; reflexivity|]. destruct (t_tgt t); [|right; reflexivity].
  destruct (_ && _); [discriminate|]. destruct (d_aout (t_d t)); discriminate.
Qed.
Lemma ao_cls_stage t : ao_cls t = AOStage -> d_aout (t_d t) = true.
Proof.
  unfold ao_cls. destruct (f_stdio (t_f t)); [discriminate|]. destruct (t_tgt t); [|discriminate].
  destruct (_ && _); [discriminate|]. destruct (d_aout (t_d t)); [reflexivity|discriminate].
Qed.
Lemma to_cls_raise t : to_cls t = TORaise -> t_tgt t = None.
Proof.
  unfold to_cls. destruct (t_tgt t); [|reflexivity].
  destruct (negb _); [discriminate|]. destruct (d_tout (t_d t)); discriminate.
Qed.

(* a task that gets to tmgr stage-out with exit code 0 has no fault, except
   possibly in that last staging: DONE there tells the truth *)
Lemma reach_clean t0 k :
  reach CTOut t0 = true -> f_exec (t_f t0) = XExit k -> (k =? 0) = true ->
  any_fault t0 = d_tout (t_d t0) && f_tout (t_f t0).
Proof.
  unfold reach, exec_tok, any_fault. cbv zeta. intros Hr X K. rewrite X in Hr.
  rewrite !andb_true_iff, !negb_true_iff in Hr. destruct Hr as ((((((_ & -> ) & -> ) & -> ) & Hs) & _) & Hao).
  destruct (f_sched (t_f t0)); try discriminate Hs.
  unfold ao_cls, tgt_is in Hao. cbn in Hao. rewrite K in Hao.
  destruct (f_stdio (t_f t0)), (d_aout (t_d t0)), (f_aout (t_f t0)); try discriminate Hao; reflexivity.
Qed.

Definition fin_sts (u : Z) (es : list emi) : list tstate := map t_st (final_pubs u es).

Lemma fin_sts_app u a b : fin_sts u (a ++ b) = fin_sts u a ++ fin_sts u b.
Proof. unfold fin_sts, final_pubs. rewrite flat_map_app, map_app. reflexivity. Qed.

Lemma fin_sts_proj u es : fin_sts u es = fin_sts u (proj u es).
Proof.
  unfold fin_sts. induction es as [|e r IH]; simpl; [reflexivity|].
  destruct e as [fl t|d t|v]; simpl.
  - destruct (t_uid t =? u) eqn:E; simpl.
    + rewrite E. simpl. rewrite !map_app, IH. reflexivity.
    + exact IH.
  - destruct (t_uid t =? u); simpl; exact IH.
  - destruct (v =? u); simpl; exact IH.
Qed.

Lemma fin_sts_filter u es : fin_sts u es = filter is_final (notifications u es).
Proof.
  unfold fin_sts, final_pubs, notifications. induction es as [|e r IH]; simpl; [reflexivity|].
  rewrite map_app, filter_app, IH. f_equal. destruct e as [fl t|d t|v]; simpl; try reflexivity.
  destruct (t_uid t =? u); simpl; [|reflexivity]. destruct (is_final (t_st t)); reflexivity.
Qed.

(* What station c does with ONE token t that the cancel filter lets through and
   no bulk-level exception hits: the token it hands to the next station ... *)
Definition hand (c : comp) (t : task) : option task :=
  match c with
  | CTSched => if f_assign (t_f t) then None else Some (set_st t T_TMGR_STAGING_INPUT_PENDING)
  | CTIn => if d_tin (t_d t) && f_tin (t_f t) then None else Some (set_st t T_AGENT_STAGING_INPUT_PENDING)
  | CAIn => if d_ain (t_d t) && f_ain (t_f t) then None else Some (set_st t T_AGENT_SCHEDULING_PENDING)
  | CASched => match f_sched (t_f t) with SStart => Some (set_st t T_AGENT_EXECUTING_PENDING) | _ => None end
  | CAExec => match f_exec (t_f t) with
              | XExit k => Some (exited t k) | XCancel | XTimeout => Some (xcanceled t) | _ => None end
  | CAOut => match ao_cls t with
             | AOFail => None
             | AOPass => Some (set_st t T_TMGR_STAGING_OUTPUT_PENDING)
             | AOStage => if f_aout (t_f t) then None else Some (set_st t T_TMGR_STAGING_OUTPUT_PENDING)
             end
  | CA0In | CA0Out => Some t
  | CTOut | COther => None
  end.
(* ... or else the state it publishes the whole task with (T_NEW: nothing) *)
Definition ends (c : comp) (t : task) : tstate :=
  match c with
  | CASched => match f_sched (t_f t) with SCancel => T_CANCELED | _ => T_FAILED end
  | CTOut => match to_cls t with
             | TOSkip s => s
             | TOStage => if f_tout (t_f t) then T_FAILED else match t_tgt t with Some s => s | None => T_FAILED end
             | TORaise => T_NEW
             end
  | COther => T_NEW
  | _ => T_FAILED
  end.

(* the tmgr scheduler keeps a task while no pilot is added or the task is bound
   to another one; agent_0 forwards only tasks in AGENT_STAGING_INPUT_PENDING *)
Definition takes (c : comp) (P : params) (t : task) : Prop :=
  match c with
  | CTSched => p_hp P = true /\ bind_is PUnknown t = false
  | CA0In => t_st t = T_AGENT_STAGING_INPUT_PENDING
  | _ => True
  end.

Lemma station c P t :
  takes c P t ->
  let es := seen c P false false [t] in
  match hand c t with
  | Some t' => pushes es = [(next c, t')] /\ fin_sts (t_uid t) es = []
  | None => pushes es = [] /\ (is_final (ends c t) = true ->
             fin_sts (t_uid t) es = [ends c t] \/ fin_sts (t_uid t) es = [ends c t; ends c t])
  end.
Proof.
  (* each station splits on the flags it reads; what it then emits is computed *)
  intros Ht. unfold seen, fin_sts. destruct c; simpl in *;
    [ (* CTSched *) destruct Ht as [-> Hb]; unfold bind_is in *; destruct (d_bind (t_d t)); try discriminate Hb;
      destruct (f_assign (t_f t))
    | (* CTIn *) destruct (d_tin (t_d t)), (f_tin (t_f t))
    | (* CA0In *) rewrite Ht
    | (* CAIn *) destruct (d_ain (t_d t)), (f_ain (t_f t))
    | (* CASched *) destruct (f_sched (t_f t))
    | (* CAExec *) destruct (f_exec (t_f t))
    | (* CAOut *) destruct (ao_cls t); try destruct (f_aout (t_f t))
    | (* CA0Out *)
    | (* CTOut *) destruct (to_cls t); try destruct (f_tout (t_f t)); try destruct (t_tgt t)
    | (* COther *) ];
    simpl; rewrite ?Z.eqb_refl; simpl; split; try reflexivity; intro F; try discriminate F; rewrite ?F; auto.
Qed.

(* a final state tells the truth once E makes one disjunct of `truthful` or `any_fault` true *)
Ltac by_flag E := unfold truthful, any_fault; cbv zeta; rewrite ?E; repeat (cbn; rewrite ?orb_true_r); reflexivity.

Lemma canon_step c t0 creq bulkf :
  reach c t0 = true ->
  match hand c (canon c t0) with
  | Some t' => t' = canon (next c) t0 /\ reach (next c) t0 = true
  | None => truthful t0 creq bulkf (ends c (canon c t0)) = true
  end.
Proof.
  (* per station, the flag that decides between handing on and ending; set, it makes the final state truthful *)
  intro Hr. destruct c; try discriminate Hr; unfold reach in Hr; cbv zeta in Hr; cbn; rewrite ?exec_tok_f;
    [ (* CTSched *) destruct (f_assign (t_f t0)) eqn:E
    | (* CTIn *) destruct (d_tin (t_d t0) && f_tin (t_f t0)) eqn:E
    | (* CA0In *)
    | (* CAIn *) destruct (d_ain (t_d t0) && f_ain (t_f t0)) eqn:E
    | (* CASched *) destruct (f_sched (t_f t0)) eqn:E
    | (* CAExec *) unfold exec_tok; destruct (f_exec (t_f t0)) eqn:E
    | (* CAOut *) destruct (ao_cls (exec_tok t0)) eqn:A; [| |destruct (f_aout (t_f t0)) eqn:F]
    | (* CA0Out *)
    | (* CTOut *) ];
    try (split; [reflexivity|rewrite ?Hr; reflexivity]); try by_flag E.
  - (* CAOut, AOFail *)
    destruct (ao_cls_fail _ A) as [E|E].
    + rewrite exec_tok_f in E. by_flag E.
    + destruct (exec_tok_tgt t0 E).
  - (* CAOut, AOStage, staging fails *)
    pose proof (ao_cls_stage _ A) as D. rewrite exec_tok_d in D. by_flag (andb_true_intro (conj D F)).
  - (* CTOut *)
    assert (Hc : reach CTOut t0 = true) by exact Hr.
    unfold to_cls, exec_tok. destruct (f_exec (t_f t0)) as [k| | | |] eqn:X; cbn;
      try (rewrite ?andb_false_r in Hr; discriminate Hr); try by_flag X.
    destruct (k =? 0) eqn:K; cbn.
    + assert (Hd : truthful t0 creq bulkf T_DONE = negb (d_tout (t_d t0) && f_tout (t_f t0))).
      { unfold truthful. rewrite X, (reach_clean t0 k Hc X K). cbn. rewrite K. reflexivity. }
      destruct (d_tout (t_d t0)) eqn:D; [destruct (f_tout (t_f t0)) eqn:F|]; cbn; try exact Hd.
      by_flag (andb_true_intro (conj D F)).
    + unfold truthful. rewrite X. cbn. rewrite K. apply orb_true_r.
Qed.

Definition handed_on (c : comp) (t0 : task) (es : list emi) : Prop :=
  pushes es = [(next c, canon (next c) t0)] /\ reach (next c) t0 = true /\ fin_sts (t_uid t0) es = [].
Definition finished (t0 : task) (creq bulkf : bool) (es : list emi) : Prop :=
  let fs := fin_sts (t_uid t0) es in
  pushes es = [] /\ fs <> [] /\ forallb (tstate_beq (hd T_NEW fs)) fs = true
  /\ truthful t0 creq bulkf (hd T_NEW fs) = true.

Lemma truthful_final t0 creq bulkf s : truthful t0 creq bulkf s = true -> is_final s = true.
Proof. destruct s; try discriminate; reflexivity. Qed.

Lemma finished_intro t0 creq bulkf es s :
  pushes es = [] -> fin_sts (t_uid t0) es = [s] \/ fin_sts (t_uid t0) es = [s; s] ->
  truthful t0 creq bulkf s = true -> finished t0 creq bulkf es.
Proof.
  intros Hp Hf Ht. unfold finished.
  assert (Hs : tstate_beq s s = true) by (apply internal_tstate_dec_lb; reflexivity).
  destruct Hf as [-> | ->]; cbn; rewrite Hs; repeat split; try discriminate; assumption.
Qed.

(* one canonical token through one station: handed on intact to the next
   station, or given one truthful final state (the form to use; single_step
   below is the instance C05 states) *)
Lemma single_step_any c P t0 canceled raised creq bulkf :
  p_hp P = true -> reach c t0 = true ->
  (canceled = true -> creq = true) ->
  (raised = true -> bulkf = true /\ c = CTIn) ->
  let es := seen c P canceled raised [canon c t0] in
  handed_on c t0 es \/ finished t0 creq bulkf es.
Proof.
  intros Hp Hr Hc Hb es. subst es.
  destruct canceled.
  { right. rewrite (Hc eq_refl). apply (finished_intro _ _ _ _ T_CANCELED); [| |reflexivity];
      unfold fin_sts, seen, rel_em; destruct (releases c); cbn; rewrite ?canon_uid, ?Z.eqb_refl; auto. }
  destruct raised.
  { right. destruct (Hb eq_refl) as [-> ->]. apply (finished_intro _ _ _ _ T_FAILED); [reflexivity| |reflexivity].
    unfold fin_sts. cbn. rewrite Z.eqb_refl. auto. }
  assert (S : takes c P (canon c t0)).
  { destruct c; cbn; try exact I; [split; [exact Hp|]; apply negb_true_iff; exact Hr|reflexivity]. }
  apply station in S. cbv zeta in S. rewrite canon_uid in S.
  assert (T := canon_step c t0 creq bulkf Hr).
  destruct (hand c (canon c t0)) as [t'|]; destruct S as [S1 S2].
  - left. destruct T as [-> T2]. repeat split; assumption.
  - right. exact (finished_intro _ _ _ _ _ S1 (S2 (truthful_final _ _ _ _ T)) T).
Qed.

Lemma single_step c thr u d f canceled raised creq bulkf :
  let t0 := fresh u d f in
  reach c t0 = true ->
  (canceled = true -> creq = true) ->
  (raised = true -> bulkf = true /\ c = CTIn) ->
  let es := seen c (mkP true thr) canceled raised [canon c t0] in
  handed_on c t0 es \/ finished t0 creq bulkf es.
Proof. exact (single_step_any c (mkP true thr) (fresh u d f) canceled raised creq bulkf eq_refl). Qed.

From Coq Require Import Permutation.

Definition quid (u : Z) (l : list (comp * task)) : list (comp * task) :=
  filter (fun p => t_uid (snd p) =? u) l.

Lemma queued_quid u g : queued u g = quid u (toks g).
Proof. reflexivity. Qed.

Lemma comp_eqb_eq a b : comp_eqb a b = true -> a = b.
Proof. destruct a, b; simpl; intro H; try discriminate; reflexivity. Qed.

Lemma perm_filter {A} (f : A -> bool) l l' : Permutation l l' -> Permutation (filter f l) (filter f l').
Proof.
  induction 1 as [|x l l' _ IH|x y l|l l' l'' _ IH1 _ IH2]; simpl.
  - constructor.
  - destruct (f x); [constructor|]; exact IH.
  - destruct (f y), (f x); try constructor; apply Permutation_refl.
  - exact (perm_trans IH1 IH2).
Qed.

Lemma perm_short {A} (l l' : list A) : (length l <= 1)%nat -> Permutation l l' -> l' = l.
Proof.
  destruct l as [|a [|b l]]; simpl; intros H Hp;
    [apply Permutation_nil; exact Hp|apply Permutation_length_1_inv; exact Hp|lia].
Qed.

Lemma take_perm l : forall n c B r, take n c l = (B, r) -> Permutation l (map (fun t => (c, t)) B ++ r).
Proof.
  induction l as [|[d t] l IH]; intros n c B r H; simpl in H.
  - injection H as <- <-. constructor.
  - destruct n; [injection H as <- <-; apply Permutation_refl|].
    destruct (comp_eqb d c) eqn:E.
    + apply comp_eqb_eq in E. subst d. destruct (take n c l) as [b r'] eqn:R. injection H as <- <-.
      simpl. constructor. exact (IH _ _ _ _ R).
    + destruct (take (S n) c l) as [b r'] eqn:R. injection H as <- <-.
      apply Permutation_cons_app. exact (IH _ _ _ _ R).
Qed.

Lemma quid_app u a b : quid u (a ++ b) = quid u a ++ quid u b.
Proof. apply filter_app. Qed.

Lemma quid_map u c B : quid u (map (fun t => (c, t)) B) = map (fun t => (c, t)) (only u B).
Proof. induction B as [|a r IH]; simpl; [reflexivity|]. destruct (t_uid a =? u); simpl; rewrite IH; reflexivity. Qed.

Lemma take_one n c l B r u :
  take n c l = (B, r) -> (length (quid u l) <= 1)%nat ->
  (only u B = [] /\ quid u r = quid u l) \/ (exists t, only u B = [t] /\ quid u l = [(c, t)] /\ quid u r = []).
Proof.
  intros Rt L. assert (E : map (fun t => (c, t)) (only u B) ++ quid u r = quid u l).
  { apply (perm_short _ _ L). rewrite <- quid_map, <- quid_app. apply perm_filter, (take_perm _ _ _ _ _ Rt). }
  destruct (only u B) as [|t Br]; [left; auto|right]. exists t.
  rewrite <- E in L |- *. simpl in *. destruct Br, (quid u r); simpl in L; try lia. auto.
Qed.

Lemma quid_pushes u es : quid u (pushes es) = pushes (proj u es).
Proof.
  induction es as [|e r IH]; simpl; [reflexivity|].
  destruct e as [fl t|d t|v]; simpl.
  - destruct (t_uid t =? u); simpl; exact IH.
  - destruct (t_uid t =? u); simpl; rewrite IH; reflexivity.
  - destruct (v =? u); simpl; exact IH.
Qed.

Lemma truthful_mono t0 a b a' b' s :
  truthful t0 a b s = true -> truthful t0 (a || a') (b || b') s = true.
Proof. destruct s; simpl; try exact (fun H => H); destruct a, a', b, b'; simpl; auto. Qed.

Lemma singleton_of {A} (l : list A) x : length l = 1%nat -> In x l -> l = [x].
Proof. destruct l as [|y [|z r]]; simpl; intros H Hin; try discriminate. destruct Hin as [->|[]]. reflexivity. Qed.

Lemma ev_cancels_app u a b : ev_cancels u (a ++ b) = ev_cancels u a || ev_cancels u b.
Proof. apply existsb_app. Qed.
Lemma ev_bulkf_app a b : ev_bulkf (a ++ b) = ev_bulkf a || ev_bulkf b.
Proof. apply existsb_app. Qed.

Definition once (g : config) : Prop := forall u, (length (queued u g) <= 1)%nat.

Lemma once_bulk g n c B rest : once g -> take n c (toks g) = (B, rest) -> NoDup (map t_uid B).
Proof.
  intros Ho Rt. apply NoDup_only. intro u.
  destruct (take_one _ _ _ _ _ u Rt (Ho u)) as [[-> _]|(t & -> & _)]; simpl; lia.
Qed.

(* work_cb_proj one level up: what a step of the network does to task u *)
Theorem step_view P g ev u :
  once g ->
  let g' := step P g ev in
  (queued u g' = queued u g /\ proj u (tr g') = proj u (tr g))
  \/ exists c n bf t, ev = EDeliver c n bf /\ queued u g = [(c, t)] /\
       let es := seen c P (zmem u (cls g c)) (raises c P bf (kept (cls g c) (fst (take n c (toks g))))) [t] in
       queued u g' = pushes es /\ proj u (tr g') = proj u (tr g) ++ es.
Proof.
  intro Ho. cbv zeta. rewrite !queued_quid. destruct ev as [c n bf|c v]; [|left; split; reflexivity].
  simpl. destruct (take n c (toks g)) as [B rest] eqn:Rt.
  pose proof (work_cb_proj c P (cls g c) B bf u (once_bulk _ _ _ _ _ Ho Rt)) as Hproj.
  destruct (work_cb c P (cls g c) B bf) as [cl' es]. simpl in *.
  rewrite quid_app, quid_pushes, proj_app, Hproj.
  destruct (take_one _ _ _ _ _ u Rt (Ho u)) as [[-> ->]|(tb & -> & Eq & ->)].
  - left. rewrite seen_nil. simpl. rewrite !app_nil_r. split; reflexivity.
  - right. exists c, n, bf, tb. rewrite Rt. auto.
Qed.

Lemma step_cl P g ev d u :
  zmem u (cls (step P g ev) d) = true -> zmem u (cls g d) = true \/ ev_cancels u [ev] = true.
Proof.
  destruct ev as [c n bf|c v]; simpl.
  - destruct (take n c (toks g)) as [B rest]. pose proof (work_cb_cl c P (cls g c) B bf u) as Hcl.
    destruct (work_cb c P (cls g c) B bf) as [cl' es]. simpl in *. unfold upd.
    destruct (comp_eqb d c) eqn:E; [apply comp_eqb_eq in E; subst d|]; auto.
  - unfold upd. destruct (comp_eqb d c) eqn:E; [apply comp_eqb_eq in E; subst d|auto].
    rewrite zmem_app. simpl. intro H. apply orb_true_iff in H. exact H.
Qed.

Section Net.
  Variable thr : nat.
  Let P := mkP true thr.
  Variable W : list task.
  (* no task is bound to a pilot that is never added *)
  Hypothesis Wbind : forall t0, In t0 W -> bind_is PUnknown t0 = false.
  Hypothesis Wnd : NoDup (map t_uid W).

  (* no bulk-level fault at the tmgr scheduler (see one_truthful_final_refuted) *)
  Definition calm (ev : event) : bool :=
    match ev with EDeliver CTSched _ true => false | _ => true end.

  (* the second case is the body of `finished`, read on the whole trace *)
  Definition task_inv (evs : list event) (g : config) (t0 : task) : Prop :=
    let u := t_uid t0 in
    (exists c, queued u g = [(c, canon c t0)] /\ reach c t0 = true /\ fin_sts u (tr g) = [])
    \/ (queued u g = [] /\ fin_sts u (tr g) <> [] /\
        forallb (tstate_beq (hd T_NEW (fin_sts u (tr g)))) (fin_sts u (tr g)) = true /\
        truthful t0 (ev_cancels u evs) (ev_bulkf evs) (hd T_NEW (fin_sts u (tr g))) = true).

  Record inv (evs : list event) (g : config) : Prop := {
    inv_tok : forall u, ~ In u (map t_uid W) -> queued u g = [];
    inv_task : forall t0, In t0 W -> task_inv evs g t0;
    inv_cl : forall c u, zmem u (cls g c) = true -> ev_cancels u evs = true }.

  Lemma inv_init : inv [] (init W).
  Proof.
    constructor.
    - intros u Hu. rewrite queued_quid. simpl. rewrite quid_map, (only_nil_notin _ _ Hu). reflexivity.
    - intros t0 Hin. left. exists CTSched. rewrite queued_quid. simpl. rewrite quid_map, only_single by assumption.
      unfold reach. cbv zeta. rewrite (Wbind t0 Hin). repeat split.
    - intros; discriminate.
  Qed.

  Lemma inv_canon evs g c t : inv evs g -> In (c, t) (toks g) ->
    exists t0, In t0 W /\ t = canon c t0 /\ reach c t0 = true.
  Proof.
    intros [It Ik _] Hin.
    assert (Hq : In (c, t) (queued (t_uid t) g)) by (apply filter_In; split; [exact Hin|apply Z.eqb_refl]).
    destruct (in_dec Z.eq_dec (t_uid t) (map t_uid W)) as [H|H]; [|rewrite (It _ H) in Hq; contradiction].
    apply in_map_iff in H as (t0 & Hu & Hw). rewrite <- Hu in Hq.
    destruct (Ik t0 Hw) as [(c0 & Eq & Hr & _)|(Eq & _)]; rewrite Eq in Hq; [|contradiction].
    destruct Hq as [Hq|[]]. injection Hq as <- <-. exists t0. auto.
  Qed.

  Lemma inv_once evs g : inv evs g -> once g.
  Proof.
    intros [It Ik _] u. destruct (in_dec Z.eq_dec u (map t_uid W)) as [H|H]; [|rewrite (It u H); simpl; lia].
    apply in_map_iff in H as (t0 & <- & Hw). destruct (Ik t0 Hw) as [(c & -> & _)|(-> & _)]; simpl; lia.
  Qed.

  Lemma task_inv_mono evs ev g t0 : task_inv evs g t0 -> task_inv (evs ++ [ev]) g t0.
  Proof.
    intros [H|(A & B & C & D)]; [left; exact H|right]. repeat split; try assumption.
    rewrite ev_cancels_app, ev_bulkf_app. apply truthful_mono. exact D.
  Qed.

  (* no exception escapes the worker, except the bulk mkdir of tmgr stage-in *)
  Lemma raises_calm evs g c n bf : inv evs g -> calm (EDeliver c n bf) = true ->
    raises c P bf (kept (cls g c) (fst (take n c (toks g)))) = true -> bf = true /\ c = CTIn.
  Proof.
    intros I Hcalm Hr. destruct c; simpl in Hr; try discriminate.
    - subst bf. discriminate.
    - unfold ti_raises in Hr. destruct bf; [split; reflexivity|discriminate].
    - (* every token queued at tmgr stage-out has a target state *)
      exfalso. destruct (take n CTOut (toks g)) as [B rest] eqn:Rt.
      apply existsb_exists in Hr as (t & Ht & Hx). simpl in Ht.
      rewrite (proj1 (intake_filter B _ (once_bulk _ _ _ _ _ (inv_once _ _ I) Rt))) in Ht. apply filter_In in Ht as [Ht _].
      destruct (inv_canon _ _ CTOut t I) as (t0 & _ & -> & _).
      { apply (Permutation_in _ (Permutation_sym (take_perm _ _ _ _ _ Rt))), in_or_app.
        left. apply (in_map (fun t => (CTOut, t))). exact Ht. }
      destruct (to_cls _) eqn:E; try discriminate. exact (exec_tok_tgt t0 (to_cls_raise _ E)).
  Qed.

  Lemma inv_step evs g ev : calm ev = true -> inv evs g -> inv (evs ++ [ev]) (step P g ev).
  Proof.
    intros Hcalm I. pose proof I as [It Ik Ic].
    pose proof (fun u => step_view P g ev u (inv_once _ _ I)) as V. cbv zeta in V.
    constructor.
    - intros u Hu. destruct (V u) as [[-> _]|(c & n & bf & t & _ & E & _)]; [exact (It u Hu)|].
      rewrite (It u Hu) in E. discriminate.
    - intros t0 Hw. unfold task_inv. cbv zeta. set (u := t_uid t0). rewrite (fin_sts_proj u (tr _)).
      destruct (V u) as [[-> ->]|(c & n & bf & t & -> & E & -> & ->)].
      { (* t0 is not served *)
        rewrite <- fin_sts_proj. exact (task_inv_mono evs _ g t0 (Ik t0 Hw)). }
      destruct (Ik t0 Hw) as [(c0 & E0 & Hr & Hf)|(E0 & _)]; fold u in E0; rewrite E0 in E; [|discriminate].
      fold u in Hf. injection E as -> <-. rewrite fin_sts_app, <- fin_sts_proj, Hf. simpl.
      destruct (single_step_any c P t0 (zmem u (cls g c)) (raises c P bf (kept (cls g c) (fst (take n c (toks g)))))
                  (ev_cancels u (evs ++ [EDeliver c n bf])) (ev_bulkf (evs ++ [EDeliver c n bf])) eq_refl Hr)
        as [(Hp & Hr' & Hfs)|(Hp & Hfin)].
      + intro Hm. rewrite ev_cancels_app, (Ic _ _ Hm). reflexivity.
      + intro Hx. destruct (raises_calm _ _ _ _ _ I Hcalm Hx) as [-> ->].
        split; [|reflexivity]. rewrite ev_bulkf_app. apply orb_true_r.
      + left. exists (next c). fold u in Hfs. rewrite Hp, Hfs. auto.
      + right. rewrite Hp. split; [reflexivity|exact Hfin].
    - intros d u Hm. rewrite ev_cancels_app.
      destruct (step_cl _ _ _ _ _ Hm) as [H|H]; [rewrite (Ic _ _ H); reflexivity|rewrite H; apply orb_true_r].
  Qed.

  Theorem inv_run evs : forallb calm evs = true -> inv evs (run P (init W) evs).
  Proof.
    induction evs as [|ev evs IH] using rev_ind; intro Hc; [apply inv_init|].
    rewrite forallb_app in Hc. apply andb_true_iff in Hc as [Hc1 Hc2]. simpl in Hc2.
    rewrite andb_true_r in Hc2. unfold run. rewrite fold_left_app. simpl.
    apply inv_step; [exact Hc2|]. apply IH. exact Hc1.
  Qed.
End Net.

From RP Require States.Inst.

(* TaskManager._update_tasks for one task and one notification (C06 model) *)
Definition client_step (cur tgt : tstate) : tstate := fst (fst (RP.States.Inst.t_notify cur tgt)).
Definition client_state (ns : list tstate) : tstate := fold_left client_step ns T_NEW.

Lemma cs_final cur tgt : is_final cur = false -> is_final tgt = true -> client_step cur tgt = tgt.
Proof. intros Hc Ht. destruct tgt; try discriminate Ht; destruct cur; try discriminate Hc; reflexivity. Qed.
Lemma cs_nonfinal cur tgt : is_final cur = false -> is_final tgt = false -> is_final (client_step cur tgt) = false.
Proof. intros Hc Ht. destruct cur; try discriminate Hc; destruct tgt; try discriminate Ht; reflexivity. Qed.
Lemma cs_sticky cur tgt : is_final cur = true -> client_step cur tgt = cur.
Proof. intro Hc. destruct cur; try discriminate Hc; destruct tgt; reflexivity. Qed.

Lemma client_sticky ns : forall cur, is_final cur = true -> fold_left client_step ns cur = cur.
Proof. induction ns as [|x r IH]; intros cur H; simpl; [reflexivity|]. rewrite cs_sticky by exact H. apply IH. exact H. Qed.

Lemma client_first_final ns s : forall cur,
  is_final cur = false -> In s (filter is_final ns) -> (forall x, In x (filter is_final ns) -> x = s) ->
  fold_left client_step ns cur = s.
Proof.
  induction ns as [|x r IH]; intros cur Hc Hin Hall; simpl in *; [contradiction|].
  destruct (is_final x) eqn:Ex.
  - rewrite (Hall x (or_introl eq_refl)) in *. rewrite cs_final by assumption. apply client_sticky. exact Ex.
  - apply IH; [apply cs_nonfinal|..]; assumption.
Qed.

(* whatever the order in which the notifications about a task arrive: if the
   final states published for it all equal s (and there is one), the client ends in s *)
Theorem client_any_order u es s ns :
  fin_sts u es <> [] -> forallb (tstate_beq s) (fin_sts u es) = true ->
  Permutation (notifications u es) ns -> client_state ns = s.
Proof.
  rewrite fin_sts_filter. intros Hne Hall Hp. apply (perm_filter is_final) in Hp.
  assert (Heq : forall x, In x (filter is_final ns) -> x = s).
  { intros x Hx. apply (Permutation_in _ (Permutation_sym Hp)) in Hx. rewrite forallb_forall in Hall.
    symmetry. apply internal_tstate_dec_bl, Hall, Hx. }
  apply client_first_final; [reflexivity| |exact Heq].
  destruct (filter is_final (notifications u es)) as [|y r]; [congruence|].
  assert (Hy : In y (filter is_final ns)) by (apply (Permutation_in _ Hp); left; reflexivity).
  rewrite <- (Heq y Hy). exact Hy.
Qed.

Definition wf_workload (W : list task) : Prop :=
  NoDup (map t_uid W) /\
  forall t0, In t0 W -> (exists u d f, t0 = fresh u d f) /\ bind_is PUnknown t0 = false.

Lemma run_task_inv thr W evs t0 :
  wf_workload W -> forallb calm evs = true -> In t0 W ->
  task_inv evs (run (mkP true thr) (init W) evs) t0.
Proof. intros [Hnd Hw] Hc. apply (inv_run thr W (fun t H => proj2 (Hw t H)) Hnd evs Hc). Qed.

(* at every moment every accepted task is either queued exactly once, intact,
   and has no final state yet -- or is queued nowhere and has its final state *)
Theorem never_lost thr W evs t0 :
  wf_workload W -> forallb calm evs = true -> In t0 W ->
  let g := run (mkP true thr) (init W) evs in
  (exists c, queued (t_uid t0) g = [(c, canon c t0)] /\ final_pubs (t_uid t0) (tr g) = [])
  \/ (queued (t_uid t0) g = [] /\ final_pubs (t_uid t0) (tr g) <> []).
Proof.
  intros Hwf Hc Hin g. destruct (run_task_inv thr W evs t0 Hwf Hc Hin) as [(c & A & _ & B)|(A & B & _)].
  - left. exists c. split; [exact A|]. apply map_eq_nil in B. exact B.
  - right. split; [exact A|]. intro E. apply B. unfold fin_sts. fold g. rewrite E. reflexivity.
Qed.

(* _partial: progress is the hypothesis `queued u g = []`; without `calm` the statement
   fails (one_truthful_final_refuted) *)
Theorem one_truthful_final_partial thr W evs t0 :
  wf_workload W -> forallb calm evs = true -> In t0 W ->
  let g := run (mkP true thr) (init W) evs in
  let u := t_uid t0 in
  queued u g = [] ->
  exists s,
    fin_sts u (tr g) <> [] /\ (forall x, In x (fin_sts u (tr g)) -> x = s) /\
    truthful t0 (ev_cancels u evs) (ev_bulkf evs) s = true /\
    forall ns, Permutation (notifications u (tr g)) ns -> client_state ns = s.
Proof.
  intros Hwf Hc Hin g u Hq. destruct (run_task_inv thr W evs t0 Hwf Hc Hin) as [(c & A & _)|(_ & B & C & D)].
  - fold g u in A. rewrite Hq in A. discriminate.
  - fold g u in B, C, D. exists (hd T_NEW (fin_sts u (tr g))). split; [exact B|]. split; [|split; [exact D|]].
    + intros x Hx. rewrite forallb_forall in C. symmetry. apply internal_tstate_dec_bl. apply C. exact Hx.
    + intros ns Hp. eapply client_any_order; eassumption.
Qed.

(* isolation, network level: a task with no fault of its own, exit code 0 and
   no cancel request ends DONE whatever happens to the other tasks, whatever
   the bulks and the delivery order (no bulk-level fault injected) *)
Theorem fault_isolation thr W evs t0 :
  wf_workload W -> forallb calm evs = true -> In t0 W ->
  let g := run (mkP true thr) (init W) evs in
  let u := t_uid t0 in
  queued u g = [] ->
  any_fault t0 = false -> f_exec (t_f t0) = XExit 0 ->
  ev_cancels u evs = false -> ev_bulkf evs = false ->
  forall x, In x (fin_sts u (tr g)) -> x = T_DONE.
Proof.
  intros Hwf Hc Hin g u Hq Haf Hx Hcr Hbf x Hxin.
  destruct (one_truthful_final_partial thr W evs t0 Hwf Hc Hin Hq) as (s & _ & Hall & Ht & _).
  fold g u in Hall, Ht. rewrite (Hall x Hxin). rewrite Hcr, Hbf in Ht.
  destruct s; try discriminate Ht; try reflexivity; unfold truthful in Ht; rewrite ?Haf, ?Hx in Ht.
  - cbn in Ht. discriminate.
  - unfold any_fault in Haf. destruct (f_sched (t_f t0)); [cbn in Ht; discriminate| |];
      repeat (apply orb_false_iff in Haf; destruct Haf as [Haf ?]); congruence.
Qed.

(* the stations that catch per task (C05_fault_isolation_station, in Props/C05.v) *)
Definition catches_per_task (c : comp) : bool :=
  match c with CTSched | CTIn | CTOut => false | _ => true end.

Definition releases_of (es : list emi) : nat :=
  length (filter (fun e => match e with Unsched _ => true | _ => false end) es).

(* a task canceled by the cancel filter at the executor's intake is published
   CANCELED and then released (Popen.is_canceled) *)
Theorem aexec_intake_cancel_releases P cl B bf t :
  NoDup (map t_uid B) -> In t B -> zmem (t_uid t) cl = true ->
  proj (t_uid t) (snd (work_cb CAExec P cl B bf)) = [pubf (cancel t); Unsched (t_uid t)].
Proof.
  intros Hnd Hin Hm. rewrite work_cb_proj by assumption. rewrite Hm, only_single by assumption. reflexivity.
Qed.

(* whatever happens to a task at the executor station -- canceled at the
   intake, no launcher, launch error, exit, cancel, timeout -- its slots are
   released exactly once *)
Theorem aexec_releases_once P cl B bf t :
  NoDup (map t_uid B) -> In t B ->
  releases_of (proj (t_uid t) (snd (work_cb CAExec P cl B bf))) = 1%nat.
Proof.
  intros Hnd Hin. rewrite work_cb_proj by assumption. rewrite only_single by assumption.
  unfold seen. destruct (zmem (t_uid t) cl); [reflexivity|].
  cbn. destruct (f_exec (t_f t)); reflexivity.
Qed.

(* the full statement fails: a bulk-level exception at the tmgr scheduler
   (its _work raises) after an early-bound task of the same bulk was pushed *)
Definition wit_W : list task :=
  [ fresh 1 (mkD PKnown false false false false false) (mkF false false false SStart (XExit 0) false false false);
    fresh 2 (mkD PNone false false false false false) (mkF false false false SStart (XExit 0) false false false) ].
Definition wit_evs : list event :=
  EDeliver CTSched 2 true
  :: map (fun c => EDeliver c 2 false) [CTIn; CA0In; CAIn; CASched; CAExec; CAOut; CA0Out; CTOut].

Theorem one_truthful_final_refuted :
  exists W evs, wf_workload W /\
    let g := run (mkP true 1000) (init W) evs in
    toks g = [] /\ fin_sts 1 (tr g) = [T_FAILED; T_DONE].
Proof.
  exists wit_W, wit_evs. split.
  - split.
    + repeat constructor; simpl; intuition discriminate.
    + intros t0 [<-|[<-|[]]]; (split; [do 3 eexists; reflexivity|reflexivity]).
  - vm_compute. split; reflexivity.
Qed.
