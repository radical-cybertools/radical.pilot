(* C05 -- the staging model lifted to the pipeline: a task that ends DONE had
   every staging directive of every stager succeed, and a directive that
   succeeds found its source and leaves its target. *)
From Coq Require Import ZArith List Bool.
From RP Require Import Gen.StatesTables Pipeline.Model Pipeline.Stage Pipeline.Oracle Pipeline.Proofs.
Import ListNotations.

Lemma get_set_same p k tr : get p (set p k tr) = k.
Proof. unfold set. simpl. rewrite Z.eqb_refl. reflexivity. Qed.
Lemma get_set_other p q k tr : q <> p -> get p (set q k tr) = get p tr.
Proof. intro H. unfold set. simpl. replace (q =? p) with false by (symmetry; apply Z.eqb_neq; exact H). reflexivity. Qed.

Lemma apply_sd_sound tr d tr' :
  sd_src d <> sd_tgt d -> apply_sd tr d = Some tr' ->
  present (get (sd_src d) tr) = true /\
  (is_tar d = false -> present (get (sd_tgt d) tr') = true).
Proof.
  intros Hne H. unfold apply_sd in H. split.
  - (* without a source every action raises *)
    destruct (sd_act d), (get (sd_src d) tr); try discriminate H; reflexivity.
  - (* what is written at the target is a file or a directory; a move then clears the source, another path *)
    unfold is_tar. destruct (sd_act d); try discriminate; intros _;
      destruct (get (sd_src d) tr) as [| |cs|]; try discriminate H;
      destruct (get (sd_tgt d) tr) as [| |ch|]; try discriminate H;
      try (destruct (zmem (sd_src d) ch); [discriminate H|]);
      injection H as <-; rewrite ?(get_set_other _ _ _ _ Hne), get_set_same; reflexivity.
Qed.

Definition distinct_ends (l : list sdir) : Prop := forall d, In d l -> sd_src d <> sd_tgt d.

(* a list of directives that succeeds: every directive, at the moment it is
   enacted, finds its source and leaves its target *)
Theorem run_sds_sound l : forall tr tr',
  distinct_ends l -> run_sds tr l = Some tr' ->
  forall a d b, l = a ++ d :: b ->
    exists ta tb, run_sds tr a = Some ta /\ apply_sd ta d = Some tb /\
      present (get (sd_src d) ta) = true /\ (is_tar d = false -> present (get (sd_tgt d) tb) = true).
Proof.
  induction l as [|x r IH]; intros tr tr' Hd H a d b E.
  - destruct a; discriminate.
  - simpl in H. destruct (apply_sd tr x) as [t1|] eqn:Ex; [|discriminate].
    destruct a as [|y a]; simpl in E; injection E as -> ->.
    + exists tr, t1. split; [reflexivity|]. split; [exact Ex|].
      apply (apply_sd_sound tr d t1); [apply Hd; left; reflexivity|exact Ex].
    + destruct (IH t1 tr' (fun z Hz => Hd z (or_intror Hz)) H a d b eq_refl) as (ta & tb & A & B & C).
      exists ta, tb. simpl. rewrite Ex. split; [exact A|]. split; [exact B|exact C].
Qed.

(* what a stager enacts through the backend, and what tmgr stage-in packs first *)
Definition enacted (c : comp) (l : list sdir) : list sdir :=
  match c with
  | CTIn => filter (fun d => negb (is_tar d)) (filter (actionable c) l)
  | _ => filter (actionable c) l
  end.
Definition packed (c : comp) (l : list sdir) : list sdir :=
  match c with CTIn => filter is_tar (filter (actionable c) l) | _ => [] end.

Lemma run_stage_enacted c tr l :
  run_stage c tr l = if forallb (fun d => present (get (sd_src d) tr)) (packed c l)
                     then run_sds tr (enacted c l) else None.
Proof. destruct c; reflexivity. Qed.

Lemma stage_ok_enacted c tr l :
  stage_ok c tr l = true ->
  (exists tr', run_sds tr (enacted c l) = Some tr') /\
  forall d, In d (packed c l) -> present (get (sd_src d) tr) = true.
Proof.
  unfold stage_ok. rewrite run_stage_enacted. destruct (forallb _ _) eqn:F; [|discriminate].
  destruct (run_sds tr _) as [t1|]; [|discriminate]. intros _.
  split; [exists t1; reflexivity|]. apply forallb_forall. exact F.
Qed.

Lemma not_needed_ok c tr l : stage_needed c l = false -> stage_ok c tr l = true.
Proof.
  unfold stage_needed, stage_ok, run_stage. destruct (filter (actionable c) l); [|discriminate].
  intros _. destruct c; reflexivity.
Qed.

Lemma staging_flag_off c tr l : stage_needed c l && negb (stage_ok c tr l) = false -> stage_ok c tr l = true.
Proof.
  destruct (stage_needed c l) eqn:N; simpl; [apply negb_false_iff|]. intros _. apply not_needed_ok. exact N.
Qed.

(* DONE tells the truth about staging: every stager's directives succeeded *)
Theorem done_implies_staged u b soe fa fo fs fx tin ain aout tout creq bulkf :
  truthful (staged_task u b soe fa fo fs fx tin ain aout tout) creq bulkf T_DONE = true ->
  stage_ok CTIn (sp_tr tin) (sp_l tin) = true /\ stage_ok CAIn (sp_tr ain) (sp_l ain) = true /\
  stage_ok CAOut (sp_tr aout) (sp_l aout) = true /\ stage_ok CTOut (sp_tr tout) (sp_l tout) = true.
Proof.
  intro H. unfold truthful in H. apply andb_true_iff in H as [_ H]. apply negb_true_iff in H.
  unfold any_fault, staged_task, fresh in H. cbn in H.
  repeat (apply orb_false_iff in H; destruct H as [H ?]).
  repeat split; apply staging_flag_off; assumption.
Qed.

(* ... for every workload, fault placement and delivery schedule: if the one
   final state of a task is DONE then all its staging succeeded *)
Theorem done_means_staging_succeeded thr W evs u b soe fa fo fs fx tin ain aout tout :
  let t0 := staged_task u b soe fa fo fs fx tin ain aout tout in
  wf_workload W -> forallb calm evs = true -> In t0 W ->
  let g := run (mkP true thr) (init W) evs in
  queued u g = [] ->
  (forall x, In x (fin_sts u (tr g)) -> x = T_DONE) ->
  stage_ok CTIn (sp_tr tin) (sp_l tin) = true /\ stage_ok CAIn (sp_tr ain) (sp_l ain) = true /\
  stage_ok CAOut (sp_tr aout) (sp_l aout) = true /\ stage_ok CTOut (sp_tr tout) (sp_l tout) = true.
Proof.
  intros t0 Hwf Hc Hin g Hq Hdone.
  destruct (one_truthful_final_partial thr W evs t0 Hwf Hc Hin Hq) as (s & Hne & Hall & Ht & _).
  change (t_uid t0) with u in *. fold g in Hne, Hall.
  destruct (fin_sts u (tr g)) as [|x r] eqn:E; [congruence|].
  assert (x = s) by (apply Hall; left; reflexivity).
  assert (x = T_DONE) by (apply Hdone; left; reflexivity). subst x. subst s.
  eapply done_implies_staged. exact Ht.
Qed.
