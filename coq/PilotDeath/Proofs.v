(* The pilot-death callback has a closed form: every task is treated on its
   own, failed, naming its pilot, iff it is not final and its pilot is reported
   final.  That own tasks are failed and all others untouched, that the order in
   which pilots end does not matter, and the oracle clauses on every history
   (with task progress, re-binding, close and terminate steps in between) follow from it. *)
From Coq Require Import ZArith List Bool.
From RP Require Import Common.Eqb Common.ListFacts Gen.StatesTables PilotDeath.Model PilotDeath.Oracle.
Import ListNotations.
Open Scope Z_scope.

Definition closed_form (ps : list (Z * pstate)) (t : task) : task :=
  if own ps t then failed t else t.

Lemma dies_app ps qs q : dies (ps ++ qs) q = dies ps q || dies qs q.
Proof. unfold dies. apply existsb_app. Qed.

Lemma own_app ps qs t : own (ps ++ qs) t = own ps t || own qs t.
Proof.
  unfold own. destruct (negb (t_final (t_state t))); simpl; [|reflexivity].
  destruct (t_pilot t); [apply dies_app | reflexivity].
Qed.

Lemma own_nil t : own [] t = false.
Proof. unfold own. destruct (t_pilot t); apply andb_false_r. Qed.

Lemma own_final ps t : t_final (t_state t) = true -> own ps t = false.
Proof. intro H. unfold own. rewrite H. reflexivity. Qed.

(* the test the loop makes for one pilot, and what it does to one task *)
Definition own1 (pid : Z) (t : task) : bool := bound_to pid t && negb (t_final (t_state t)).
Definition fail1 (pid : Z) (t : task) : task :=
  if own1 pid t then mkT (t_uid t) T_FAILED (t_pilot t) (Some pid) else t.

Lemma own_single pid st t : own [(pid, st)] t = p_final st && own1 pid t.
Proof.
  unfold own, own1, dies, bound_to. destruct (t_pilot t) as [q|]; simpl; [|rewrite !andb_false_r; reflexivity].
  rewrite orb_false_r, (Z.eqb_sym pid q).
  destruct (q =? pid), (p_final st), (t_final (t_state t)); reflexivity.
Qed.

Lemma closed_form_nil t : closed_form [] t = t.
Proof. unfold closed_form. rewrite own_nil. reflexivity. Qed.

Lemma map_closed_form_nil ts : map (closed_form []) ts = ts.
Proof. rewrite <- (map_id ts) at 2. apply map_ext, closed_form_nil. Qed.

(* a failed task is final: later pilots leave it alone *)
Lemma closed_form_app ps qs t : closed_form qs (closed_form ps t) = closed_form (ps ++ qs) t.
Proof.
  unfold closed_form at 2 3. rewrite own_app. destruct (own ps t); simpl; [|reflexivity].
  unfold closed_form. rewrite own_final; reflexivity.
Qed.

Lemma fail1_closed pid st t : (if p_final st then fail1 pid t else t) = closed_form [(pid, st)] t.
Proof.
  unfold closed_form, fail1. rewrite own_single. destruct (p_final st); [simpl | reflexivity].
  destruct (own1 pid t) eqn:H; [|reflexivity].
  unfold own1, bound_to in H. unfold failed. destruct (t_pilot t) as [q|]; [|discriminate].
  apply andb_true_iff in H as [H _]. apply Z.eqb_eq in H. subst q. reflexivity.
Qed.

Lemma nonfinal_not_failed_done s :
  t_final s = false -> tstate_beq s T_FAILED || tstate_beq s T_DONE = false.
Proof. destruct s; vm_compute; congruence. Qed.

Lemma update_failed_nonfinal pid t :
  t_final (t_state t) = false -> update_failed pid t = mkT (t_uid t) T_FAILED (t_pilot t) (Some pid).
Proof. intro H. unfold update_failed. rewrite (nonfinal_not_failed_done _ H). reflexivity. Qed.

(* what one final pilot hands to advance() *)
Definition advf (pid : Z) (ts : list task) : list (Z * tstate) :=
  map (fun t => (t_uid t, T_FAILED)) (filter (own1 pid) ts).

Lemma fail_loop_eq pid ts : fail_loop pid ts = (map (fail1 pid) ts, advf pid ts).
Proof.
  induction ts as [|t r IH]; [reflexivity|]. simpl. rewrite IH. unfold fail1, advf, own1. simpl.
  destruct (bound_to pid t); simpl; [|reflexivity].
  destruct (t_final (t_state t)) eqn:H; simpl; [reflexivity|].
  rewrite (update_failed_nonfinal _ _ H). reflexivity.
Qed.

Lemma cb_pilots_cons pid st r ts :
  cb_pilots ((pid, st) :: r) ts =
  if p_final st
  then (fst (cb_pilots r (map (fail1 pid) ts)), advf pid ts :: snd (cb_pilots r (map (fail1 pid) ts)))
  else cb_pilots r ts.
Proof.
  simpl. rewrite fail_loop_eq. destruct (p_final st); [|reflexivity].
  destruct (cb_pilots r (map (fail1 pid) ts)); reflexivity.
Qed.

Lemma cb_pilots_closed ps : forall ts, fst (cb_pilots ps ts) = map (closed_form ps) ts.
Proof.
  induction ps as [|[pid st] r IH]; intro ts.
  - symmetry. apply map_closed_form_nil.
  - rewrite cb_pilots_cons.
    transitivity (map (closed_form r) (map (fun t => if p_final st then fail1 pid t else t) ts)).
    { destruct (p_final st); [apply IH | rewrite map_id; apply IH]. }
    rewrite map_map. apply map_ext. intro t. rewrite fail1_closed.
    apply (closed_form_app [(pid, st)] r).
Qed.

Lemma cb_result m ps :
  pilot_state_cb m ps =
  if negb (m_terminating m) && negb (m_closed m)
  then (mkM false false (map (closed_form ps) (m_tasks m)), true, snd (cb_pilots ps (m_tasks m)))
  else (m, negb (m_terminating m), []).
Proof.
  destruct m as [te cl ts]. unfold pilot_state_cb. simpl.
  destruct te; [reflexivity|]. destruct cl; [reflexivity|]. simpl.
  rewrite <- cb_pilots_closed. destruct (cb_pilots ps ts); reflexivity.
Qed.

(* own tasks: bound to a pilot reported final, not yet final  ==>  FAILED,
   with an explanation naming that pilot; nothing else about the task changes *)
Theorem own_tasks_failed ps t pid st :
  t_pilot t = Some pid -> In (pid, st) ps -> p_final st = true -> t_final (t_state t) = false ->
  closed_form ps t = mkT (t_uid t) T_FAILED (Some pid) (Some pid).
Proof.
  intros Hq Hin Hp Hfin. unfold closed_form, own. rewrite Hfin, Hq. simpl.
  assert (D : dies ps pid = true).
  { unfold dies. apply existsb_exists. exists (pid, st). simpl. rewrite Z.eqb_refl, Hp. auto. }
  rewrite D. unfold failed. rewrite Hq. reflexivity.
Qed.

(* all others: unbound, already final, or bound to a pilot not reported final *)
Theorem others_untouched ps t :
  t_pilot t = None \/ t_final (t_state t) = true \/
  (forall pid st, t_pilot t = Some pid -> In (pid, st) ps -> p_final st = false) ->
  closed_form ps t = t.
Proof.
  intros [H | [H | H]]; unfold closed_form, own.
  - rewrite H, andb_false_r. reflexivity.
  - rewrite H. reflexivity.
  - destruct (t_pilot t) as [q|] eqn:Hq; [|rewrite andb_false_r; reflexivity].
    assert (D : dies ps q = false).
    { unfold dies. apply not_true_is_false. intro E. apply existsb_exists in E as [[p st] [Hin E]].
      simpl in E. apply andb_true_iff in E as [E1 E2]. apply Z.eqb_eq in E1. subst p.
      rewrite (H q st eq_refl Hin) in E2. discriminate. }
    rewrite D, andb_false_r. reflexivity.
Qed.

(* any sequence of invocations (pilots ending one by one, in groups, in any
   order, reported repeatedly) on an active manager: the outcome is the closed
   form for the pilots reported final anywhere in the sequence *)
Theorem history_closed_form (calls : list (list (Z * pstate))) : forall ts,
  m_tasks (run_end (mkM false false ts) (map OCb calls)) = map (closed_form (concat calls)) ts.
Proof.
  induction calls as [|ps r IH]; intro ts.
  - symmetry. apply map_closed_form_nil.
  - simpl map. cbn [run_end]. rewrite cb_result. cbn [m_terminating m_closed negb andb fst m_tasks].
    rewrite IH, map_map. apply map_ext. intro t. apply closed_form_app.
Qed.

(* hence the order does not matter: two histories that report the same pilots
   final lead to the same tasks *)
Theorem order_irrelevant (calls calls' : list (list (Z * pstate))) ts :
  (forall q, dies (concat calls) q = dies (concat calls') q) ->
  m_tasks (run_end (mkM false false ts) (map OCb calls)) =
  m_tasks (run_end (mkM false false ts) (map OCb calls')).
Proof.
  intro H. rewrite !history_closed_form. apply map_ext. intro t.
  unfold closed_form, own. destruct (t_pilot t) as [q|]; [rewrite H|]; reflexivity.
Qed.

Lemma task_eqb_refl t : task_eqb t t = true.
Proof.
  unfold task_eqb. rewrite Z.eqb_refl, !(eqb_option_refl _ Z.eqb_refl). destruct (t_state t); reflexivity.
Qed.

Lemma ok_own_model ps ts :
  ok_own true ps ts (map (closed_form ps) ts) = true.
Proof.
  unfold ok_own. simpl.
  rewrite map_length, Nat.eqb_refl. simpl. apply combine_map_forallb. intros t _. simpl.
  unfold closed_form. destruct (own ps t); simpl; [apply task_eqb_refl | reflexivity].
Qed.

Lemma ok_others_model active ps ts :
  ok_others active ps ts (if active then map (closed_form ps) ts else ts) = true.
Proof.
  unfold ok_others. destruct active.
  - rewrite map_length, Nat.eqb_refl. simpl. apply combine_map_forallb. intros t _. simpl.
    unfold closed_form. destruct (own ps t); simpl; [reflexivity | apply task_eqb_refl].
  - rewrite Nat.eqb_refl. simpl. rewrite <- (map_id ts) at 2.
    apply combine_map_forallb. intros t _. simpl. apply task_eqb_refl.
Qed.

Lemma cb_pilots_adv ps : forall ts e,
  In e (concat (snd (cb_pilots ps ts))) <->
  exists t, In t ts /\ own ps t = true /\ e = (t_uid t, T_FAILED).
Proof.
  induction ps as [|[pid st] r IH]; intros ts e.
  - split; [intros [] | intros [t [_ [H _]]]; rewrite own_nil in H; discriminate].
  - rewrite cb_pilots_cons. destruct (p_final st) eqn:Hp.
    + cbn [snd concat]. rewrite in_app_iff, IH. unfold advf. rewrite in_map_iff. split.
      * intros [[t [<- Ht]] | [t' [Ht' [Ho ->]]]].
        -- apply filter_In in Ht as [Ht Ho]. exists t. rewrite (own_app [(pid, st)] r), own_single, Hp, Ho. auto.
        -- apply in_map_iff in Ht' as [t [<- Ht]]. exists t. unfold fail1 in *.
           rewrite (own_app [(pid, st)] r). destruct (own1 pid t) eqn:Ho1.
           ++ rewrite own_final in Ho by reflexivity. discriminate.
           ++ rewrite Ho, orb_true_r. auto.
      * intros [t [Ht [Ho ->]]]. rewrite (own_app [(pid, st)] r), own_single, Hp in Ho.
        destruct (own1 pid t) eqn:Ho1.
        -- left. exists t. split; [reflexivity | apply filter_In; auto].
        -- right. exists t. split; [|auto]. apply in_map_iff. exists t. unfold fail1. rewrite Ho1. auto.
    + rewrite IH. split; intros [t [Ht [Ho ->]]]; exists t;
        rewrite (own_app [(pid, st)] r), own_single, Hp in *; auto.
Qed.

Lemma ok_reported_model ps ts :
  ok_reported true ps ts (map (closed_form ps) ts) (snd (cb_pilots ps ts)) = true.
Proof.
  unfold ok_reported. apply andb_true_iff. split.
  - simpl. apply forallb_forall. intros t Ht.
    destruct (own ps t) eqn:Ho; [simpl | reflexivity].
    apply existsb_exists. exists (t_uid t, T_FAILED). split.
    + apply cb_pilots_adv. exists t. auto.
    + simpl. rewrite Z.eqb_refl. reflexivity.
  - apply forallb_forall. intros e He. apply cb_pilots_adv in He as [t [Ht [Ho ->]]].
    apply existsb_exists. exists (closed_form ps t). split; [apply in_map; exact Ht|].
    unfold closed_form. rewrite Ho. simpl. rewrite Z.eqb_refl. reflexivity.
Qed.

Theorem history_clauses (ops : list op) : forall m,
  ok_history m ops (run m ops) = [true; true; true].
Proof.
  induction ops as [|o r IH]; intro m; [reflexivity|].
  destruct o as [ps|u s p| |]; try (simpl; apply IH).
  cbn [run]. rewrite cb_result.
  destruct (negb (m_terminating m) && negb (m_closed m)) eqn:Hact; cbn [ok_history]; rewrite Hact.
  - apply andb_true_iff in Hact as [H1 H2]. apply negb_true_iff in H1, H2. rewrite H1, H2.
    cbn [m_tasks]. rewrite IH. cbn [nth].
    rewrite ok_own_model, (ok_others_model true), ok_reported_model. reflexivity.
  - replace (mkM (m_terminating m) (m_closed m) (m_tasks m)) with m by (destruct m; reflexivity).
    rewrite IH. cbn [nth]. rewrite (ok_others_model false). reflexivity.
Qed.

