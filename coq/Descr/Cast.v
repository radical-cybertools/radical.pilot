(* TypedDict's type pass is idempotent: every successful cast gives a value that the same
   cast leaves alone, from scalars up to whole descriptions. *)
From Coq Require Import List.
From RP Require Import Descr.Types Descr.Model Descr.Dict.
Import ListNotations.

Lemma option_map_inv {A B} (f : A -> B) o b :
  option_map f o = Some b -> exists a, o = Some a /\ b = f a.
Proof. destruct o as [a|]; [|discriminate]. intro H; injection H as <-. exists a; split; reflexivity. Qed.

(* every successful cast gives a value of the target type, and those are left alone *)
Lemma cast_atom_idem t a a' : cast_atom t a = Some a' -> cast_atom t a' = Some a'.
Proof.
  destruct a as [|b|z|h|s], t; simpl; intro H;
    (injection H as <- || apply option_map_inv in H as (y & _ & ->)); reflexivity.
Qed.

Lemma cast_elem_idem t a a' : cast_elem t a = Some a' -> cast_elem t a' = Some a'.
Proof. destruct t as [t|]; simpl; [apply cast_atom_idem|intro H; injection H as <-; reflexivity]. Qed.

Lemma cast_elems_idem t l : forall l', cast_elems t l = Some l' -> cast_elems t l' = Some l'.
Proof.
  induction l as [|a r IH]; simpl; intros l' H; [injection H as <-; reflexivity|].
  destruct (cast_elem t a) as [a'|] eqn:Ea; [|discriminate].
  destruct (cast_elems t r) as [r'|] eqn:Er; [|discriminate].
  injection H as <-. simpl. rewrite (cast_elem_idem _ _ _ Ea), (IH _ eq_refl); reflexivity.
Qed.

Lemma cast_items_idem t l : forall l', cast_items t l = Some l' -> cast_items t l' = Some l'.
Proof.
  induction l as [|[k a] r IH]; simpl; intros l' H; [injection H as <-; reflexivity|].
  destruct (cast_elem t a) as [a'|] eqn:Ea; [|discriminate].
  destruct (cast_items t r) as [r'|] eqn:Er; [|discriminate].
  injection H as <-. simpl. rewrite (cast_elem_idem _ _ _ Ea), (IH _ eq_refl); reflexivity.
Qed.

Lemma cast_FAtom t a :
  cast (FAtom t) (VA a) = match cast_atom t a with Some a' => inr (VA a') | None => inl TypeError end.
Proof. destruct a; reflexivity. Qed.

Lemma cast_FList_VL t l :
  cast (FList t) (VL l) = match cast_elems t l with Some l' => inr (VL l') | None => inl TypeError end.
Proof. reflexivity. Qed.

Lemma cast_FList_VA t a : a <> ANone -> cast (FList t) (VA a) = cast (FList t) (VL [a]).
Proof. destruct a; intro H; try reflexivity; congruence. Qed.

(* where cast goes through an idempotent component cast c, what it returns is left alone *)
Lemma lift_idem {A} (c : A -> option A) (w : A -> val) (k : val -> perr + val) x v' :
  (forall y y', c y = Some y' -> c y' = Some y') ->
  (forall y, k (w y) = match c y with Some y' => inr (w y') | None => inl TypeError end) ->
  k (w x) = inr v' -> k v' = inr v'.
Proof.
  intros Hi Hk. rewrite Hk. destruct (c x) as [y|] eqn:E; [|discriminate].
  intro H; injection H as <-. rewrite Hk, (Hi _ _ E). reflexivity.
Qed.

Lemma cast_idem t v v' : cast t v = inr v' -> cast t v' = inr v'.
Proof.
  destruct t as [t'|t'|tk tv|c].
  - destruct v as [a|l|l]; [|destruct t'; discriminate..].
    apply (lift_idem (cast_atom t') VA); [apply cast_atom_idem|apply cast_FAtom].
  - assert (HL : forall l, cast (FList t') (VL l) = inr v' -> cast (FList t') v' = inr v')
      by (intro l; apply (lift_idem (cast_elems t') VL); [apply cast_elems_idem|apply cast_FList_VL]).
    destruct v as [[|b|z|h|s]|l|l]; try (rewrite cast_FList_VA by discriminate; apply HL).
    + intro H; injection H as <-; reflexivity.
    + apply HL.
    + discriminate.
  - destruct v as [[|b|z|h|s]|l|l]; try discriminate; [intro H; injection H as <-; reflexivity|].
    destruct tk as [[| | |]|]; try discriminate;
      (apply (lift_idem (cast_items tv) VD); [apply cast_items_idem|reflexivity]).
  - destruct v as [[|b|z|h|s]|[|x l]|l]; try discriminate; intro H; injection H as <-; reflexivity.
Qed.

Lemma cast_conv_stable c ts td v :
  match c with CId => ts = td | CFloat => ts = TInt /\ td = TFloat end ->
  cast (FAtom ts) v = inr v -> cast (FAtom td) (conv_val c v) = inr (conv_val c v).
Proof.
  intros Hc Hv. destruct c; simpl.
  - subst; exact Hv.
  - destruct Hc as [-> ->]. destruct v as [x|l|l]; try discriminate.
    rewrite cast_FAtom in Hv. destruct x as [|b|z|h|s]; simpl in *; try reflexivity; try discriminate.
    destruct (parse_int s); discriminate.
Qed.

Lemma typecheck_cons sch k v r d' :
  typecheck sch ((k, v) :: r) = inr d' ->
  exists t v' r', lookup k sch = Some t /\ cast t v = inr v' /\ typecheck sch r = inr r'
                  /\ d' = (k, v') :: r'.
Proof.
  simpl. destruct (lookup k sch) as [t|]; [|discriminate].
  destruct (cast t v) as [e|v'] eqn:Ec; [discriminate|].
  destruct (typecheck sch r) as [e|r'] eqn:Er; [discriminate|].
  intro H; injection H as <-. exists t, v', r'; repeat split; assumption.
Qed.

Lemma typecheck_idem sch d : forall d1, typecheck sch d = inr d1 -> typecheck sch d1 = inr d1.
Proof.
  induction d as [|[k v] r IH]; intros d1 H.
  - injection H as <-; reflexivity.
  - apply typecheck_cons in H as (t & v' & r' & Hl & Hc & Hr & ->).
    simpl. rewrite Hl, (cast_idem _ _ _ Hc), (IH _ Hr); reflexivity.
Qed.

Lemma typecheck_set sch k t v : forall d,
  typecheck sch d = inr d -> lookup k sch = Some t -> cast t v = inr v ->
  typecheck sch (set k v d) = inr (set k v d).
Proof.
  induction d as [|[k0 v0] r IH]; intros H Hk Hc.
  - simpl. rewrite Hk, Hc; reflexivity.
  - pose proof H as H'. apply typecheck_cons in H' as (t0 & v' & r' & Hl & Hc0 & Hr & He).
    injection He as <- <-.
    simpl. destruct (String.eqb_spec k k0) as [->|Hne].
    + simpl. rewrite Hk, Hc, Hr; reflexivity.
    + simpl. rewrite Hl, Hc0, (IH Hr Hk Hc); reflexivity.
Qed.

Lemma typecheck_keys sch d : forall d1, typecheck sch d = inr d1 -> map fst d1 = map fst d.
Proof.
  induction d as [|[k v] r IH]; intros d1 H.
  - injection H as <-; reflexivity.
  - apply typecheck_cons in H as (t & v' & r' & Hl & Hc & Hr & ->).
    simpl. rewrite (IH _ Hr); reflexivity.
Qed.

Lemma typecheck_getv sch d : forall d1 k t,
  typecheck sch d = inr d1 -> lookup k sch = Some t -> cast t (getv k d) = inr (getv k d1).
Proof.
  induction d as [|[k0 v] r IH]; intros d1 k t H Hk.
  - injection H as <-. reflexivity.
  - apply typecheck_cons in H as (t0 & v' & r' & Hl & Hc & Hr & ->).
    rewrite !getv_cons. destruct (String.eqb_spec k k0) as [->|Hne].
    + rewrite Hl in Hk; injection Hk as <-. exact Hc.
    + apply (IH _ _ _ Hr Hk).
Qed.
