(* The stages of TaskDescription._verify after the type pass, for any table, each known by
   what getv reads after it; fold_alias is the closed form of the alias pass. *)
From Coq Require Import List.
From RP Require Import Common.ListFacts Descr.Types Descr.Model Descr.Dict.

(* alias blocks that can be read one by one: none writes a name that another, or itself,
   reads, and each resets the name it read *)
Definition good (l : list alias) : Prop :=
  NoDup (map a_src l) /\ NoDup (map a_dst l)
  /\ (forall a b, In a l -> In b l -> a_src a <> a_dst b)
  /\ (forall a, In a l -> a_rfld a = a_src a).

Lemma good_tail a l : good (a :: l) -> good l.
Proof.
  intros (H1 & H2 & H3 & H4). simpl in H1, H2. inversion H1; inversion H2; subst.
  repeat split; try assumption.
  - intros x y Hx Hy; apply H3; right; assumption.
  - intros x Hx; apply H4; right; assumption.
Qed.

Lemma alias_step_other d a k :
  k <> a_dst a -> k <> a_rfld a -> getv k (alias_step d a) = getv k d.
Proof.
  intros H1 H2. unfold alias_step. destruct (truthy (getv (a_src a) d)); [|reflexivity].
  rewrite getv_set_other by congruence. rewrite getv_set_other by congruence. reflexivity.
Qed.

Lemma fold_other l d k :
  (forall a, In a l -> k <> a_dst a /\ k <> a_rfld a) ->
  getv k (fold_left alias_step l d) = getv k d.
Proof.
  intro H. apply (fold_left_inv alias_step (fun x => getv k x = getv k d)); [|reflexivity].
  intros x a Ha <-. apply alias_step_other; apply (H a Ha).
Qed.

(* two aliases of a good list do not write each other's source or replacement *)
Lemma good_head b r c :
  good (b :: r) -> In c r ->
  a_src b <> a_dst c /\ a_src b <> a_src c /\ a_dst b <> a_dst c /\ a_dst b <> a_src c.
Proof.
  intros (H1 & H2 & H3 & _) Hc. simpl in H1, H2.
  inversion H1 as [|? ? Hn1 _]; inversion H2 as [|? ? Hn2 _]; subst. repeat split.
  - apply H3; [left; reflexivity|right; exact Hc].
  - intro He. apply Hn1. rewrite He. apply in_map; exact Hc.
  - intro He. apply Hn2. rewrite He. apply in_map; exact Hc.
  - intro He. apply (H3 c b); [right; exact Hc|left; reflexivity|]. symmetry; exact He.
Qed.

Lemma alias_step_src d a :
  a_rfld a = a_src a ->
  getv (a_src a) (alias_step d a)
  = if truthy (getv (a_src a) d) then VA (a_rval a) else getv (a_src a) d.
Proof.
  intro R. unfold alias_step. destruct (truthy (getv (a_src a) d)); [|reflexivity].
  rewrite R. apply getv_set_same.
Qed.

Lemma alias_step_dst d a :
  a_rfld a = a_src a -> a_src a <> a_dst a ->
  getv (a_dst a) (alias_step d a)
  = if truthy (getv (a_src a) d) then conv_val (a_conv a) (getv (a_src a) d) else getv (a_dst a) d.
Proof.
  intros R N. unfold alias_step. destruct (truthy (getv (a_src a) d)); [|reflexivity].
  rewrite R, getv_set_other by exact N. apply getv_set_same.
Qed.

(* The alias pass in closed form (with fold_other): a deprecated name that is set is reset and
   its replacement holds its converted value.  The block of a is the only one that writes
   a's source or replacement, and no earlier block changes what it reads. *)
Lemma fold_alias l : forall d a,
  good l -> In a l ->
  getv (a_src a) (fold_left alias_step l d)
  = (if truthy (getv (a_src a) d) then VA (a_rval a) else getv (a_src a) d)
  /\ getv (a_dst a) (fold_left alias_step l d)
     = (if truthy (getv (a_src a) d) then conv_val (a_conv a) (getv (a_src a) d) else getv (a_dst a) d).
Proof.
  induction l as [|b r IH]; intros d a Hg Ha; [destruct Ha|].
  pose proof Hg as (_ & _ & H3 & Hr). simpl. destruct Ha as [->|Ha].
  - assert (Ho : forall k, k = a_src a \/ k = a_dst a ->
                 forall c, In c r -> k <> a_dst c /\ k <> a_rfld c).
    { intros k Hk c Hc. rewrite (Hr c) by (right; exact Hc).
      destruct (good_head _ _ _ Hg Hc) as (N1 & N2 & N3 & N4). destruct Hk as [->| ->]; split; assumption. }
    rewrite !fold_other by (apply Ho; auto).
    split; [apply alias_step_src|apply alias_step_dst; [|apply H3; left; reflexivity]];
      apply Hr; left; reflexivity.
  - destruct (good_head _ _ _ Hg Ha) as (N1 & N2 & N3 & N4).
    rewrite <- (alias_step_other d b (a_src a)), <- (alias_step_other d b (a_dst a));
      [apply (IH _ a (good_tail _ _ Hg) Ha)|..]; rewrite ?(Hr b) by (left; reflexivity); congruence.
Qed.

Lemma fold_noop l d :
  (forall a, In a l -> truthy (getv (a_src a) d) = false) -> fold_left alias_step l d = d.
Proof.
  intro H. apply (fold_left_inv alias_step (fun x => x = d)); [|reflexivity].
  intros x a Ha ->. unfold alias_step. rewrite (H a Ha). reflexivity.
Qed.

Lemma alias_step_keys d a :
  In (a_dst a) (map fst d) -> In (a_rfld a) (map fst d) -> map fst (alias_step d a) = map fst d.
Proof.
  intros H1 H2. unfold alias_step. destruct (truthy (getv (a_src a) d)); [|reflexivity].
  rewrite keys_set_in; rewrite keys_set_in; auto.
Qed.

Lemma fold_keys l d :
  (forall a, In a l -> In (a_dst a) (map fst d) /\ In (a_rfld a) (map fst d)) ->
  map fst (fold_left alias_step l d) = map fst d.
Proof.
  intro H. apply (fold_left_inv alias_step (fun x => map fst x = map fst d)); [|reflexivity].
  intros x a Ha E. rewrite <- E. apply alias_step_keys; rewrite E; apply (H a Ha).
Qed.

Lemma set_mode_other T d k : k <> mode_key -> getv k (set_mode T d) = getv k d.
Proof.
  intro H. unfold set_mode. destruct (truthy (getv mode_key d)); [reflexivity|].
  apply getv_set_other. congruence.
Qed.

Lemma set_mode_mode T d d' :
  getv mode_key d = getv mode_key d' -> getv mode_key (set_mode T d) = getv mode_key (set_mode T d').
Proof.
  intro H. unfold set_mode. rewrite <- H. destruct (truthy (getv mode_key d)); [exact H|].
  rewrite !getv_set_same; reflexivity.
Qed.

Lemma forallb_ext_In {A} (p q : A -> bool) l :
  (forall x, In x l -> p x = q x) -> forallb p l = forallb q l.
Proof.
  induction l as [|x r IH]; intro H; [reflexivity|]. simpl.
  rewrite (H x) by (left; reflexivity). rewrite IH; [reflexivity|].
  intros y Hy; apply H; right; exact Hy.
Qed.

Lemma rule_for_fields m rs c :
  In c (rule_for m rs) -> In (fst c) (List.concat (map (fun r => map fst (snd r)) rs)).
Proof.
  induction rs as [|[ms cs] r IH]; simpl; intro H; [destruct H|].
  apply in_or_app. destruct (mem_str m ms).
  - left. apply in_map; exact H.
  - right. apply IH; exact H.
Qed.

Lemma rules_ok_ext T d e :
  getv mode_key d = getv mode_key e ->
  (forall k, In k (rule_fields T) -> getv k d = getv k e) -> rules_ok T d = rules_ok T e.
Proof.
  intros Hm Hk. unfold rules_ok, mode_of. rewrite Hm.
  destruct (getv mode_key e) as [[| | | |m]| |]; try reflexivity.
  apply forallb_ext_In. intros c Hc. unfold check_ok.
  rewrite (Hk (fst c)); [reflexivity|]. apply (rule_for_fields m _ c Hc).
Qed.

Lemma derive_step_inv fg d d' :
  derive_step fg d = inr d' ->
  (d' = d /\ getv (fst fg) d <> VA ANone)
  \/ (exists b, d' = set (fst fg) (VA (ABool b)) d /\ getv (fst fg) d = VA ANone).
Proof.
  unfold derive_step. destruct (getv (fst fg) d) as [[|b|z|h|s]|l|l] eqn:E; intro H;
    try (left; injection H as <-; split; [reflexivity|discriminate]).
  right. destruct (getv (snd fg) d) as [[|b|z|h|s]|l|l]; try discriminate;
    injection H as <-; eexists; split; reflexivity.
Qed.

Lemma derive_other fg d d' k : derive_step fg d = inr d' -> k <> fst fg -> getv k d' = getv k d.
Proof.
  intros H Hk. apply derive_step_inv in H as [[-> _]|[b [-> _]]]; [reflexivity|].
  apply getv_set_other; congruence.
Qed.

Lemma derive_step_idem fg d d' : derive_step fg d = inr d' -> derive_step fg d' = inr d'.
Proof.
  intro H. apply derive_step_inv in H as [[-> Hn]|[b [-> _]]]; unfold derive_step.
  - destruct (getv (fst fg) d) as [[| | | |]| |]; try reflexivity. congruence.
  - rewrite getv_set_same; reflexivity.
Qed.
