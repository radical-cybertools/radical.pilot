(* C19: descriptions and what travels with them.  First the constructor (`update`) and the
   dict round trip.  Then verify = type pass, then `vfy` (mode default, mode rules, alias pass,
   derived flag), under WF; each stage is known by what `getv` reads after it (Stages.v), and
   the theorems on verify are put together from those readings.  The later parts stand each
   on its own; the last, the submit loop, uses that verify is idempotent and leaves the uid
   alone. *)
From Coq Require Import ZArith List String Bool.
From RP Require Import Common.Eqb Common.ListFacts Descr.Types Descr.Model Descr.Oracle.
From RP Require Export Descr.Dict Descr.Cast Descr.Stages.
Import ListNotations.

Definition NoDupKeys {A} (d : list (string * A)) := NoDup (map fst d).

Lemma update_cons_other k v d items :
  (forall i, In i items -> fst i <> k) ->
  update ((k, v) :: d) items = (k, v) :: update d items.
Proof.
  revert d v; induction items as [|[k' v'] r IH]; intros d v H; [reflexivity|].
  rewrite !update_cons. simpl.
  destruct (String.eqb_spec k' k) as [E|_]; [destruct (H (k', v') (or_introl eq_refl) E)|].
  apply IH. intros i Hi; apply H; right; exact Hi.
Qed.

Definition extends {A} (b d : list (string * A)) : Prop :=
  NoDupKeys d /\ exists e, map fst d = map fst b ++ e.

Lemma update_absorb b : forall r,
  NoDupKeys r -> (exists e, map fst r = map fst b ++ e) -> update b r = r.
Proof.
  intro r; revert b; induction r as [|[k v] r IH]; intros b Hnd [e He].
  - destruct b; [reflexivity|discriminate He].
  - inversion Hnd as [|? ? Hn Hr]; subst.
    (* the first item lands at the head of b, whether b is empty or begins with its key *)
    assert (E : set k v b = (k, v) :: tl b /\ extends (tl b) r).
    { destruct b as [|[k0 v0] b']; simpl in *.
      - repeat split; [exact Hr|exists (map fst r); reflexivity].
      - injection He as <- He. rewrite String.eqb_refl.
        repeat split; [exact Hr|exists e; exact He]. }
    destruct E as [E1 [E2 E3]]. rewrite update_cons, E1, update_cons_other, (IH _ E2 E3); [reflexivity|].
    intros i Hi Hf. apply Hn. rewrite <- Hf. apply in_map; exact Hi.
Qed.

Lemma update_nil q : NoDupKeys q -> update [] q = q.
Proof. intro H. apply update_absorb; [exact H|exists (map fst q); reflexivity]. Qed.

Lemma extends_set {A} b k (v : A) d : extends b d -> extends b (set k v d).
Proof.
  intros [Hn [e He]]. split; [apply set_NoDup_keys, Hn|]. rewrite keys_set.
  destruct (mem_str k (map fst d)); [exists e; exact He|].
  exists (e ++ [k]). rewrite He. symmetry; apply app_assoc.
Qed.

Lemma update_keys x : forall d,
  NoDupKeys d -> NoDupKeys (update d x) /\ exists e, map fst (update d x) = map fst d ++ e.
Proof.
  intros d Hd. apply (fold_left_inv _ (extends d)).
  - intros acc kv _. apply extends_set.
  - split; [exact Hd|exists []; symmetry; apply app_nil_r].
Qed.

Lemma construct_keys T x : extends (update [] (t_defaults T)) (construct T x).
Proof.
  unfold construct. apply update_keys.
  apply (update_keys (t_defaults T) []). constructor.
Qed.

(* converted to a plain dictionary and back: equal to the original *)
Lemma dict_roundtrip T x :
  construct T (as_dict (construct T x)) = construct T x.
Proof.
  rewrite as_dict_id. apply update_absorb; apply construct_keys.
Qed.

Lemma update_keeps_key x d k : In k (map fst d) -> In k (map fst (update d x)).
Proof.
  apply (fold_left_inv _ (fun acc => In k (map fst acc))).
  intros acc kv _ H. apply in_keys_set. right; exact H.
Qed.

Lemma update_has_keys x : forall d k, In k (map fst x) -> In k (map fst (update d x)).
Proof.
  induction x as [|[k0 v0] r IH]; intros d k H; [destruct H|].
  rewrite update_cons. destruct H as [<-|H].
  - apply update_keeps_key, in_keys_set. left; reflexivity.
  - apply IH; exact H.
Qed.

Lemma cast_none t : cast t (VA ANone) = inr (VA ANone).
Proof. reflexivity. Qed.

(* its lemmas are typecheck_idem, typecheck_set and typecheck_getv of Cast.v *)
Definition stable (sch : list (string * ftype)) (d : descr) : Prop := typecheck sch d = inr d.

Lemma stable_getv sch d k t :
  stable sch d -> lookup k sch = Some t -> cast t (getv k d) = inr (getv k d).
Proof. intros H Hk. apply (typecheck_getv sch d d k t H Hk). Qed.

(* a type pass followed by a second pass: the form of both verify and pd_verify *)
Definition checked sch (post : descr -> perr + descr) (d : descr) : perr + descr :=
  match typecheck sch d with inl e => inl e | inr d1 => post d1 end.

Lemma verify_checked T d : verify T d = checked (t_schema T) (vfy T) d.
Proof. reflexivity. Qed.

Definition pd_post (d : descr) : perr + descr := if pd_rules d then inr d else inl ValueError.

Lemma pd_verify_checked T d : pd_verify T d = checked (t_schema T) pd_post d.
Proof. reflexivity. Qed.

Lemma checked_inv sch post d d' :
  checked sch post d = inr d' -> exists d1, typecheck sch d = inr d1 /\ post d1 = inr d'.
Proof.
  unfold checked. destruct (typecheck sch d) as [e|d1]; [discriminate|].
  intro H. exists d1; split; [reflexivity|exact H].
Qed.

Lemma checked_idem sch post :
  (forall x y, stable sch x -> post x = inr y -> stable sch y /\ post y = inr y) ->
  forall d d', checked sch post d = inr d' -> checked sch post d' = inr d'.
Proof.
  intros Hp d d' H. apply checked_inv in H as (d1 & E & H).
  destruct (Hp d1 d' (typecheck_idem _ _ _ E) H) as [S P]. unfold checked. rewrite S. exact P.
Qed.

(* the tests wf_table is made of, each as the proposition it decides *)
Lemma negb_mem_str s l : negb (mem_str s l) = true -> ~ In s l.
Proof. intro H. apply mem_str_false, negb_true_iff, H. Qed.

Lemma negb_str_eqb a b : negb (String.eqb a b) = true -> a <> b.
Proof. intro H. apply String.eqb_neq, negb_true_iff, H. Qed.

Lemma nodup_str_NoDup l : nodup_str l = true -> NoDup l.
Proof.
  induction l as [|x r IH]; simpl; intro H; [constructor|].
  apply andb_true_iff in H as [H1 H2].
  constructor; [apply negb_mem_str, H1|apply IH, H2].
Qed.

Lemma disjoint_str_spec a b : disjoint_str a b = true -> forall x, In x a -> ~ In x b.
Proof.
  unfold disjoint_str; rewrite forallb_forall; intros H x Hx. apply negb_mem_str, H, Hx.
Qed.

Lemma atom_eqb_eq a b : atom_eqb a b = true -> a = b.
Proof.
  destruct a, b; simpl; intro H; try discriminate; try reflexivity.
  - apply Bool.eqb_prop in H; congruence.
  - apply Z.eqb_eq in H; congruence.
  - apply Z.eqb_eq in H; congruence.
  - apply String.eqb_eq in H; congruence.
Qed.

Lemma atype_eqb_eq a b : atype_eqb a b = true -> a = b.
Proof. destruct a, b; simpl; intro H; try discriminate; reflexivity. Qed.

Lemma ftype_is_spec t o : ftype_is t o = true -> o = Some (FAtom t).
Proof.
  destruct o as [[t'| | |]|]; simpl; intro H; try discriminate.
  apply atype_eqb_eq in H; subst; reflexivity.
Qed.

Lemma atom_eqb_refl a : atom_eqb a a = true.
Proof.
  destruct a; simpl; try reflexivity.
  - apply Bool.eqb_reflx. - apply Z.eqb_refl. - apply Z.eqb_refl. - apply String.eqb_refl.
Qed.

Lemma val_eqb_refl v : val_eqb v v = true.
Proof.
  destruct v as [a|l|l]; simpl.
  - apply atom_eqb_refl.
  - apply eqb_list_refl, atom_eqb_refl.
  - apply eqb_list_refl, eqb_prod_refl; [apply String.eqb_refl | apply atom_eqb_refl].
Qed.

Section WithTable.
  Variable T : table.
  Let sch := t_schema T.
  Let srcs := map a_src (t_aliases T).
  Let dsts := map a_dst (t_aliases T).
  Let f := fst (t_derive T).
  Let g := snd (t_derive T).
  Let fixed := mode_key :: f :: rule_fields T.

  (* wf_table as far as the theorems need it; wf_g_t, wf_m_rule and wf_dkeys serve none *)
  Record WF : Prop := mkWF {
    wf_rfld  : forall a, In a (t_aliases T) -> a_rfld a = a_src a;
    wf_rval  : forall a, In a (t_aliases T) -> truthy_atom (a_rval a) = false;
    wf_types : forall a, In a (t_aliases T) -> exists ts td,
        lookup (a_src a) sch = Some (FAtom ts) /\ lookup (a_dst a) sch = Some (FAtom td)
        /\ cast_atom ts (a_rval a) = Some (a_rval a)
        /\ match a_conv a with CId => ts = td | CFloat => ts = TInt /\ td = TFloat end;
    wf_srcs  : NoDup srcs;
    wf_dsts  : NoDup dsts;
    wf_sd    : forall x, In x srcs -> ~ In x dsts;
    wf_fix_s : forall x, In x fixed -> ~ In x srcs;
    wf_fix_d : forall x, In x fixed -> ~ In x dsts;
    wf_mode_t: lookup mode_key sch = Some (FAtom TStr);
    wf_f_t   : lookup f sch = Some (FAtom TBool);
    wf_g_t   : lookup g sch = Some (FAtom TInt);
    wf_f_mode: f <> mode_key;
    wf_f_rule: ~ In f (rule_fields T);
    wf_m_rule: ~ In mode_key (rule_fields T);
    wf_dflt  : t_mode_dflt T <> EmptyString;
    wf_dkeys : NoDup (map fst (t_defaults T));
    wf_indef : forall k, In k (fixed ++ srcs ++ dsts) -> In k (map fst (t_defaults T));
    wf_pos   : t_derive_pos T = Some (List.length (t_aliases T));
    wf_g_src : ~ In g srcs }.

  Lemma alias_ok_spec a : alias_ok sch a = true ->
    a_rfld a = a_src a /\ truthy_atom (a_rval a) = false /\
    exists ts td, lookup (a_src a) sch = Some (FAtom ts) /\ lookup (a_dst a) sch = Some (FAtom td)
        /\ cast_atom ts (a_rval a) = Some (a_rval a)
        /\ match a_conv a with CId => ts = td | CFloat => ts = TInt /\ td = TFloat end.
  Proof.
    unfold alias_ok. intro H.
    apply andb_true_iff in H as [H H3]. apply andb_true_iff in H as [H1 H2].
    apply String.eqb_eq in H1. apply negb_true_iff in H2.
    split; [exact H1|split; [exact H2|]].
    destruct (lookup (a_src a) sch) as [[ts| | |]|]; try discriminate.
    destruct (lookup (a_dst a) sch) as [[td| | |]|]; try discriminate.
    apply andb_true_iff in H3 as [H3 H4].
    exists ts, td. repeat split.
    - destruct (cast_atom ts (a_rval a)) as [r|]; [|discriminate].
      apply atom_eqb_eq in H3; subst; reflexivity.
    - destruct (a_conv a).
      + apply atype_eqb_eq; exact H4.
      + apply andb_true_iff in H4 as [H4 H5]. split; apply atype_eqb_eq; assumption.
  Qed.

  Lemma wf_table_WF : wf_table T = true -> WF.
  Proof.
    unfold wf_table. fold sch srcs dsts f g. fold fixed. intro H.
    repeat (apply andb_true_iff in H as [H ?]).
    rewrite forallb_forall in H.
    constructor.
    - intros a Ha. apply (alias_ok_spec a (H a Ha)).
    - intros a Ha. apply (alias_ok_spec a (H a Ha)).
    - intros a Ha. apply (alias_ok_spec a (H a Ha)).
    - apply nodup_str_NoDup; assumption.
    - apply nodup_str_NoDup; assumption.
    - apply disjoint_str_spec; assumption.
    - apply disjoint_str_spec; assumption.
    - apply disjoint_str_spec; assumption.
    - apply ftype_is_spec; assumption.
    - apply ftype_is_spec; assumption.
    - apply ftype_is_spec; assumption.
    - apply negb_str_eqb; assumption.
    - apply negb_mem_str; assumption.
    - apply negb_mem_str; assumption.
    - apply negb_str_eqb; assumption.
    - apply nodup_str_NoDup; assumption.
    - intros k Hk. apply mem_str_In. revert k Hk. apply forallb_forall. assumption.
    - destruct (t_derive_pos T) as [n|]; [|discriminate]. f_equal. apply Nat.eqb_eq; assumption.
    - apply negb_mem_str; assumption.
  Qed.
End WithTable.

Section Verify.
  Variable T : table.
  Hypothesis W : WF T.
  Let sch := t_schema T.
  Let f := fst (t_derive T).

  Lemma good_aliases : good (t_aliases T).
  Proof.
    repeat split.
    - apply (wf_srcs T W). - apply (wf_dsts T W).
    - intros a b Ha Hb He. apply (wf_sd T W (a_src a)).
      + apply in_map; exact Ha.
      + rewrite He. apply in_map; exact Hb.
    - apply (wf_rfld T W).
  Qed.

  (* no alias block reads or writes the mode, the derived flag or an attribute of a mode rule *)
  Lemma aliases_avoid_fixed a k :
    In a (t_aliases T) -> In k (mode_key :: f :: rule_fields T) ->
    a_src a <> k /\ a_dst a <> k /\ a_rfld a <> k.
  Proof.
    intros Ha Hk.
    assert (S1 : a_src a <> k) by (intros <-; apply (wf_fix_s T W _ Hk), in_map, Ha).
    repeat split; [exact S1| |rewrite (wf_rfld T W a Ha); exact S1].
    intros <-; apply (wf_fix_d T W _ Hk), in_map, Ha.
  Qed.

  Lemma alias_pass_src d a :
    In a (t_aliases T) ->
    getv (a_src a) (alias_pass T d)
    = if truthy (getv (a_src a) d) then VA (a_rval a) else getv (a_src a) d.
  Proof. apply fold_alias, good_aliases. Qed.

  Lemma alias_pass_dst d a :
    In a (t_aliases T) ->
    getv (a_dst a) (alias_pass T d)
    = if truthy (getv (a_src a) d) then conv_val (a_conv a) (getv (a_src a) d) else getv (a_dst a) d.
  Proof. apply fold_alias, good_aliases. Qed.

  Lemma alias_pass_srcs_falsy d a :
    In a (t_aliases T) -> truthy (getv (a_src a) (alias_pass T d)) = false.
  Proof.
    intro Ha. rewrite (alias_pass_src _ _ Ha).
    destruct (truthy (getv (a_src a) d)) eqn:E; [apply (wf_rval T W a Ha)|exact E].
  Qed.

  Lemma stable_alias_step d a : In a (t_aliases T) -> stable sch d -> stable sch (alias_step d a).
  Proof.
    intros Ha Hd. unfold alias_step. destruct (truthy (getv (a_src a) d)); [|exact Hd].
    destruct (wf_types T W a Ha) as (ts & td & Hs & Hdst & Hr & Hc). fold sch in Hs, Hdst.
    apply typecheck_set with (t := FAtom ts).
    - apply typecheck_set with (t := FAtom td); [exact Hd|exact Hdst|].
      apply (cast_conv_stable _ ts td _ Hc). apply (stable_getv sch d (a_src a) (FAtom ts) Hd Hs).
    - rewrite (wf_rfld T W a Ha); exact Hs.
    - rewrite cast_FAtom, Hr; reflexivity.
  Qed.

  Lemma stable_alias_pass d : stable sch d -> stable sch (alias_pass T d).
  Proof. apply fold_left_inv. intros x a Ha. apply stable_alias_step, Ha. Qed.

  Lemma stable_set_mode d : stable sch d -> stable sch (set_mode T d).
  Proof.
    intro H. unfold set_mode. destruct (truthy (getv mode_key d)); [exact H|].
    apply typecheck_set with (t := FAtom TStr); [exact H|apply (wf_mode_t T W)|reflexivity].
  Qed.

  Lemma mode_truthy d : truthy (getv mode_key (set_mode T d)) = true.
  Proof.
    unfold set_mode. destruct (truthy (getv mode_key d)) eqn:E; [exact E|].
    rewrite getv_set_same. simpl. apply negb_true_iff. apply String.eqb_neq. apply (wf_dflt T W).
  Qed.

  Lemma alias_pass_other k d :
    ~ In k (map a_src (t_aliases T)) -> ~ In k (map a_dst (t_aliases T)) ->
    getv k (alias_pass T d) = getv k d.
  Proof.
    intros H1 H2. unfold alias_pass. apply fold_other. intros a Ha; split.
    - intro He; apply H2; rewrite He; apply in_map; exact Ha.
    - rewrite (wf_rfld T W a Ha). intro He; apply H1; rewrite He; apply in_map; exact Ha.
  Qed.

  Lemma alias_pass_fixed k d :
    In k (mode_key :: f :: rule_fields T) -> getv k (alias_pass T d) = getv k d.
  Proof.
    intro H. apply alias_pass_other; [apply (wf_fix_s T W)|apply (wf_fix_d T W)]; exact H.
  Qed.

  (* with the use_mpi block after all alias blocks, _verify is: mode default, mode
     checks, alias pass, use_mpi *)
  Lemma vfy_wf d :
    vfy T d = if rules_ok T (set_mode T d)
              then derive_step (t_derive T) (alias_pass T (set_mode T d)) else inl ValueError.
  Proof.
    unfold vfy. rewrite (wf_pos T W), firstn_all, skipn_all. fold (alias_pass T (set_mode T d)).
    destruct (rules_ok T (set_mode T d)); [|reflexivity].
    destruct (derive_step (t_derive T) (alias_pass T (set_mode T d))); reflexivity.
  Qed.

  Lemma vfy_inv d d' :
    vfy T d = inr d' ->
    rules_ok T (set_mode T d) = true
    /\ derive_step (t_derive T) (alias_pass T (set_mode T d)) = inr d'.
  Proof. rewrite vfy_wf. destruct (rules_ok T (set_mode T d)); [auto|discriminate]. Qed.

  Lemma vfy_getv d d' k :
    vfy T d = inr d' -> k <> f -> getv k d' = getv k (alias_pass T (set_mode T d)).
  Proof. intros H. apply vfy_inv in H as [_ H]. apply (derive_other _ _ _ _ H). Qed.

  Lemma vfy_fixed d d' k :
    vfy T d = inr d' -> In k (mode_key :: rule_fields T) -> getv k d' = getv k (set_mode T d).
  Proof.
    intros H Hk. rewrite (vfy_getv _ _ _ H).
    - apply alias_pass_fixed. destruct Hk as [<-|Hk]; [left; reflexivity|right; right; exact Hk].
    - intros ->. destruct Hk as [Hk|Hk].
      + apply (wf_f_mode T W); symmetry; exact Hk.
      + apply (wf_f_rule T W); exact Hk.
  Qed.

  Lemma vfy_set_mode d d' : vfy T d = inr d' -> set_mode T d' = d'.
  Proof.
    intro H. unfold set_mode. rewrite (vfy_fixed _ _ mode_key H) by (left; reflexivity).
    rewrite mode_truthy; reflexivity.
  Qed.

  Lemma vfy_rules d d' : vfy T d = inr d' -> rules_ok T d' = true.
  Proof.
    intro H. rewrite <- (proj1 (vfy_inv _ _ H)). apply rules_ok_ext.
    - apply (vfy_fixed _ _ _ H); left; reflexivity.
    - intros k Hk; apply (vfy_fixed _ _ _ H); right; exact Hk.
  Qed.

  Lemma vfy_idem d d' : vfy T d = inr d' -> vfy T d' = inr d'.
  Proof.
    intro H. rewrite vfy_wf, (vfy_set_mode _ _ H), (vfy_rules _ _ H).
    assert (Ea : alias_pass T d' = d').
    { apply fold_noop. intros a Ha. rewrite (vfy_getv _ _ _ H).
      - apply alias_pass_srcs_falsy; exact Ha.
      - apply (aliases_avoid_fixed a f Ha); right; left; reflexivity. }
    rewrite Ea. apply (derive_step_idem _ (alias_pass T (set_mode T d))), vfy_inv, H.
  Qed.

  Lemma vfy_stable d d' : stable sch d -> vfy T d = inr d' -> stable sch d'.
  Proof.
    intros S H. apply vfy_inv in H as [_ H].
    assert (S2 : stable sch (alias_pass T (set_mode T d))) by apply stable_alias_pass, stable_set_mode, S.
    apply derive_step_inv in H as [[-> _]|[b [-> _]]]; [exact S2|].
    apply typecheck_set with (t := FAtom TBool); [exact S2|apply (wf_f_t T W)|reflexivity].
  Qed.

  Lemma verify_inv d d' :
    verify T d = inr d' -> exists d1, typecheck sch d = inr d1 /\ vfy T d1 = inr d'.
  Proof. rewrite verify_checked. apply checked_inv. Qed.

  Lemma verify_stable d d' : verify T d = inr d' -> stable sch d'.
  Proof.
    intro H. apply verify_inv in H as (d1 & H1 & H).
    apply (vfy_stable _ _ (typecheck_idem _ _ _ H1) H).
  Qed.

  Theorem verify_idempotent d d' : verify T d = inr d' -> verify T d' = inr d'.
  Proof.
    rewrite !verify_checked. apply checked_idem. intros x y S H.
    split; [apply (vfy_stable _ _ S H)|apply (vfy_idem _ _ H)].
  Qed.

  (* required attributes are enforced, and there is a mode *)
  Theorem verify_mode_ok d d' : verify T d = inr d' -> ok_mode T d' = true.
  Proof.
    intro H. pose proof (verify_stable _ _ H) as Hs. apply verify_inv in H as (d1 & _ & H).
    unfold ok_mode. rewrite (vfy_rules _ _ H). simpl.
    (* the mode is truthy and of type str: a non-empty string *)
    pose proof (mode_truthy d1) as Ht.
    rewrite <- (vfy_fixed _ _ mode_key H) in Ht by (left; reflexivity).
    pose proof (stable_getv sch d' mode_key _ Hs (wf_mode_t T W)) as Hc.
    unfold mode_of. destruct (getv mode_key d') as [a|l|l]; try discriminate.
    rewrite cast_FAtom in Hc. destruct a as [|b|z|h|s]; simpl in *; try discriminate.
    exact Ht.
  Qed.

  (* a missing required (or present forbidden) attribute is rejected *)
  Theorem verify_mode_rejects d d1 :
    typecheck sch d = inr d1 -> rules_ok T (set_mode T d1) = false -> verify T d = inl ValueError.
  Proof. intros H1 H2. unfold verify. fold sch. rewrite H1, vfy_wf, H2. reflexivity. Qed.

  (* deprecated names are mapped onto their replacements with the same values *)
  Theorem verify_alias_full a d d' t sv :
    verify T d = inr d' -> In a (t_aliases T) ->
    lookup (a_src a) sch = Some t -> cast t (getv (a_src a) d) = inr sv -> truthy sv = true ->
    getv (a_dst a) d' = conv_val (a_conv a) sv /\ getv (a_src a) d' = VA (a_rval a)
    /\ truthy (getv (a_src a) d') = false.
  Proof.
    intros H Ha Ht Hc Htr. apply verify_inv in H as (d1 & H1 & H).
    pose proof (typecheck_getv _ _ _ _ _ H1 Ht) as Hg. rewrite Hc in Hg. injection Hg as Hg.
    destruct (aliases_avoid_fixed a mode_key Ha (or_introl eq_refl)) as (Sm & _ & _).
    destruct (aliases_avoid_fixed a f Ha (or_intror (or_introl eq_refl))) as (Sf & Df & _).
    rewrite (vfy_getv _ _ _ H Df), !(vfy_getv _ _ _ H Sf), (alias_pass_dst _ _ Ha), (alias_pass_src _ _ Ha).
    rewrite (set_mode_other T d1 _ Sm), <- Hg, Htr.
    repeat split. apply (wf_rval T W a Ha).
  Qed.

  (* nothing else is lost: every other attribute keeps its type-normalised value *)
  Theorem verify_untouched k t d d' :
    verify T d = inr d' -> ~ In k (touched T) -> lookup k sch = Some t ->
    cast t (getv k d) = inr (getv k d').
  Proof.
    intros H Hk Ht. apply verify_inv in H as (d1 & H1 & H).
    unfold touched in Hk.
    rewrite (vfy_getv _ _ _ H) by (intros ->; apply Hk; right; left; reflexivity).
    rewrite alias_pass_other.
    - rewrite set_mode_other by (intros ->; apply Hk; left; reflexivity).
      apply (typecheck_getv _ _ _ _ _ H1 Ht).
    - intro; apply Hk; right; right; apply in_or_app; left; assumption.
    - intro; apply Hk; right; right; apply in_or_app; right; assumption.
  Qed.

  (* no key appears or disappears (for descriptions built by the constructor) *)
  Theorem verify_keys d d' :
    verify T d = inr d' -> (forall k, In k (touched T) -> In k (map fst d)) -> map fst d' = map fst d.
  Proof.
    intros H Hin. apply verify_inv in H as (d1 & H1 & H). apply vfy_inv in H as [_ H3].
    pose proof (typecheck_keys _ _ _ H1) as K1.
    assert (Km : map fst (set_mode T d1) = map fst d).
    { unfold set_mode. destruct (truthy (getv mode_key d1)); [exact K1|].
      rewrite keys_set_in; [exact K1|]. rewrite K1. apply Hin. left; reflexivity. }
    assert (Ka : map fst (alias_pass T (set_mode T d1)) = map fst d).
    { unfold alias_pass. rewrite fold_keys; [exact Km|]. intros a Ha. rewrite Km. split.
      - apply Hin. right; right. apply in_or_app; right. apply in_map; exact Ha.
      - rewrite (wf_rfld T W a Ha). apply Hin. right; right. apply in_or_app; left. apply in_map; exact Ha. }
    apply derive_step_inv in H3 as [[-> _]|[b [-> _]]]; [exact Ka|].
    rewrite keys_set_in; [exact Ka|]. rewrite Ka. apply Hin. right; left; reflexivity.
  Qed.

  Lemma touched_in_defaults k : In k (touched T) -> In k (map fst (t_defaults T)).
  Proof.
    intro H. apply (wf_indef T W). unfold touched in H.
    destruct H as [<-|[<-|H]].
    - apply in_or_app; left; left; reflexivity.
    - apply in_or_app; left; right; left; reflexivity.
    - apply in_or_app; right; exact H.
  Qed.

  Theorem verify_keys_construct x d' :
    verify T (construct T x) = inr d' -> map fst d' = map fst (construct T x).
  Proof.
    intro H. apply (verify_keys _ _ H). intros k Hk.
    unfold construct. apply update_keeps_key, update_has_keys, touched_in_defaults, Hk.
  Qed.

  Theorem verified_roundtrip x v :
    verify T (construct T x) = inr v ->
    construct T (as_dict v) = v /\ verify T (construct T (as_dict v)) = inr v.
  Proof.
    intro H. assert (R : construct T (as_dict v) = v).
    { rewrite as_dict_id. apply update_absorb; unfold NoDupKeys;
        rewrite (verify_keys_construct _ _ H); apply construct_keys. }
    split; [exact R|]. rewrite R. apply (verify_idempotent _ _ H).
  Qed.

  Theorem verify_ok_alias c v : verify T c = inr v -> ok_alias T c v = true.
  Proof.
    intro H. unfold ok_alias. apply forallb_forall. intros a Ha.
    unfold ok_alias1, cast_of. fold sch.
    destruct (lookup (a_src a) sch) as [t|] eqn:Et; [|reflexivity].
    destruct (cast t (getv (a_src a) c)) as [e|sv] eqn:Ec; [reflexivity|].
    destruct (truthy sv) eqn:Es; [|reflexivity].
    destruct (verify_alias_full a c v t sv H Ha Et Ec Es) as (E1 & _ & E3).
    rewrite E1, E3, val_eqb_refl. reflexivity.
  Qed.
End Verify.

(* used by Props/C19.v *)
Lemma pd_verify_inv T d d' :
  pd_verify T d = inr d' -> typecheck (t_schema T) d = inr d' /\ pd_rules d' = true.
Proof.
  rewrite pd_verify_checked. intro H. apply checked_inv in H as (d1 & E & H).
  unfold pd_post in H. destruct (pd_rules d1) eqn:R; [|discriminate]. injection H as <-. split; assumption.
Qed.

Section Twin.
  Variable T : table.
  Hypothesis W : WF T.
  Let sch := t_schema T.
  Let srcs := map a_src (t_aliases T).

  (* t is a twin of the type-checked description d1: it carries no deprecated name, and every
     other attribute has the value the alias mapping gives it (the replacement of a set
     deprecated name holds its converted value, everything else is as in d1) *)
  Definition twin_of (d1 t : descr) : Prop :=
    stable sch t
    /\ (forall k, ~ In k srcs -> getv k t = getv k (alias_pass T d1))
    /\ (forall k, In k srcs -> truthy (getv k t) = false).

  (* same exception, or accepted descriptions equal on every attribute except the deprecated
     names themselves, which are unset in both *)
  Definition res_sim (r r' : perr + descr) : Prop :=
    match r, r' with
    | inl e, inl e' => e = e'
    | inr v, inr v' =>
        (forall k, ~ In k srcs -> getv k v = getv k v')
        /\ (forall k, In k srcs -> truthy (getv k v) = false /\ truthy (getv k v') = false)
    | _, _ => False
    end.

  Lemma alias_pass_set_mode d k :
    k <> mode_key -> getv k (alias_pass T (set_mode T d)) = getv k (alias_pass T d).
  Proof.
    intro Hk.
    destruct (in_dec string_dec k (map a_src (t_aliases T))) as [Hs|Hs];
      [|destruct (in_dec string_dec k (map a_dst (t_aliases T))) as [Hd|Hd]].
    - apply in_map_iff in Hs as (a & <- & Ha).
      rewrite !(alias_pass_src T W _ _ Ha), set_mode_other by exact Hk. reflexivity.
    - apply in_map_iff in Hd as (a & <- & Ha). rewrite !(alias_pass_dst T W _ _ Ha).
      rewrite (set_mode_other T d (a_dst a)) by exact Hk.
      rewrite (set_mode_other T d (a_src a)); [reflexivity|].
      apply (aliases_avoid_fixed T W a mode_key Ha). left; reflexivity.
    - rewrite !(alias_pass_other T W) by assumption. apply set_mode_other, Hk.
  Qed.

  Lemma mode_not_src : ~ In mode_key srcs.
  Proof. apply (wf_fix_s T W); left; reflexivity. Qed.

  Lemma res_sim_set x y k v :
    ~ In k srcs -> res_sim (inr x) (inr y) -> res_sim (inr (set k v x)) (inr (set k v y)).
  Proof.
    intros Hk [A B]. split; intros k' Hk'.
    - destruct (String.eqb_spec k k') as [<-|Hn]; [rewrite !getv_set_same; reflexivity|].
      rewrite !getv_set_other by exact Hn. apply A, Hk'.
    - assert (Hn : k <> k') by (intros ->; exact (Hk Hk')).
      rewrite !getv_set_other by exact Hn. apply B, Hk'.
  Qed.

  (* the derived flag is computed from attributes that are not deprecated names *)
  Lemma derive_step_sim x y :
    res_sim (inr x) (inr y) -> res_sim (derive_step (t_derive T) x) (derive_step (t_derive T) y).
  Proof.
    intro S. pose proof S as [A _].
    assert (Hf : ~ In (fst (t_derive T)) srcs) by (apply (wf_fix_s T W); right; left; reflexivity).
    unfold derive_step. rewrite <- (A _ Hf), <- (A _ (wf_g_src T W)).
    destruct (getv (fst (t_derive T)) x) as [[|b|z|h|s]|l|l]; try exact S.
    destruct (getv (snd (t_derive T)) x) as [[|b|z|h|s]|l|l];
      first [exact eq_refl|apply (res_sim_set _ _ _ _ Hf S)].
  Qed.

  Theorem twin_verify d d1 t :
    typecheck sch d = inr d1 -> twin_of d1 t -> res_sim (verify T t) (verify T d).
  Proof.
    intros Hd (Ht & Hout & Hsrc).
    unfold verify. fold sch. rewrite Hd. unfold stable in Ht. rewrite Ht.
    rewrite !(vfy_wf T W).
    set (tm := set_mode T t). set (dm := set_mode T d1).
    assert (Hm : getv mode_key tm = getv mode_key dm).
    { apply set_mode_mode. rewrite (Hout _ mode_not_src). apply (alias_pass_fixed T W); left; reflexivity. }
    assert (Hfalsy : forall k, In k srcs -> truthy (getv k tm) = false).
    { intros k Hk. unfold tm. rewrite set_mode_other; [apply Hsrc, Hk|].
      intros ->. exact (mode_not_src Hk). }
    (* the twin with its mode and the mapped original agree outside the deprecated names *)
    assert (S : res_sim (inr tm) (inr (alias_pass T dm))).
    { split; intros k Hk.
      - destruct (String.eqb_spec k mode_key) as [->|Hn].
        + rewrite Hm. symmetry. apply (alias_pass_fixed T W); left; reflexivity.
        + unfold tm, dm. rewrite set_mode_other, alias_pass_set_mode by exact Hn. apply Hout, Hk.
      - split; [apply Hfalsy, Hk|]. apply in_map_iff in Hk as (a & <- & Ha).
        apply (alias_pass_srcs_falsy T W _ _ Ha). }
    assert (Hnoop : alias_pass T tm = tm).
    { apply fold_noop. intros a Ha. apply Hfalsy, in_map, Ha. }
    assert (Hrules : rules_ok T tm = rules_ok T dm).
    { apply rules_ok_ext; [exact Hm|]. intros k Hk.
      rewrite (proj1 S) by (apply (wf_fix_s T W); right; right; exact Hk).
      apply (alias_pass_fixed T W). right; right; exact Hk. }
    rewrite Hrules, Hnoop. destruct (rules_ok T dm); [|reflexivity]. apply derive_step_sim, S.
  Qed.

  (* such twins exist: the mapped description itself is one *)
  Lemma alias_pass_is_twin d d1 : typecheck sch d = inr d1 -> twin_of d1 (alias_pass T d1).
  Proof.
    intro Hd. repeat split.
    - apply (stable_alias_pass T W), (typecheck_idem _ _ _ Hd).
    - intros k Hk. apply in_map_iff in Hk as (a & <- & Ha). apply (alias_pass_srcs_falsy T W _ _ Ha).
  Qed.
End Twin.

Lemma map_err_inr {A B} (fn : A -> perr + B) l : forall l',
  map_err fn l = inr l' -> Forall2 (fun x y => fn x = inr y) l l'.
Proof.
  induction l as [|x r IH]; simpl; intros l' H; [injection H as <-; constructor|].
  destruct (fn x) as [e|y] eqn:Ex; [discriminate|].
  destruct (map_err fn r) as [e|r'] eqn:Er; [discriminate|].
  injection H as <-. constructor; [exact Ex|apply IH; reflexivity].
Qed.

(* not an old per-rank map [[i; ..]; ..]: res_to_new reads each inner list as an
   (index, occupation) pair *)
Definition no_lists (r : rspec) : bool := match r with RLists (_ :: _) => false | _ => true end.

Definition slot_no_lists (s : slot) : bool :=
  version_ge1 s || (no_lists (s_cores s) && no_lists (s_gpus s)).

Definition placement1 (s : slot) := (s_nidx s, s_nname s, indices (s_cores s), indices (s_gpus s)).

Lemma placement_map ss : placement ss = map placement1 ss.
Proof. reflexivity. Qed.

Lemma res_to_new_indices r r' :
  res_to_new r = inr r' -> no_lists r = true -> indices r' = indices r.
Proof.
  unfold res_to_new. destruct (rspec_empty r) eqn:E; [intro H; injection H as <-; reflexivity|].
  destruct r as [l|l|l|l|l]; intros H Hn; try (injection H as <-; simpl; try reflexivity).
  - rewrite map_map. apply map_id.
  - destruct l; [discriminate E|discriminate Hn].
Qed.

Lemma slot_to_new_placement s s' :
  slot_to_new s = inr s' -> slot_no_lists s = true -> placement1 s' = placement1 s.
Proof.
  unfold slot_to_new, slot_no_lists. destruct (version_ge1 s); [intros H _; injection H as <-; reflexivity|].
  simpl. destruct (res_to_new (s_cores s)) as [e|c] eqn:Ec; [discriminate|].
  destruct (res_to_new (s_gpus s)) as [e|g] eqn:Eg; [discriminate|].
  intros H Hn; injection H as <-. apply andb_true_iff in Hn as [N1 N2].
  unfold placement1; simpl.
  rewrite (res_to_new_indices _ _ Ec N1), (res_to_new_indices _ _ Eg N2); reflexivity.
Qed.

(* converting old encodings (ints, dicts, ROs, tuples) to the new format keeps
   nodes, core and GPU indices *)
Theorem slots_to_new_placement ss ss' :
  slots_to_new ss = inr ss' -> forallb slot_no_lists ss = true -> placement ss' = placement ss.
Proof.
  intros H Hn. rewrite !placement_map. apply map_err_inr in H.
  induction H as [|s s' r r' Hs _ IH]; [reflexivity|]. apply andb_true_iff in Hn as [N1 N2].
  simpl. rewrite (slot_to_new_placement _ _ Hs N1), (IH N2). reflexivity.
Qed.

Lemma concat_singletons {A} (p : A -> Z) l : List.concat (map (fun x => [p x]) l) = map p l.
Proof. induction l as [|x r IH]; simpl; [reflexivity|rewrite IH; reflexivity]. Qed.

Lemma res_to_old_indices r r' : res_to_old r = inr r' -> indices r' = indices r.
Proof.
  unfold res_to_old. destruct (rspec_empty r) eqn:E; [intro H; injection H as <-; reflexivity|].
  destruct r as [l|l|l|l|l]; intro H; try discriminate; injection H as <-; simpl.
  - rewrite (concat_singletons (fun c => c)). apply map_id.
  - apply (concat_singletons fst).
  - apply (concat_singletons fst).
Qed.

Lemma slot_to_old_placement s s' : slot_to_old s = inr s' -> placement1 s' = placement1 s.
Proof.
  unfold slot_to_old. destruct (negb (version_truthy s)); [intro H; injection H as <-; reflexivity|].
  destruct (res_to_old (s_cores s)) as [e|c] eqn:Ec; [discriminate|].
  destruct (res_to_old (s_gpus s)) as [e|g] eqn:Eg; [discriminate|].
  intro H; injection H as <-. unfold placement1; simpl.
  rewrite (res_to_old_indices _ _ Ec), (res_to_old_indices _ _ Eg); reflexivity.
Qed.

(* converting to the old format keeps nodes, core and GPU indices *)
Theorem slots_to_old_placement ss ss' : slots_to_old ss = inr ss' -> placement ss' = placement ss.
Proof.
  intro H. rewrite !placement_map. apply map_err_inr in H.
  induction H as [|s s' r r' Hs _ IH]; [reflexivity|].
  simpl. rewrite (slot_to_old_placement _ _ Hs), IH. reflexivity.
Qed.

Theorem slots_old_new_old ss n o :
  forallb slot_no_lists ss = true ->
  slots_to_new ss = inr n -> slots_to_old n = inr o -> placement o = placement ss.
Proof.
  intros Hn H1 H2. rewrite (slots_to_old_placement _ _ H2). apply slots_to_new_placement; assumption.
Qed.

Lemma slot_to_old_no_lists_out s s' :
  slot_to_old s = inr s' -> slot_no_lists s = true -> True.
Proof. trivial. Qed.

Lemma empty_no_lists r : rspec_empty r = true -> no_lists r = true.
Proof. destruct r as [l|l|l|l|[|x l]]; try reflexivity. discriminate. Qed.

Lemma slot_to_old_empty s s' :
  slot_to_old s = inr s' -> rspec_empty (s_cores s) = true -> rspec_empty (s_gpus s) = true ->
  slot_no_lists s' = true.
Proof.
  intros H Ec Eg. unfold slot_to_old, res_to_old in H. rewrite Ec, Eg in H.
  unfold slot_no_lists. apply orb_true_iff; right.
  destruct (negb (version_truthy s)); injection H as <-; simpl;
    rewrite !empty_no_lists by assumption; reflexivity.
Qed.

Lemma slots_to_old_empty ss o :
  forallb (fun s => rspec_empty (s_cores s) && rspec_empty (s_gpus s)) ss = true ->
  slots_to_old ss = inr o -> forallb slot_no_lists o = true.
Proof.
  intros He H. apply map_err_inr in H.
  induction H as [|s s' r r' Hs _ IH]; [reflexivity|].
  apply andb_true_iff in He as [E1 E2]. apply andb_true_iff in E1 as [Ec Eg].
  simpl. rewrite (slot_to_old_empty _ _ Hs Ec Eg). apply IH, E2.
Qed.

(* used by Props/C19.v *)
Lemma ros_eqb_refl l : ros_eqb l l = true.
Proof.
  apply eqb_list_refl, eqb_prod_refl; [apply Z.eqb_refl | apply eqb_option_refl, Z.eqb_refl].
Qed.

Lemma res_ctor_indices r : indices (res_ctor r) = indices r.
Proof.
  destruct r as [[|x l]|[|x l]|l|l|l]; simpl; try reflexivity.
  rewrite map_map, map_id; reflexivity.
Qed.

Lemma pslot_ctor_placement s : pplacement1 (pslot_ctor s) = pplacement1 s.
Proof. unfold pplacement1, pslot_ctor; simpl. rewrite !res_ctor_indices. reflexivity. Qed.

Lemma pplacement_ctor l : pplacement (map pslot_ctor l) = pplacement l.
Proof. unfold pplacement. rewrite map_map. apply map_ext, pslot_ctor_placement. Qed.

(* whatever list of slots a writer left -- new format, complete old format, or only cores and
   gpus -- Task.slots does not fail and names the same nodes, cores, GPUs, lfs and mem *)
Theorem client_slots_placement l :
  exists r, client_slots (CSlots l) = inr r /\ pplacement r = pplacement l.
Proof.
  destruct l as [|s r]; [exists []; split; reflexivity|]. unfold client_slots.
  destruct (pversion_falsy s); eexists; split; try reflexivity. apply pplacement_ctor.
Qed.

Lemma res_ctor_idem r : res_ctor (res_ctor r) = res_ctor r.
Proof. destruct r as [[|x l]|[|x l]|l|l|l]; reflexivity. Qed.

Lemma pslot_ctor_idem s : pslot_ctor (pslot_ctor s) = pslot_ctor s.
Proof. unfold pslot_ctor; simpl. rewrite !res_ctor_idem. reflexivity. Qed.

Lemma pslot_ctors_idem l : map pslot_ctor (map pslot_ctor l) = map pslot_ctor l.
Proof. rewrite map_map. apply map_ext, pslot_ctor_idem. Qed.

(* reading a second time (the first read stored the upgraded slots) changes nothing *)
Theorem client_slots_again l r :
  client_slots (CSlots l) = inr r -> client_slots (CSlots r) = inr r.
Proof.
  destruct l as [|s t]; simpl; [intro H; injection H as <-; reflexivity|].
  destruct (pversion_falsy s) eqn:E; intro H; injection H as <-; simpl.
  - destruct (pversion_falsy (pslot_ctor s)); [|reflexivity].
    apply f_equal, (pslot_ctors_idem (s :: t)).
  - rewrite E; reflexivity.
Qed.

(* missing or empty keyword arguments are sent as the empty dict *)
Lemma kw_sent (kw : option kwargs) :
  match kw with Some (x :: l) => Some (x :: l) | _ => Some [] end = Some (kw_or_empty kw).
Proof. destruct kw as [[|x l]|]; reflexivity. Qed.

Section EnvelopeProofs.
  Variables func blob wire : Type.
  Variable ser_obj    : func -> blob.
  Variable deser_obj  : blob -> option func.
  Variable ser_bson   : envelope blob -> wire.
  Variable deser_bson : wire -> option (envelope blob).
  Hypothesis obj_inverse  : forall fn, deser_obj (ser_obj fn) = Some fn.
  Hypothesis bson_inverse : forall e, deser_bson (ser_bson e) = Some e.

  Lemma python_task_env c fn args kw :
    python_task func blob wire ser_obj ser_bson c fn args kw
    = if c then inr (ser_bson (mkEnv (ser_obj fn) args (Some (kw_or_empty kw)))) else inl ValueError.
  Proof. unfold python_task. rewrite kw_sent. reflexivity. Qed.

  Lemma transport_roundtrip fn args kw :
    transport func blob wire ser_obj deser_obj ser_bson deser_bson true fn args kw
    = inr (fn, args, Some (kw_or_empty kw)).
  Proof.
    unfold transport. rewrite python_task_env. unfold get_func_attr.
    rewrite bson_inverse. simpl. rewrite obj_inverse. reflexivity.
  Qed.

  (* the decorator path and the constructor path yield the same envelope for the same
     function value; the value at decoration time plays no role *)
  Lemma decorated_is_constructor c f_dec fn args kw :
    decorated_call func blob wire ser_obj ser_bson c f_dec fn args kw
    = python_task func blob wire ser_obj ser_bson c fn args (Some kw).
  Proof. rewrite python_task_env. reflexivity. Qed.

  Lemma encode_step_decor_irrelevant c f_dec f_dec' s :
    encode_step func blob wire ser_obj ser_bson true c f_dec s
    = encode_step func blob wire ser_obj ser_bson true c f_dec' s.
  Proof. reflexivity. Qed.

  Lemma encode_step_paths_agree c f_dec s :
    encode_step func blob wire ser_obj ser_bson true c f_dec s
    = encode_step func blob wire ser_obj ser_bson false c f_dec s.
  Proof.
    unfold encode_step. rewrite decorated_is_constructor, !python_task_env. reflexivity.
  Qed.

End EnvelopeProofs.

Section SerializeProofs.
  Variables func blob wire res : Type.
  Variable dumps_val dumps_ref : func -> option blob.
  Variable loads : blob -> option func.
  Variable ser_bson : envelope blob -> wire.
  Variable deser_bson : wire -> option (envelope blob).
  Variable call : func -> list atom -> kwargs -> res.

  Definition obs_eq (f f' : func) : Prop := forall a k, call f' a k = call f a k.

  (* what is trusted of dill: whatever either attempt writes, loads reads back as a callable
     that behaves like the original (by value: a copy; by reference: the named object) *)
  Hypothesis val_sound : forall f b, dumps_val f = Some b -> exists f', loads b = Some f' /\ obs_eq f f'.
  Hypothesis ref_sound : forall f b, dumps_ref f = Some b -> exists f', loads b = Some f' /\ obs_eq f f'.
  Hypothesis bson_inverse : forall e, deser_bson (ser_bson e) = Some e.

  Lemma serialize_obj_spec f :
    match serialize_obj func blob dumps_val dumps_ref f with
    | inl e => e = SerError /\ dumps_val f = None /\ dumps_ref f = None
    | inr b => dumps_val f = Some b \/ dumps_ref f = Some b
    end.
  Proof. unfold serialize_obj. destruct (dumps_val f); [auto|]. destruct (dumps_ref f); auto. Qed.

  Lemma serialize_error_iff f :
    (exists e, serialize_obj func blob dumps_val dumps_ref f = inl e)
    <-> dumps_val f = None /\ dumps_ref f = None.
  Proof.
    pose proof (serialize_obj_spec f) as S.
    destruct (serialize_obj func blob dumps_val dumps_ref f) as [e|b].
    - split; [intros _; apply S|intros _; exists e; reflexivity].
    - split; [intros [e H]; discriminate|intros [H1 H2]; destruct S; congruence].
  Qed.

  (* transport of a callable: an error only if BOTH attempts fail (and then it is
     SerializationError); any success decodes to the given arguments and a callable that
     behaves like the original *)
  Lemma transport_s_spec f args kw :
    match transport_s func blob wire dumps_val dumps_ref loads ser_bson deser_bson true f args kw with
    | inl e => e = SerError /\ dumps_val f = None /\ dumps_ref f = None
    | inr (f', a', k') => a' = args /\ k' = Some (kw_or_empty kw) /\ obs_eq f f'
    end.
  Proof.
    unfold transport_s, python_task_s. pose proof (serialize_obj_spec f) as S.
    destruct (serialize_obj func blob dumps_val dumps_ref f) as [e|b]; [exact S|].
    assert (D : exists f', loads b = Some f' /\ obs_eq f f')
      by (destruct S as [S|S]; [apply (val_sound _ _ S)|apply (ref_sound _ _ S)]).
    destruct D as (f' & Hl & Ho).
    unfold get_func_attr. rewrite bson_inverse. simpl. rewrite Hl.
    repeat split; [apply kw_sent|exact Ho].
  Qed.

End SerializeProofs.

(* every decode returns the encoded original, whatever the store of earlier results holds *)
Lemma run_fresh_snd x ops : forall store,
  snd (run_fresh x ops store)
  = map (fun _ => x) (filter (fun o => match o with RDecode => true | _ => false end) ops).
Proof.
  induction ops as [|[|i m] r IH]; intro store; simpl; [reflexivity| |apply IH].
  specialize (IH (store ++ [x])). destruct (run_fresh x r (store ++ [x])) as [st rets]. simpl in *.
  rewrite IH; reflexivity.
Qed.

(* used by Props/C19.v *)
Lemma run_fresh_returns x ops store : Forall (eq x) (snd (run_fresh x ops store)).
Proof.
  rewrite run_fresh_snd. apply Forall_forall. intros y Hy.
  apply in_map_iff in Hy as (_ & E & _). exact E.
Qed.

Lemma run_fresh_count x ops store :
  List.length (snd (run_fresh x ops store))
  = List.length (filter (fun o => match o with RDecode => true | _ => false end) ops).
Proof. rewrite run_fresh_snd. apply map_length. Qed.

(* what the earlier results went through in the caller's hands does not matter *)
Lemma run_fresh_store_irrelevant x ops st st' : snd (run_fresh x ops st) = snd (run_fresh x ops st').
Proof. rewrite !run_fresh_snd. reflexivity. Qed.

(* an operation leaves the other slots alone and reads only its own; Props/C19.v uses
   drun_agree at st' = st *)
Section Sequences.
  Variable mk : descr -> descr.
  Variable vf : descr -> perr + descr.

  Lemma dstep_frame st o i : op_slot o <> i -> slot_get i (dstep mk vf st o) = slot_get i st.
  Proof.
    intro H. destruct o as [j x|j|j k key e|j]; simpl in *.
    - apply slot_get_set_other; exact H.
    - destruct (slot_get j st) as [d|]; [|reflexivity].
      destruct (vf d); [reflexivity|apply slot_get_set_other; exact H].
    - destruct (slot_get j st) as [d|]; [|reflexivity]. apply slot_get_set_other; exact H.
    - reflexivity.
  Qed.

  Lemma dstep_local st st' o :
    slot_get (op_slot o) st = slot_get (op_slot o) st' ->
    slot_get (op_slot o) (dstep mk vf st o) = slot_get (op_slot o) (dstep mk vf st' o).
  Proof.
    intro H. destruct o as [j x|j|j k key e|j]; simpl in *.
    - rewrite !slot_get_set_same; reflexivity.
    - destruct (slot_get j st) as [d|] eqn:E; rewrite <- H.
      + destruct (vf d); [rewrite E; exact H|rewrite !slot_get_set_same; reflexivity].
      + rewrite E; exact H.
    - destruct (slot_get j st) as [d|] eqn:E; rewrite <- H.
      + rewrite !slot_get_set_same; reflexivity.
      + rewrite E; exact H.
    - exact H.
  Qed.

  Lemma drun_agree i ops : forall st st',
    slot_get i st = slot_get i st' ->
    slot_get i (drun mk vf ops st) = slot_get i (drun mk vf (filter (touches i) ops) st').
  Proof.
    induction ops as [|o r IH]; intros st st' H; [exact H|].
    unfold drun in *. simpl. unfold touches at 1. destruct (Nat.eqb_spec (op_slot o) i) as [E|N].
    - simpl. apply IH. subst i. apply dstep_local; exact H.
    - apply IH. rewrite dstep_frame by exact N. exact H.
  Qed.

End Sequences.

Section Bulk.
  Variable T : table.
  Hypothesis W : WF T.
  Hypothesis uid_type : lookup uid_key (t_schema T) = Some (FAtom TStr).
  Hypothesis uid_untouched : ~ In uid_key (touched T).

  (* d' is d, or the normal form of d -- with the uid d has, or with some generated one if
     it has none.  Nothing but d occurs in it: no other element of any bulk. *)
  Definition nf_of (d d' : descr) : Prop :=
    d' = d \/ exists u0 u, uid_str (with_uid d u0) = Some u /\ u <> EmptyString
                           /\ verify T (with_uid d u0) = inr d'.

  Lemma uid_str_getv d u : uid_str d = Some u -> getv uid_key d = VA (AStr u).
  Proof.
    unfold uid_str. destruct (getv uid_key d) as [[| | | |s]| |]; try discriminate.
    intro H; injection H as ->; reflexivity.
  Qed.

  Lemma verified_uid d u d' :
    uid_str d = Some u -> verify T d = inr d' -> getv uid_key d' = VA (AStr u).
  Proof.
    intros Hu Hv. pose proof (verify_untouched T W uid_key _ d d' Hv uid_untouched uid_type) as Hc.
    rewrite (uid_str_getv _ _ Hu) in Hc. simpl in Hc. injection Hc as Hc. symmetry; exact Hc.
  Qed.

  Lemma nf_of_step d d' u0 u d'' :
    nf_of d d' -> uid_str (with_uid d' u0) = Some u -> u <> EmptyString ->
    verify T (with_uid d' u0) = inr d'' -> nf_of d d''.
  Proof.
    intros [->|(v0 & v & Hs & Hne & Hv)] Hu Hn Hv2.
    - right. exists u0, u. repeat split; assumption.
    - (* d' is verified already: it has its uid, a second verify changes nothing *)
      assert (Hg : getv uid_key d' = VA (AStr v)) by (apply (verified_uid _ _ _ Hs Hv)).
      assert (Hw : with_uid d' u0 = d').
      { unfold with_uid. rewrite Hg. simpl.
        destruct (String.eqb_spec v EmptyString) as [->|_]; [congruence|reflexivity]. }
      rewrite Hw in Hv2. rewrite (verify_idempotent T W _ _ Hv) in Hv2. injection Hv2 as <-.
      right. exists v0, v. repeat split; assumption.
  Qed.

  Lemma gen_uid_nonempty n : gen_uid n <> EmptyString.
  Proof. unfold gen_uid. simpl. discriminate. Qed.

  Lemma with_uid_nonempty d u0 u :
    u0 <> EmptyString -> uid_str (with_uid d u0) = Some u -> u <> EmptyString.
  Proof.
    intros H0 Hu. unfold with_uid in Hu. destruct (truthy (getv uid_key d)) eqn:Et.
    - intros ->. rewrite (uid_str_getv _ _ Hu) in Et. discriminate Et.
    - unfold uid_str in Hu. rewrite getv_set_same in Hu. injection Hu as <-. exact H0.
  Qed.

  (* Slot i holds what it held at the start, or the normal form of that.  The loop keeps this
     of every slot but the one it refuses, and to see it of slot i nothing need be known of
     the other slots. *)
  Definition slot_nf (st0 st : dstore) (i : nat) : Prop :=
    forall d', slot_get i st = Some d' -> exists d, slot_get i st0 = Some d /\ nf_of d d'.

  Lemma slot_nf_set st0 st i k v :
    slot_nf st0 st i -> (k = i -> exists d, slot_get i st0 = Some d /\ nf_of d v) ->
    slot_nf st0 (slot_set k v st) i.
  Proof.
    intros Inv Hv d' Hg. destruct (Nat.eq_dec k i) as [E|N].
    - subst k. rewrite slot_get_set_same in Hg. injection Hg as <-. apply Hv; reflexivity.
    - rewrite slot_get_set_other in Hg by exact N. apply Inv, Hg.
  Qed.

  Lemma submit_loop_inv st0 i ids : forall s made s' out made',
    submit_loop (verify T) ids s made = (s', out, made') -> ~ In i (out_slot out) ->
    slot_nf st0 (ss_store s) i -> slot_nf st0 (ss_store s') i.
  Proof.
    induction ids as [|k r IH]; intros s made s' out made' H Hi Inv; simpl in H.
    - injection H as <- _ _. exact Inv.
    - destruct (slot_get k (ss_store s)) as [d|] eqn:Ed; [|injection H as <- _ _; exact Inv].
      destruct (uid_str (with_uid d (gen_uid (ss_gen s)))) as [u|] eqn:Eu;
        [|injection H as <- _ _; exact Inv].
      destruct (negb (negb (truthy (getv uid_key d))) && mem_str u (ss_known s));
        [injection H as <- _ _; exact Inv|].
      destruct (verify T (with_uid d (gen_uid (ss_gen s)))) as [e|v] eqn:Ev.
      + (* a refused description stays as with_uid left it: its slot is the one excepted *)
        injection H as <- <- _. apply slot_nf_set; [exact Inv|].
        intros ->. destruct Hi; left; reflexivity.
      + apply (IH _ _ _ _ _ H Hi). apply slot_nf_set; [exact Inv|]. intros ->.
        destruct (Inv d Ed) as (d0 & H0 & Hn). exists d0; split; [exact H0|].
        apply (nf_of_step d0 d _ u v Hn Eu); [|exact Ev].
        apply (with_uid_nonempty _ _ _ (gen_uid_nonempty _) Eu).
  Qed.

  Lemma submit_calls_inv st0 i calls : forall s s' res,
    submit_calls (verify T) calls s = (s', res) ->
    ~ In i (List.concat (map (fun r => out_slot (fst (fst r))) res)) ->
    slot_nf st0 (ss_store s) i -> slot_nf st0 (ss_store s') i.
  Proof.
    induction calls as [|ids r IH]; intros s s' res H Hi Inv; simpl in H.
    - injection H as <- _. exact Inv.
    - unfold submit_call in H.
      destruct (submit_loop (verify T) ids s []) as [[s1 out] made] eqn:E1.
      destruct (submit_calls (verify T) r s1) as [s2 rest] eqn:E2.
      injection H as <- <-. simpl in Hi. rewrite in_app_iff in Hi.
      apply (IH _ _ _ E2); [tauto|]. apply (submit_loop_inv _ _ _ _ _ _ _ _ E1); [tauto|exact Inv].
  Qed.

  (* bulk independence: after any sequence of submit calls, on any bulks, every description
     object that was not itself refused is its own source or the normal form of its own
     source -- whatever the other elements were, refused or not *)
  Theorem submit_bulk_independent st0 known gen calls s' res :
    submit_calls (verify T) calls (mkSub st0 known gen) = (s', res) ->
    forall i d', ~ In i (List.concat (map (fun r => out_slot (fst (fst r))) res)) ->
                 slot_get i (ss_store s') = Some d' ->
                 exists d, slot_get i st0 = Some d /\ nf_of d d'.
  Proof.
    intros H i d' Hi. apply (submit_calls_inv st0 i _ _ _ _ H Hi).
    intros d Hd. exists d; split; [exact Hd|left; reflexivity].
  Qed.
End Bulk.

