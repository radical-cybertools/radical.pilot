(* The two stores of the description model as association lists: attributes by name,
   description objects by slot number.  The proofs about verify and about sequences use only
   what an assignment does to a later read and to the list of keys. *)
From Coq Require Import Arith List.
From RP Require Import Common.ListFacts Descr.Model.
Import ListNotations.

Lemma lookup_set_same {A} k (v : A) d : lookup k (set k v d) = Some v.
Proof.
  induction d as [|[k' v'] r IH]; simpl.
  - rewrite String.eqb_refl; reflexivity.
  - destruct (String.eqb k k') eqn:E; simpl.
    + rewrite String.eqb_refl; reflexivity.
    + rewrite E; exact IH.
Qed.

Lemma lookup_set_other {A} k k' (v : A) d : k <> k' -> lookup k' (set k v d) = lookup k' d.
Proof.
  intros Hne; induction d as [|[k2 v2] r IH]; simpl.
  - destruct (String.eqb_spec k' k) as [->|]; [congruence|reflexivity].
  - destruct (String.eqb_spec k k2) as [->|Hk]; simpl.
    + destruct (String.eqb_spec k' k2) as [->|]; [congruence|reflexivity].
    + destruct (String.eqb k' k2); [reflexivity|exact IH].
Qed.

Lemma getv_set_same k v d : getv k (set k v d) = v.
Proof. unfold getv; rewrite lookup_set_same; reflexivity. Qed.

Lemma getv_set_other k k' v d : k <> k' -> getv k' (set k v d) = getv k' d.
Proof. intros H; unfold getv; rewrite lookup_set_other by exact H; reflexivity. Qed.

Lemma getv_cons k k' v d : getv k ((k', v) :: d) = if String.eqb k k' then v else getv k d.
Proof. unfold getv; simpl. destruct (String.eqb k k'); reflexivity. Qed.

Lemma mem_str_In s l : mem_str s l = true <-> In s l.
Proof. apply (existsb_eqb_In _ String.eqb_eq). Qed.

Lemma mem_str_false s l : mem_str s l = false <-> ~ In s l.
Proof. apply (existsb_eqb_not_In _ String.eqb_eq). Qed.

Lemma keys_set {A} k (v : A) d :
  map fst (set k v d) = if mem_str k (map fst d) then map fst d else map fst d ++ [k].
Proof.
  induction d as [|[k' v'] r IH]; simpl; [reflexivity|].
  destruct (String.eqb_spec k k') as [->|Hne]; simpl; [reflexivity|].
  rewrite IH. unfold mem_str. destruct (existsb (String.eqb k) (map fst r)); reflexivity.
Qed.

Lemma keys_set_in {A} k (v : A) d : In k (map fst d) -> map fst (set k v d) = map fst d.
Proof. intros H; rewrite keys_set. apply mem_str_In in H; rewrite H; reflexivity. Qed.

Lemma in_keys_set {A} k k' (v : A) d :
  In k' (map fst (set k v d)) <-> k' = k \/ In k' (map fst d).
Proof.
  rewrite keys_set. destruct (mem_str k (map fst d)) eqn:E.
  - apply mem_str_In in E. split; [auto|intros [->|H]; assumption].
  - rewrite in_app_iff. simpl. split; [intros [H|[->|[]]]; auto|intros [->|H]; auto].
Qed.

Lemma set_NoDup_keys {A} k (v : A) d : NoDup (map fst d) -> NoDup (map fst (set k v d)).
Proof.
  intro H. rewrite keys_set.
  destruct (mem_str k (map fst d)) eqn:E; [exact H|].
  apply (NoDup_Add (Add_app k _ [])). rewrite app_nil_r. split; [exact H|apply mem_str_false, E].
Qed.

Lemma update_cons d k v r : update d ((k, v) :: r) = update (set k v d) r.
Proof. reflexivity. Qed.

Lemma copy_val_id v : copy_val v = v.
Proof.
  destruct v as [a|l|l]; simpl; [reflexivity| |].
  - rewrite map_id; reflexivity.
  - f_equal. induction l as [|[k a] r IH]; simpl; [reflexivity|]. rewrite IH; reflexivity.
Qed.

Lemma as_dict_id d : as_dict d = d.
Proof.
  unfold as_dict. induction d as [|[k v] r IH]; simpl; [reflexivity|].
  rewrite copy_val_id, IH; reflexivity.
Qed.

Lemma slot_get_set_same i d st : slot_get i (slot_set i d st) = Some d.
Proof.
  induction st as [|[j d'] r IH]; simpl.
  - rewrite Nat.eqb_refl; reflexivity.
  - destruct (Nat.eqb i j) eqn:E; simpl; [rewrite Nat.eqb_refl; reflexivity|rewrite E; exact IH].
Qed.

Lemma slot_get_set_other i j d st : i <> j -> slot_get j (slot_set i d st) = slot_get j st.
Proof.
  intro H. induction st as [|[k d'] r IH]; simpl.
  - destruct (Nat.eqb_spec j i); [congruence|reflexivity].
  - destruct (Nat.eqb_spec i k) as [->|N]; simpl.
    + destruct (Nat.eqb_spec j k); [congruence|reflexivity].
    + destruct (Nat.eqb j k); [reflexivity|exact IH].
Qed.
